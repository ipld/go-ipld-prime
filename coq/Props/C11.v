(* Props/C11.v — a finished node never changes; reads are repeatable.
   Property theorems only: the general ones are instances of, or short derivations from, lemmas proved in
   coq/Proofs/Heap*.v (one is an induction along the history over two of them, C11_readers_are_leaves), the
   examples and refutations are evaluations of the model.

   Model: coq/Heap/GoMem.v (heap, append semantics, readers), coq/Heap/BasicHeap.v (node/basicnode
   and the subset matcher as heap programs), coq/Heap/Script.v (library clients as API call sequences).
   A history is a list of API calls ([prim]) whose operands are the handles earlier calls returned.
   [legalh] = the call orders the builder contract allows (no Begin on a finished assembler, no
   second Assign on a scalar builder, no Build before Assign) and no caller writes into byte slices.
   [read_obs ps r a] = what accessor [a] of node [r] returns in state [ps]. *)
Require Import IP.Base.Bytes IP.DM.Value IP.Heap.GoMem IP.Heap.BasicHeap.
Require Import IP.Heap.Script.
Require Import IP.Proofs.HeapMem IP.Proofs.HeapLogic IP.Proofs.HeapOps IP.Proofs.HeapPrims IP.Proofs.HeapC11 IP.Proofs.HeapScript IP.Proofs.HeapReaders IP.Proofs.HeapEngine.
From Coq Require Import List ZArith Bool.
Import ListNotations.
Local Open Scope nat_scope.

(* The full statement: for every Legal history, every node handed out during a prefix of it, and
   every accessor, the read returns the same before and after the rest of the history. *)
Definition C11_full (cf : cfg) : Prop :=
  forall hs1 hs2, legalh cf pinit (hs1 ++ hs2) = true ->
  forall r, known_b (kn (runh cf pinit hs1)) (HNode r) = true ->
  forall a, read_obs cf (runh cf pinit hs1) r a = read_obs cf (runh cf pinit (hs1 ++ hs2)) r a.

(* It holds — for every append growth policy — once streamBytes reads are position-independent
   (the repaired tree: fixes/streambytes-rewind.diff). *)
Theorem C11_stable : forall cf, cf_stream_shared cf = false -> C11_full cf.
Proof. intros cf H hs1 hs2 Hl r Hk a. apply stable_gen; auto. Qed.
Print Assumptions C11_stable.

(* On the pinned tree it holds for every accessor except AsBytes / AsLargeBytes of a streamBytes
   node (in particular for every node that is not a streamBytes, and for Kind, Length, lookups and
   iteration of every node). *)
Theorem C11_stable_partial : forall cf hs1 hs2, legalh cf pinit (hs1 ++ hs2) = true ->
  forall r, known_b (kn (runh cf pinit hs1)) (HNode r) = true ->
  forall a, stream_acc r a = false ->
  read_obs cf (runh cf pinit hs1) r a = read_obs cf (runh cf pinit (hs1 ++ hs2)) r a.
Proof. intros cf hs1 hs2 Hl r Hk a Hs. apply stable_gen; auto. Qed.
Print Assumptions C11_stable_partial.

(* Two reads of the same accessor are equal (the second read is performed in the state the first left). *)
Theorem C11_repeat : forall cf, cf_stream_shared cf = false ->
  forall hs, legalh cf pinit hs = true ->
  forall r, known_b (kn (runh cf pinit hs)) (HNode r) = true ->
  forall a, read_obs cf (runh cf pinit hs) r a =
            read_obs cf (fst (pstep cf (runh cf pinit hs) (PRead (HNode r) a))) r a.
Proof. intros cf H hs Hl r Hk a. apply repeat_gen; auto. Qed.
Print Assumptions C11_repeat.

Theorem C11_repeat_partial : forall cf hs, legalh cf pinit hs = true ->
  forall r, known_b (kn (runh cf pinit hs)) (HNode r) = true ->
  forall a, stream_acc r a = false ->
  read_obs cf (runh cf pinit hs) r a =
  read_obs cf (fst (pstep cf (runh cf pinit hs) (PRead (HNode r) a))) r a.
Proof. intros cf hs Hl r Hk a Hs. apply repeat_gen; auto. Qed.
Print Assumptions C11_repeat_partial.

(* The ownership invariant behind both: along every Legal history there is a tagging of the heap
   under which every backing array / map / struct is either owned by one assembler or frozen (an unfinished
   assembler's struct, array and map are owned by it alone; what the AssignNode shortcut or a Reset abandoned
   stays tagged with its last owner, of whom the invariant asks nothing), frozen cells refer to frozen cells only, and every node
   the client holds is frozen. *)
Theorem C11_ownership_invariant : forall cf hs, legalh cf pinit hs = true ->
  exists tg, Inv tg (hp (runh cf pinit hs)) /\
             Forall (fun hd => handle_ok hd tg (hp (runh cf pinit hs))) (kn (runh cf pinit hs)).
Proof. intros cf hs Hl. destruct (runh_inv cf hs _ _ sinv_init Hl) as (tg & [I K] & _). eauto. Qed.
Print Assumptions C11_ownership_invariant.

(* What the harness runs is covered: the library's clients as modelled in coq/Heap/Script.v
   (datamodel.Copy, FocusedTransform, value producers / decoders, encode, walk, the dumper, with the
   re-dump of every register after every step) only make API calls, so every script whose legality
   flag is still true is a Legal history … *)
Theorem C11_scripts_are_legal_histories : forall cf os,
  slegal (run_script cf sinit os) = true ->
  exists hs, legalh cf pinit hs = true /\ runh cf pinit hs = fst (sx (run_script cf sinit os)).
Proof. intros cf os Hl. destruct (steps_legal_history cf _ _ (run_script_steps cf os sinit) Hl) as [_ H]. exact H. Qed.
Print Assumptions C11_scripts_are_legal_histories.

(* … and a node read after a prefix of a script reads the same after the whole script. *)
Theorem C11_script_stable : forall cf os1 os2,
  slegal (run_script cf sinit (os1 ++ os2)) = true ->
  forall r, known_b (kn (fst (sx (run_script cf sinit os1)))) (HNode r) = true ->
  forall a, cf_stream_shared cf = false \/ stream_acc r a = false ->
  read_obs cf (fst (sx (run_script cf sinit os1))) r a = read_obs cf (fst (sx (run_script cf sinit (os1 ++ os2)))) r a.
Proof.
  intros cf os1 os2 Hl r Hk a Hs. rewrite run_script_app in *.
  destruct (steps_legal_history cf _ _ (run_script_steps cf os2 (run_script cf sinit os1)) Hl) as [Hl1 (hs2 & L2 & R2)].
  destruct (steps_legal_history cf _ _ (run_script_steps cf os1 sinit) Hl1) as [_ (hs1 & L1 & R1)].
  cbn [fst sx sinit] in *. rewrite <- R2, <- R1 in *. rewrite <- runh_app.
  apply stable_gen; [|assumption|assumption]. rewrite legalh_app, L1. exact L2.
Qed.
Print Assumptions C11_script_stable.

(* Full statement for the readers AsLargeBytes hands out (Read(n), Seek, several alive): a reader is moved
   only by the reads and seeks made on it; whatever other readers (of the same node or of others),
   accessors, subset matches and builders do in between, its cell is untouched.  [touches x p] (coq/Proofs/HeapReaders.v) = "p is a Read or Seek
   on the reader in cell x". *)
Definition C11_readers_full (cf : cfg) : Prop :=
  forall hs1 hs2, legalh cf pinit (hs1 ++ hs2) = true ->
  forall x, known_b (kn (runh cf pinit hs1)) (HReader x) = true ->
  forallb (fun p => negb (touches x p)) hs2 = true ->
  hget (hp (runh cf pinit (hs1 ++ hs2))) x = hget (hp (runh cf pinit hs1)) x.

(* Along a Legal history of the repaired configuration every reader the client holds is a leaf reader
   (a bytes.Reader or a streamCursor: its Read/Seek stores to its own cell only). *)
Theorem C11_readers_are_leaves : forall cf, cf_stream_shared cf = false -> forall hs tg ps,
  SInv tg ps -> RInv ps -> legalh cf ps hs = true ->
  exists tg', SInv tg' (runh cf ps hs) /\ RInv (runh cf ps hs).
Proof.
  intros cf Hrep. induction hs as [|p hs IH]; cbn; intros tg ps HS HR Hl; [eauto|].
  apply andb_true_iff in Hl. destruct Hl as [L1 L2].
  destruct (pstep_inv cf tg ps p HS L1) as (tg1 & S1 & _).
  eapply IH; eauto. eapply rinv_step; eauto.
Qed.
Print Assumptions C11_readers_are_leaves.

(* One call: in any state that satisfies the ownership invariant and in which every reader the client
   holds is a leaf reader (both hold along every Legal history: C11_ownership_invariant,
   C11_readers_are_leaves), a Legal call that is not a Read/Seek on x has no store to x in its access log. *)
Theorem C11_reader_step_footprint : forall cf tg ps p x, cf_stream_shared cf = false ->
  SInv tg ps -> RInv ps -> legal ps p = true ->
  known_b (kn ps) (HReader x) = true -> touches x p = false ->
  hgetv (hp (fst (pstep cf ps p))) x = hgetv (hp ps) x /\ ~ In x (stores (call_log cf ps p)).
Proof. intros cf tg ps p x Hrep HS HR Hl Hk. apply (reader_untouched_step cf tg); auto. exact (known_ok _ _ _ _ (proj2 HS) Hk). Qed.
Print Assumptions C11_reader_step_footprint.

(* Hence along a history, with the ghost write counter: the cell is not even stored to. *)
Theorem C11_reader_untouched : forall cf, cf_stream_shared cf = false -> forall hs1 hs2,
  legalh cf pinit (hs1 ++ hs2) = true ->
  forall x, known_b (kn (runh cf pinit hs1)) (HReader x) = true ->
  forallb (fun p => negb (touches x p)) hs2 = true ->
  hgetv (hp (runh cf pinit (hs1 ++ hs2))) x = hgetv (hp (runh cf pinit hs1)) x.
Proof.
  intros cf Hrep hs1 hs2 Hl x Hk Ht.
  rewrite legalh_app in Hl. apply andb_true_iff in Hl. destruct Hl as [L1 L2].
  destruct (C11_readers_are_leaves cf Hrep hs1 _ _ sinv_init rinv_init L1) as (tg1 & S1 & R1).
  rewrite runh_app. eapply reader_untouched_runh; eauto. exact (known_ok _ _ _ _ (proj2 S1) Hk).
Qed.
Print Assumptions C11_reader_untouched.

(* So the full statement holds on the repaired configuration (every append growth policy, either map-copy
   behaviour); the argument is laid out at the head of coq/Proofs/HeapReaders.v. *)
Theorem C11_reader_independent : forall cf, cf_stream_shared cf = false -> C11_readers_full cf.
Proof. intros cf Hrep hs1 hs2 Hl x Hk Ht. unfold hget. rewrite C11_reader_untouched; auto. Qed.
Print Assumptions C11_reader_independent.

(* What holds without the hypothesis on the configuration (empty where streamBytes shares one reader: cursors
   are handed out by the repaired AsLargeBytes only):
   along a Legal history a cursor stays a cursor over the same source, the content that source
   denotes does not change, and a read yields exactly content[offset:] of the cursor's own offset
   — whatever other readers, accessors and matches did in between. *)
Theorem C11_reader_independent_partial : forall cf hs1 hs2,
  legalh cf pinit (hs1 ++ hs2) = true ->
  forall x src o1,
  known_b (kn (runh cf pinit hs1)) (HReader x) = true ->
  hget (hp (runh cf pinit hs1)) x = Some (CRdr (RdCursor src o1)) ->
  exists o2,
    hget (hp (runh cf pinit (hs1 ++ hs2))) x = Some (CRdr (RdCursor src o2)) /\
    source_content (runh cf pinit (hs1 ++ hs2)) src = source_content (runh cf pinit hs1) src /\
    forall k c, source_content (runh cf pinit (hs1 ++ hs2)) src = Done c ->
      snd (pstep cf (runh cf pinit (hs1 ++ hs2)) (PReaderRead (HReader x) k))
        = RDone (PAcc (XBytes (take_k k (skipn o2 c)) None)).
Proof.
  intros cf hs1 hs2 Hl x src o1 Hk Hx.
  rewrite legalh_app in Hl. apply andb_true_iff in Hl. destruct Hl as [L1 L2].
  destruct (runh_inv cf hs1 _ _ sinv_init L1) as (tg1 & [I1 K1] & _).
  destruct (runh_inv cf hs2 _ _ (conj I1 K1) L2) as (tg2 & [I2 K2] & E2).
  rewrite runh_app.
  pose proof (known_ok _ _ _ _ K1 Hk) as [Tx _]. cbn in Tx.
  destruct (ext_rdr _ _ _ _ _ _ E2 Tx Hx) as (r2 & Hx2 & Eq).
  destruct r2 as [| |src2 o2]; cbn in Eq; try contradiction. subst src2.
  exists o2. split; [assumption|].
  split.
  - unfold source_content. rewrite !runh_par. symmetry.
    apply (rd_content_stable tg1 _ tg2 _ I1 E2). exact (inv_frozen_at _ _ _ _ I1 Tx Hx).
  - intros k c Hc. apply (cursor_read_spec cf _ x src o2 k c Hx2 Hc).
Qed.
Print Assumptions C11_reader_independent_partial.

(* Hence the oracle of the harness: the bytes a cursor yields next are content[off:] for the offset
   its OWN reads and seeks left — nothing done in between by anyone else enters. *)
Theorem C11_reader_next_read : forall cf, cf_stream_shared cf = false -> forall hs1 hs2,
  legalh cf pinit (hs1 ++ hs2) = true ->
  forall x src off, known_b (kn (runh cf pinit hs1)) (HReader x) = true ->
  hget (hp (runh cf pinit hs1)) x = Some (CRdr (RdCursor src off)) ->
  forallb (fun p => negb (touches x p)) hs2 = true ->
  forall k c, source_content (runh cf pinit hs1) src = Done c ->
    snd (pstep cf (runh cf pinit (hs1 ++ hs2)) (PReaderRead (HReader x) k))
      = RDone (PAcc (XBytes (take_k k (skipn off c)) None)).
Proof.
  intros cf Hrep hs1 hs2 Hl x src off Hk Hx Ht k c Hc.
  destruct (C11_reader_independent_partial cf hs1 hs2 Hl x src off Hk Hx) as (o2 & Hx2 & Hs & Hrd).
  unfold hget in Hx, Hx2. rewrite (C11_reader_untouched cf Hrep hs1 hs2 Hl x Hk Ht), Hx in Hx2. inversion Hx2; subst o2.
  apply Hrd. rewrite Hs. assumption.
Qed.
Print Assumptions C11_reader_next_read.

Definition w_slice8 : slice := {| s_arr := Some (0, 0); s_off := 0; s_len := 8; s_cap := 8 |}.

(* repaired configuration: reader (0,2) reads 3 bytes, a second reader of the same node seeks to the
   end, the first goes on and gets the rest *)
Definition w_readers : list prim :=
  [PNewSlice [97; 98; 99; 100; 101; 102; 103; 104]%N; PNewStreamNode (HSlice w_slice8);
   PLargeBytes (HNode (RStream (0, 1))); PReaderRead (HReader (0, 2)) (Some 3);
   PLargeBytes (HNode (RStream (0, 1))); PReaderSeek (HReader (0, 3)) 0 SeekEnd].

Example C11_readers_independent_repaired :
  legalh cfg_repaired pinit w_readers = true /\
  hget (hp (runh cfg_repaired pinit w_readers)) (0, 2) = Some (CRdr (RdCursor (0, 1) 3)) /\
  snd (pstep cfg_repaired (runh cfg_repaired pinit w_readers) (PReaderRead (HReader (0, 2)) None))
    = RDone (PAcc (XBytes [100; 101; 102; 103; 104]%N None)).
Proof. vm_compute. repeat split. Qed.

(* the hypotheses of C11_reader_independent are satisfiable by two interleaved readers: reader
   A = (0,2) has read 3 bytes; then a second reader B = (0,3) of the same node is handed out, reads,
   the node is read through AsBytes and through a subset match, B seeks to the end and reads again
   — A's cell (content and write counter) is what it was, B has moved, and A goes on at "d" *)
Definition w_two_1 : list prim :=
  [PNewSlice [97; 98; 99; 100; 101; 102; 103; 104]%N; PNewStreamNode (HSlice w_slice8);
   PLargeBytes (HNode (RStream (0, 1))); PReaderRead (HReader (0, 2)) (Some 3)].
Definition w_two_2 : list prim :=
  [PLargeBytes (HNode (RStream (0, 1))); PReaderRead (HReader (0, 3)) (Some 2);
   PRead (HNode (RStream (0, 1))) ABytes; PMatchSubset (HNode (RStream (0, 1))) 1 5;
   PRead (HNode (RStream (0, 4))) ALarge;
   PReaderSeek (HReader (0, 3)) 0 SeekEnd; PReaderRead (HReader (0, 3)) None].

Example C11_two_interleaved_readers :
  legalh cfg_repaired pinit (w_two_1 ++ w_two_2) = true /\
  known_b (kn (runh cfg_repaired pinit w_two_1)) (HReader (0, 2)) = true /\
  forallb (fun p => negb (touches (0, 2) p)) w_two_2 = true /\
  hgetv (hp (runh cfg_repaired pinit w_two_1)) (0, 2) = Some (CRdr (RdCursor (0, 1) 3), 1) /\
  hgetv (hp (runh cfg_repaired pinit (w_two_1 ++ w_two_2))) (0, 2) = Some (CRdr (RdCursor (0, 1) 3), 1) /\
  hget (hp (runh cfg_repaired pinit (w_two_1 ++ w_two_2))) (0, 3) = Some (CRdr (RdCursor (0, 1) 8)) /\
  snd (pstep cfg_repaired (runh cfg_repaired pinit (w_two_1 ++ w_two_2)) (PReaderRead (HReader (0, 2)) (Some 2)))
    = RDone (PAcc (XBytes [100; 101]%N None)).
Proof. vm_compute. repeat split. Qed.

(* pinned configuration: AsLargeBytes hands out the node's one reader every time, so the "second"
   reader's seek to the end leaves nothing for the first *)
Definition w_readers_pinned : list prim :=
  [PNewSlice [97; 98; 99; 100; 101; 102; 103; 104]%N; PNewStreamNode (HSlice w_slice8);
   PLargeBytes (HNode (RStream (0, 1))); PReaderRead (HReader (0, 1)) (Some 3);
   PLargeBytes (HNode (RStream (0, 1))); PReaderSeek (HReader (0, 1)) 0 SeekEnd].

Theorem C11_reader_independent_refuted_pinned :
  legalh cfg_pinned pinit w_readers_pinned = true /\
  snd (pstep cfg_pinned (runh cfg_pinned pinit w_readers_pinned) (PReaderRead (HReader (0, 1)) None))
    = RDone (PAcc (XBytes [] None)).
Proof. vm_compute. split; reflexivity. Qed.
Print Assumptions C11_reader_independent_refuted_pinned.

(* … and the full reader statement fails there: an AsBytes read of the node (not a call on the
   reader) moves the reader AsLargeBytes handed out, because it IS the node's one reader *)
Theorem C11_readers_full_refuted_pinned : ~ C11_readers_full cfg_pinned.
Proof.
  intros F.
  specialize (F [PNewSlice [97; 98; 99; 100; 101; 102; 103; 104]%N; PNewStreamNode (HSlice w_slice8);
                 PLargeBytes (HNode (RStream (0, 1)))]
                [PRead (HNode (RStream (0, 1))) ABytes] eq_refl (0, 1) eq_refl eq_refl).
  vm_compute in F. discriminate F.
Qed.
Print Assumptions C11_readers_full_refuted_pinned.

(* the pinned tree violates the full statement: streamBytes *)

Definition w_slice3 : slice := {| s_arr := Some (0, 0); s_off := 0; s_len := 3; s_cap := 3 |}.
Definition w_slice4 : slice := {| s_arr := Some (0, 0); s_off := 0; s_len := 4; s_cap := 4 |}.

(* basicnode.Prototype.Bytes.NewBuilder().AssignNode(basicnode.NewBytes("abc")); Build() *)
Definition w_stream_builder : list prim :=
  [PNewSlice [97; 98; 99]%N; PNewBytesNode (HSlice w_slice3); PNewBuilder PrBytes;
   PAssignNode (HBuilder (0, 1)) (HNode (RBytesP w_slice3)); PBuild (HBuilder (0, 1))].

(* a subset matcher over a bytes node *)
Definition w_stream_subset : list prim :=
  [PNewSlice [97; 98; 99; 100]%N; PNewBytesNode (HSlice w_slice4);
   PMatchSubset (HNode (RBytesP w_slice4)) 1 3].

Theorem C11_refuted_stream :
  legalh cfg_pinned pinit w_stream_builder = true /\
  known_b (kn (runh cfg_pinned pinit w_stream_builder)) (HNode (RStream (0, 2))) = true /\
  read_obs cfg_pinned (runh cfg_pinned pinit w_stream_builder) (RStream (0, 2)) ABytes
    = RDone (PAcc (XBytes [97; 98; 99]%N None)) /\
  read_obs cfg_pinned (fst (pstep cfg_pinned (runh cfg_pinned pinit w_stream_builder) (PRead (HNode (RStream (0, 2))) ABytes)))
           (RStream (0, 2)) ABytes
    = RDone (PAcc (XBytes [] None)).
Proof. vm_compute. repeat split. Qed.
Print Assumptions C11_refuted_stream.

Theorem C11_refuted_stream_subset :
  legalh cfg_pinned pinit w_stream_subset = true /\
  known_b (kn (runh cfg_pinned pinit w_stream_subset)) (HNode (RStream (0, 2))) = true /\
  read_obs cfg_pinned (runh cfg_pinned pinit w_stream_subset) (RStream (0, 2)) ABytes
    = RDone (PAcc (XBytes [98; 99]%N None)) /\
  read_obs cfg_pinned (fst (pstep cfg_pinned (runh cfg_pinned pinit w_stream_subset) (PRead (HNode (RStream (0, 2))) ABytes)))
           (RStream (0, 2)) ABytes
    = RDone (PAcc (XBytes [] None)).
Proof. vm_compute. repeat split. Qed.
Print Assumptions C11_refuted_stream_subset.

Theorem C11_full_refuted_pinned : ~ C11_full cfg_pinned.
Proof.
  intros F.
  specialize (F w_stream_builder [PRead (HNode (RStream (0, 2))) ABytes] eq_refl (RStream (0, 2)) eq_refl ABytes).
  vm_compute in F. discriminate F.
Qed.
Print Assumptions C11_full_refuted_pinned.

(* on the repaired configuration the second read of the first history returns "abc" again *)
Example C11_repaired_stream_reads :
  read_obs cfg_repaired (fst (pstep cfg_repaired (runh cfg_repaired pinit w_stream_builder) (PRead (HNode (RStream (0, 2))) ABytes)))
           (RStream (0, 2)) ABytes
    = RDone (PAcc (XBytes [97; 98; 99]%N None)).
Proof. vm_compute. reflexivity. Qed.

(* The typed engines have no model; the check covers them at the oracle level only (docs/C11.md).
   The history part of C11 does not depend on the engine: for ANY engine modelled over the Go heap
   — states with a heap, calls, a Legal predicate, handles handed out, reads through handles — the
   all-histories statement follows from two facts about single calls and single reads:
   (E1) every Legal call preserves the ownership invariant, keeps handed-out handles referring to
   frozen cells, and does not store to frozen cells (reader positions apart); (E2) a read through a handed-out handle depends
   on frozen cells only.  These are the obligations a bindnode model would have to discharge. *)
Theorem C11_any_engine : forall (St Call Hd Obs : Type) (hp_of : St -> mheap) (stepE : St -> Call -> St)
    (legalE : St -> Call -> bool) (knownE : St -> Hd -> Prop) (readE : mheap -> Hd -> Obs)
    (okE : Hd -> tags -> mheap -> Prop) (KE : tags -> St -> Prop),
  (forall tg s hd, KE tg s -> knownE s hd -> okE hd tg (hp_of s)) ->
  (forall tg s c, Inv tg (hp_of s) -> KE tg s -> legalE s c = true ->
     exists tg', Inv tg' (hp_of (stepE s c)) /\ KE tg' (stepE s c) /\ Ext tg (hp_of s) tg' (hp_of (stepE s c))) ->
  (forall tg h tg' h' hd, Inv tg h -> Ext tg h tg' h' -> okE hd tg h -> readE h hd = readE h' hd) ->
  forall tg0 s0, Inv tg0 (hp_of s0) -> KE tg0 s0 ->
  forall cs1 cs2, legalhE St Call stepE legalE s0 (cs1 ++ cs2) = true ->
  forall hd, knownE (runE St Call stepE s0 cs1) hd ->
  readE (hp_of (runE St Call stepE s0 cs1)) hd = readE (hp_of (runE St Call stepE s0 (cs1 ++ cs2))) hd.
Proof. exact engine_stable. Qed.
Print Assumptions C11_any_engine.

(* the hypotheses are satisfiable: basicnode is such an engine ((E1) = pstep_inv, (E2) = acc_stable),
   and the instance is C11_stable / C11_stable_partial again *)
Theorem C11_basicnode_is_an_engine : forall cf hs1 hs2, legalh cf pinit (hs1 ++ hs2) = true ->
  forall r a, bknown cf (runh cf pinit hs1) (r, a) ->
  bread cf (hp (runh cf pinit hs1)) (r, a) = bread cf (hp (runh cf pinit (hs1 ++ hs2))) (r, a).
Proof. exact basic_engine_stable. Qed.
Print Assumptions C11_basicnode_is_an_engine.

(* a list built with spare capacity, shared by the AssignNode shortcut, its builder reset and reused *)
Definition w_sharing : list prim :=
  [PNewBuilder PrList; PBeginList (HBuilder (0, 1)) 4; PAssembleValue (HListAsm (0, 1));
   PAssign (HValL (0, 1)) (AvScalar (SInt 1)); PFinish (HListAsm (0, 1)); PBuild (HBuilder (0, 1));
   PNewBuilder PrList; PAssignNode (HBuilder (0, 5)) (HNode (RList (0, 0))); PBuild (HBuilder (0, 5));
   PReset (HBuilder (0, 1)); PBeginList (HBuilder (0, 1)) 0; PAssembleValue (HListAsm (0, 1));
   PAssign (HValL (0, 1)) (AvScalar (SInt 7)); PFinish (HListAsm (0, 1)); PBuild (HBuilder (0, 1))].

Example C11_hypotheses_satisfiable :
  legalh cfg_pinned pinit w_sharing = true /\
  known_b (kn (runh cfg_pinned pinit (firstn 6 w_sharing))) (HNode (RList (0, 0))) = true /\
  read_obs cfg_pinned (runh cfg_pinned pinit w_sharing) (RList (0, 0)) ALength = RDone (PAcc (XLen 1)) /\
  read_obs cfg_pinned (runh cfg_pinned pinit w_sharing) (RList (0, 4)) ALength = RDone (PAcc (XLen 1)).
Proof. vm_compute. repeat split. Qed.

(* misuse the contract forbids: BeginMap on a builder after Build without Reset overwrites the
   tables of the node already returned — such a history is not Legal *)
Definition w_misuse : list prim :=
  [PNewBuilder PrMap; PBeginMap (HBuilder (0, 1)) 1; PAssembleEntry (HMapAsm (0, 1)) [107]%N;
   PAssign (HValM (0, 1)) (AvScalar (SInt 1)); PFinish (HMapAsm (0, 1)); PBuild (HBuilder (0, 1))].

Example C11_misuse_is_outside_legal :
  legalh cfg_pinned pinit w_misuse = true /\
  legalh cfg_pinned pinit (w_misuse ++ [PBeginMap (HBuilder (0, 1)) 0]) = false /\
  read_obs cfg_pinned (runh cfg_pinned pinit w_misuse) (RMap (0, 0)) ALength = RDone (PAcc (XLen 1)) /\
  read_obs cfg_pinned (runh cfg_pinned pinit (w_misuse ++ [PBeginMap (HBuilder (0, 1)) 0])) (RMap (0, 0)) ALength
    = RDone (PAcc (XLen 0)).
Proof. vm_compute. repeat split. Qed.
