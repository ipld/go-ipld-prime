(* Props/C15.v — traversal controls only restrict a walk.  Property theorems with their proofs: the last
   step from the lemmas of Proofs/Trav*.v (the closed forms of TravSkip / TravOnce / TravBudget / TravStart under
   ctl_sim of TravCtl); the three readings of start_spec at the end are list inductions of their own.  U is always
   the unrestricted walk of Trav/Walk.v ([walk_adv]); R the walk of Trav/Controls.v under one control
   ([cwalk_adv]). *)
Require Import IP.Base.Bytes IP.DM.Value IP.Trav.Selector IP.Trav.Walk IP.Trav.Controls IP.Trav.ControlsSpec
  IP.Proofs.TravFacts IP.Proofs.TravCtl IP.Proofs.TravBudget IP.Proofs.TravSkip IP.Proofs.TravOnce IP.Proofs.TravStart
  IP.Proofs.TravC15Examples.
Open Scope Z_scope.

(* with every control off, the controlled walk is the plain walk *)
Theorem C15_controls_off : forall q g f root s, cwalk_adv q no_ctl g f None root s = walk_adv q g f root s.
Proof.
  intros q g f root s. unfold cwalk_adv, walk_adv. change {| w_budget := None; w_seen := [] |} with (nst []).
  change no_ctl with (start_ctl []).
  rewrite (ctl_sim q _ g _ (past_closed []) f (nst []) false [] [] root s (inert_nostart (start_ctl []) _ _ eq_refl) eq_refl).
  reflexivity.
Qed.
Print Assumptions C15_controls_off.

(* budgets, exact form: for all graphs, selectors, fuel and budgets, R is U cut right before the first
   visit (load) for which the node (link) budget is used up, and the error is that budget's *)
Theorem C15_budget_cut : forall q g f nb lb root s,
  cwalk_adv q no_ctl g f (Some (nb, lb)) root s = cut_run nb lb (walk_adv q g f root s).
Proof.
  intros q g f nb lb root s. unfold cwalk_adv, walk_adv.
  change {| w_budget := Some (nb, lb); w_seen := [] |} with (bst (nb, lb) []).
  rewrite (ctl_sim q _ g _ budget_closed f _ false [] [] root s (inert_nostart no_ctl _ _ eq_refl) nb lb [] eq_refl).
  reflexivity.
Qed.
Print Assumptions C15_budget_cut.

Theorem C15_node_budget : forall q g f N L root s,
  let U := walk_adv q g f root s in
  let R := cwalk_adv q no_ctl g f (Some (N, L)) root s in
  0 <= N -> Z.of_nat (length (loads (fst U))) <= L ->
  visits (fst R) = firstn (Z.to_nat N) (visits (fst U)) /\
  (exists r, fst U = fst R ++ r) /\
  (snd R = OErr WNodeBudget <-> N < Z.of_nat (length (visits (fst U)))) /\
  (Z.of_nat (length (visits (fst U))) <= N -> R = U).
Proof.
  intros q g f N L root s U R H0 HL. subst R. rewrite C15_budget_cut. fold U.
  destruct (cut_node (fst U) N L H0 HL) as (A & B & C). split; [rewrite cut_run_fst; exact A|].
  apply cut_run_prefix; [exact (proj1 (walk_not_budget q g f [] [] root s))|exact B|exact C].
Qed.
Print Assumptions C15_node_budget.

Theorem C15_link_budget : forall q g f N L root s,
  let U := walk_adv q g f root s in
  let R := cwalk_adv q no_ctl g f (Some (N, L)) root s in
  0 <= L -> Z.of_nat (length (visits (fst U))) <= N ->
  loads (fst R) = firstn (Z.to_nat L) (loads (fst U)) /\
  (exists r, fst U = fst R ++ r) /\
  (snd R = OErr WLinkBudget <-> L < Z.of_nat (length (loads (fst U)))) /\
  (Z.of_nat (length (loads (fst U))) <= L -> R = U).
Proof.
  intros q g f N L root s U R H0 HL. subst R. rewrite C15_budget_cut. fold U.
  destruct (cut_link (fst U) N L H0 HL) as (A & B & C). split; [rewrite cut_run_fst; exact A|].
  apply cut_run_prefix; [exact (proj2 (walk_not_budget q g f [] [] root s))|exact B|exact C].
Qed.
Print Assumptions C15_link_budget.

(* visit-once: if U completes, R completes, is a sub-sequence of U (so are its visits), and loads no
   link twice *)
Theorem C15_once : forall q g f root s t,
  walk_adv q g f root s = (t, OOk) ->
  exists t', cwalk_adv q once_ctl g f None root s = (t', OOk)
             /\ subseq t' t /\ subseq (visits t') (visits t) /\ NoDup (load_cids t').
Proof.
  intros q g f root s t H. unfold cwalk_adv. change {| w_budget := None; w_seen := [] |} with (nst []).
  destruct (ctl_sim q _ g _ once_closed f (nst []) false [] [] root s (inert_nostart once_ctl _ _ eq_refl) [] t eq_refl H) as (t' & Hc & Hs & Hf).
  exists t'. rewrite Hc. repeat split; auto.
  - apply subseq_filter; exact Hs.
  - specialize (Hf (NoDup_nil _)). rewrite app_nil_r in Hf. rewrite <- (rev_involutive (load_cids t')). apply NoDup_rev, Hf.
Qed.
Print Assumptions C15_once.

(* SkipMe: if U completes, R is U without the events beneath a skipped link (the events whose link stack
   contains a link of K); the load attempt of a skipped link itself remains *)
Theorem C15_skip : forall q g K f root s t,
  walk_adv q g f root s = (t, OOk) ->
  cwalk_adv q (skip_ctl K) g f None root s = (skip_spec K t, OOk).
Proof.
  intros q g K f root s t H. unfold cwalk_adv. change {| w_budget := None; w_seen := [] |} with (nst []).
  rewrite (ctl_sim q _ g _ (skip_closed K) f (nst []) false [] [] root s (inert_nostart (skip_ctl K) _ _ eq_refl) eq_refl t H). reflexivity.
Qed.
Print Assumptions C15_skip.

(* start-at: if U completes, visits the start path, and explored siblings are pairwise distinct, R is: the
   loads on the start path, then U from the first visit of the start path on *)
Theorem C15_start_at : forall q g sp f root s t,
  walk_adv q g f root s = (t, OOk) -> walk_distinct q g f root s = true ->
  Exists (fun e => at_path (map SegS sp) e = true) t ->
  cwalk_adv q (start_ctl sp) g f None root s = (start_spec (map SegS sp) t, OOk).
Proof.
  intros q g sp f root s t H Hd Hex. unfold cwalk_adv. change {| w_budget := None; w_seen := [] |} with (nst []).
  rewrite (start_closed_form q g sp f [] [] [] root s t sp H Hd eq_refl Hex). reflexivity.
Qed.
Print Assumptions C15_start_at.

(* what start_spec means: the trace splits at the first visit of the start path; the visits of the restricted
   walk are exactly the visits of the second part; its loads are the on-path loads of the first part
   followed by the loads of the second part *)
Theorem C15_start_at_visits : forall sp t, visits (start_spec sp t) = visits (snd (split_at sp t)).
Proof.
  intros sp t. unfold start_spec. destruct (split_at sp t) as [b a]. cbn [snd]. unfold visits. rewrite filter_app.
  replace (filter is_visit (filter (on_path_load sp) b)) with (@nil event); [reflexivity|].
  induction b as [|e b IH]; [reflexivity|]. cbn. unfold on_path_load at 1.
  destruct e; cbn; [exact IH|]. destruct (strs_prefixb _ _); cbn; exact IH.
Qed.
Print Assumptions C15_start_at_visits.

Theorem C15_start_at_loads : forall sp t,
  loads (start_spec sp t) = filter (on_path_load sp) (fst (split_at sp t)) ++ loads (snd (split_at sp t)).
Proof.
  intros sp t. unfold start_spec. destruct (split_at sp t) as [b a]. cbn [fst snd]. unfold loads. rewrite filter_app.
  f_equal. induction b as [|e b IH]; [reflexivity|]. cbn. unfold on_path_load at 1 3.
  destruct e; cbn; [exact IH|]. destruct (strs_prefixb _ _); cbn; [f_equal|]; exact IH.
Qed.
Print Assumptions C15_start_at_loads.

Theorem C15_split_at_spec : forall sp t,
  let '(b, a) := split_at sp t in
  t = b ++ a /\ Forall (fun e => at_path sp e = false) b /\
  match a with [] => True | e :: _ => at_path sp e = true end.
Proof.
  intros sp t. induction t as [|e t IH]; cbn; [repeat split; constructor|].
  destruct (at_path sp e) eqn:E.
  - repeat split; [constructor|exact E].
  - destruct (split_at sp t) as [b a]. destruct IH as (-> & Hb & Ha). repeat split; auto.
Qed.
Print Assumptions C15_split_at_spec.

(* the hypotheses above are satisfiable *)
Theorem C15_hypotheses_satisfiable :
  snd ex_U = OOk /\ walk_distinct pinned ex_g 10 ex_root ex_sel = true /\
  Exists (fun e => at_path (map SegS [[98%N]; [49%N]]) e = true) (fst ex_U).
Proof. exact (conj (proj1 ex_U_ok) (conj ex_distinct ex_start_visited)). Qed.
Print Assumptions C15_hypotheses_satisfiable.
