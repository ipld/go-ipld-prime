(* Props/C17.v — block storage is a faithful key-value map: property theorems only.
   Models: Store/Storage.v (memstore, cidlink.Memory, storage/funcs.go fall-backs),
           Store/FsStore.v (fsstore over a POSIX file-system model; sharding from Gen/FromGo.v). *)
Require Import IP.Base.Bytes IP.Base.GoSem IP.Gen.FromGo IP.Store.Storage IP.Store.FsStore.
Require Import IP.Proofs.StoreBase IP.Proofs.StoreB32 IP.Proofs.StoreMem IP.Proofs.StoreFs IP.Proofs.StoreRefuted.
Require Import IP.Proofs.StoreCrash IP.Proofs.StoreCrashTop IP.Proofs.StoreSeq IP.Proofs.StoreGood IP.Proofs.StoreFsRefine.
From Coq Require Import List Bool.
Import ListNotations.

(* The in-memory stores refine the finite map  (projected) key -> bytes.
   For EVERY history inside the quantifier ([hist_ok]: handles exist, each projected key is only
   ever given one content, the caller does not write to slices obtained from Peek) the model of
   memstore / cidlink.Memory answers exactly as the specification [spec_run]: has / get /
   get-stream / peek agree with the map, absent keys are absent, and a put changes the answers for
   its own key only ([spec_put_other]).  cidlink.Memory is keyed by the CID's multihash by
   documented design: its projection is [cid_hash]. *)
Theorem C17_refines : forall cfg ops,
  hist_ok (mc_proj cfg) (mc_storage_api cfg) spec_empty ops = true ->
  mem_run cfg mem_empty ops = spec_run (mc_proj cfg) (mc_storage_api cfg) spec_empty ops.
Proof. intros. apply mem_refines_from; [apply sim_empty | assumption]. Qed.
Print Assumptions C17_refines.

Theorem C17_distinct_keys_never_alias : forall s pk pk' c,
  pk <> pk' -> lookup pk' (s_map (s_put s pk c)) = lookup pk' (s_map s).
Proof. exact spec_put_other. Qed.
Print Assumptions C17_distinct_keys_never_alias.

Example C17_refines_hyp_satisfiable :
  hist_ok (mc_proj memstore_cfg) true spec_empty
    [ONew [1;2;3]%N; OPut [7]%N 0; OMut 0 [9;9;9]%N; OGet [7]%N; OPeek [7]%N; OHas [8]%N;
     (* two streams open at the same time, writes interleaved *)
     OOpen; OOpen; OWrite 0 0; OWrite 1 0; OWrite 0 0; OCommit 1 [5]%N; OCommit 0 [6]%N; OGet [5]%N; OGet [6]%N] = true.
Proof. reflexivity. Qed.

(* insulation: Put(k, slice h), then any writes of the caller to slices it owns (h included):
   Get(k) still returns what h held at the time of the put *)
Theorem C17_insulated : forall cfg m s k h c ws,
  sim m s -> s_handle s h = Some c ->
  forallb is_caller_write ws = true ->
  hist_ok (mc_proj cfg) (mc_storage_api cfg) s (OPut k h :: ws ++ [OGet k]) = true ->
  last (mem_run cfg m (OPut k h :: ws ++ [OGet k])) OUnit = OBytes c.
Proof.
  intros cfg m s k h c ws H SH W OK.
  rewrite (mem_refines_from cfg _ m s H OK).
  simpl in OK. rewrite SH in OK.
  destruct (mc_proj cfg k) as [pk|] eqn:P; try discriminate.
  apply andb_true_iff in OK. destruct OK as [PC _].
  cbn [spec_run]. cbn [spec_step]. rewrite SH, P.
  remember (s_put s pk c) as s1.
  change (last (OOk :: spec_run (mc_proj cfg) (mc_storage_api cfg) s1 (ws ++ [OGet k])) OUnit = OBytes c).
  rewrite spec_run_app.
  remember (fold_left (fun s o => fst (spec_step (mc_proj cfg) (mc_storage_api cfg) s o)) ws s1) as s2.
  assert (M : lookup pk (s_map s2) = Some c).
  { subst s2. rewrite fold_caller_writes_map by auto. subst s1. apply spec_put_same. auto. }
  simpl spec_run at 2. rewrite P, M.
  rewrite app_comm_cons. rewrite last_last. auto.
Qed.
Print Assumptions C17_insulated.

Example C17_insulated_hyp_satisfiable :
  sim mem_empty spec_empty /\
  hist_ok (mc_proj memstore_cfg) true spec_empty
    [ONew [1;2;3]%N; OPut [7]%N 0; OMut 0 [9;9;9]%N; OGet [7]%N] = true.
Proof. split. exact sim_empty. reflexivity. Qed.

(* The file-system store, when the escaping function is applied and has the shape of base32
   (injective, output in [A-Z2-7], non-empty on non-empty keys): every path handed to a system call
   by any operation of any history has the base directory as a PROPER prefix, and no "..", "." or
   "/" in what follows *)
Theorem C17_fs_contained : forall cfg ops,
  escaping cfg -> cfg_wf cfg -> Forall (op_len_ok cfg) ops ->
  Forall (res_inside (f_base cfg)) (fs_run cfg (fstate0 cfg) ops).
Proof.
  intros. apply fs_run_inside; auto. simpl. apply fs_fresh_prefixes.
  intros sid sp HX. simpl in HX. destruct sid; discriminate.
Qed.
Print Assumptions C17_fs_contained.

Theorem C17_fs_injective : forall cfg, escaping cfg ->
  forall k1 k2 p, wfb k1 -> wfb k2 -> k1 <> [] -> k2 <> [] ->
  key_len_ok (enc_key cfg k1) -> key_len_ok (enc_key cfg k2) ->
  path_for_key cfg k1 = Some p -> path_for_key cfg k2 = Some p -> k1 = k2.
Proof.
  intros cfg HE k1 k2 p W1 W2 N1 N2 L1 L2 P1 P2.
  apply (keypath_inj cfg (escaping_enc_inj cfg HE) k1 k2 p); apply escaping_keypath; auto.
Qed.
Print Assumptions C17_fs_injective.

(* the sharding functions generated from storage/sharding/sharding.go never panic; the last
   component is the key, the others are 2-3 bytes of the key or '0' padding *)
Theorem C17_shard_total : forall sh k, key_len_ok k ->
  exists cs, shard_apply sh k = Some (cs ++ [k]) /\ length cs = shard_depth sh /\ Forall (shard_comp_ok k) cs.
Proof. exact shard_apply_spec. Qed.
Print Assumptions C17_shard_total.

(* base32 without padding (fsstore's default escaping function) HAS the required shape: injective on
   byte strings, output in [A-Z2-7], non-empty on non-empty input — so for the default configuration
   the hypothesis [escaping] of the theorems above is discharged ([wfb]: every element < 256) *)
Theorem C17_b32_shape : esc_ok b32enc.
Proof. exact b32_esc_ok. Qed.
Print Assumptions C17_b32_shape.

Theorem C17_repaired_cfg_escaping : forall base sh, escaping (repaired_cfg base sh).
Proof. exact repaired_escaping. Qed.
Print Assumptions C17_repaired_cfg_escaping.

(* The file-system store refines the same finite map (has / get / get-stream / peek agree,
   absent keys absent, distinct keys never alias), from the freshly initialised store, for every
   history inside the quantifier whose keys the store can hold ([storable]: non-empty, escaped
   form without '/', '.', NUL, at most 255 bytes).  ENOENT is the store's "not found" ([norm_obs]).
   [enc_key] injective: the escaping function is (quirk off), or no escaping at all (quirk on).
   2^254 bounds the model's counter-based staging names, nothing in the code. *)
Theorem C17_refines_fs : forall cfg,
  path_ok (f_base cfg) -> forall ops,
  (forall k k', wfb k -> wfb k' -> enc_key cfg k = enc_key cfg k' -> k = k') ->
  hist_ok (@Some (list N)) true spec_empty ops = true -> Forall (op_storable cfg) ops ->
  (N.of_nat (length ops) < 2 ^ 254)%N ->
  fs_obs cfg (fstate0 cfg) ops = spec_run (@Some (list N)) true spec_empty ops.
Proof. exact fs_refines. Qed.
Print Assumptions C17_refines_fs.

(* The statement of C17_refines_fs, read for histories that keep streams OPEN across other operations (OOpen /
   OWrite / OCommit as separate steps, any number at a time, commits in any order): [hist_ok] and [op_storable]
   admit them.  The simulation relation ([rel], Proofs/StoreFsRefine.v) ignores staging files: each stream the
   specification has open owns one, holding what was written to the stream, and the counter values not yet drawn name none. *)
Theorem C17_refines_fs_streams_full : forall cfg,
  path_ok (f_base cfg) -> forall ops,
  (forall k k', wfb k -> wfb k' -> enc_key cfg k = enc_key cfg k' -> k = k') ->
  hist_ok (@Some (list N)) true spec_empty ops = true -> Forall (op_storable cfg) ops ->
  (N.of_nat (length ops) < 2 ^ 254)%N ->
  fs_obs cfg (fstate0 cfg) ops = spec_run (@Some (list N)) true spec_empty ops.
Proof. exact fs_refines. Qed.
Print Assumptions C17_refines_fs_streams_full.

Theorem C17_refines_fs_repaired : forall base sh ops,
  path_ok base ->
  hist_ok (@Some (list N)) true spec_empty ops = true -> Forall (op_storable (repaired_cfg base sh)) ops ->
  (N.of_nat (length ops) < 2 ^ 254)%N ->
  fs_obs (repaired_cfg base sh) (fstate0 (repaired_cfg base sh)) ops = spec_run (@Some (list N)) true spec_empty ops.
Proof.
  intros base sh ops B H S L. apply fs_refines; auto.
  apply escaping_enc_inj. apply repaired_escaping.
Qed.
Print Assumptions C17_refines_fs_repaired.

(* with the escaping function applied, every non-empty key of at most 255 escaped bytes is storable *)
Theorem C17_escaping_makes_keys_storable : forall cfg k, escaping cfg -> wfb k -> k <> [] ->
  key_len_ok (enc_key cfg k) -> (lenN (enc_key cfg k) <=? name_max)%N = true -> exists d, storable cfg k d.
Proof. intros cfg k E WF N L S. apply storable_intro; auto. apply esc_plain; auto. Qed.
Print Assumptions C17_escaping_makes_keys_storable.

(* the pinned code (no escaping) is a faithful map exactly on keys without '/', '.', NUL *)
Theorem C17_pinned_plain_keys_storable : forall cfg k, q_no_escape cfg = true -> wfb k -> plain k -> key_len_ok k ->
  (lenN k <=? name_max)%N = true -> exists d, storable cfg k d.
Proof. exact plain_storable. Qed.
Print Assumptions C17_pinned_plain_keys_storable.

(* non-vacuity: two streams open across a Put / Get / Has of other keys AND of the key one of them
   is going to commit (same content: each key has one content); commits in the opposite order *)
Definition ex_kA : list N := [107;101;121;65].   (* "keyA" *)
Definition ex_kB : list N := [107;101;121;66].   (* "keyB" *)
Definition ex_kO : list N := [111;116;104;101;114]. (* "other" *)
Definition ex_stream_ops : list op :=
  [ONew content1; ONew [120;121]%N;
   OOpen; OOpen; OWrite 0 0;
   OPut ex_kO 1; OGet ex_kO; OHas ex_kA; OHas ex_kB;
   OWrite 1 1; OWrite 1 0;
   OPut ex_kA 0; OGet ex_kA; OMut 0 [1;2;3]%N;
   OCommit 1 ex_kB; OHas ex_kB; OGetStream ex_kB;
   OCommit 0 ex_kA; OGet ex_kA; OGet ex_kB; OHas ex_kO].

Example C17_refines_fs_hyp_satisfiable :
  let cfg := pinned_cfg wbase R12 in
  path_ok (f_base cfg) /\ (forall k k', wfb k -> wfb k' -> enc_key cfg k = enc_key cfg k' -> k = k') /\
  hist_ok (@Some (list N)) true spec_empty ex_stream_ops = true /\ Forall (op_storable cfg) ex_stream_ops /\
  (N.of_nat (length ex_stream_ops) < 2 ^ 254)%N.
Proof.
  assert (S : forall k, In k [ex_kA; ex_kB; ex_kO] -> exists d, storable (pinned_cfg wbase R12) k d).
  { intros k H. simpl in H. destruct H as [<-|[<-|[<-|[]]]];
      (apply plain_storable; [reflexivity|repeat constructor|split; [discriminate|repeat constructor; discriminate]
                             |reflexivity|reflexivity]). }
  split. { repeat constructor. }
  split. { apply no_escape_enc_inj. reflexivity. }
  split. { reflexivity. }
  split; [|reflexivity].
  unfold ex_stream_ops. repeat constructor; unfold op_storable; simpl; auto; apply S; simpl; tauto.
Qed.

Example C17_refines_fs_streams_instance :
  fs_obs (pinned_cfg wbase R12) (fstate0 (pinned_cfg wbase R12)) ex_stream_ops
  = spec_run (@Some (list N)) true spec_empty ex_stream_ops /\
  spec_run (@Some (list N)) true spec_empty ex_stream_ops
  = [OUnit; OUnit; OOk; OOk; OOk;
     OOk; OBytes [120;121]%N; OBool false; OBool false;
     OOk; OOk;
     OOk; OBytes content1; OUnit;
     OOk; OBool true; OBytes ([120;121]%N ++ content1);
     OOk; OBytes content1; OBytes ([120;121]%N ++ content1); OBool true].
Proof. split; vm_compute; reflexivity. Qed.

(* [pinned_cfg] is fsstore at the pinned commit of go-ipld-prime (escapingFunc stored, never
   applied; commit("") = abort = success; repaired in /repo by d6f072b, d6185ae, aa26237): it
   violates the property; witnesses by computation on the faithful model. *)
(* Put("../../x") issues a rename to /x *)
Theorem C17_fs_contained_refuted : forall sh,
  ~ Forall (res_inside wbase)
      (fs_run (pinned_cfg wbase sh) (fstate0 (pinned_cfg wbase sh)) [ONew content1; OPut k_escape 0]).
Proof.
  intros sh H.
  assert (X : exists st r, In (SRename st [[120%N]], r)
               (snd (nth 1 (fs_run (pinned_cfg wbase sh) (fstate0 (pinned_cfg wbase sh)) [ONew content1; OPut k_escape 0])
                           (OUnit, [], [])))).
  { destruct sh; vm_compute; eexists; eexists; repeat (try (left; reflexivity); right). }
  destruct X as [st [r X]].
  rewrite Forall_forall in H.
  assert (IN : In (nth 1 (fs_run (pinned_cfg wbase sh) (fstate0 (pinned_cfg wbase sh)) [ONew content1; OPut k_escape 0]) (OUnit, [], []))
                  (fs_run (pinned_cfg wbase sh) (fstate0 (pinned_cfg wbase sh)) [ONew content1; OPut k_escape 0])).
  { apply nth_In. destruct sh; vm_compute; repeat constructor. }
  specialize (H _ IN). unfold res_inside in H. rewrite Forall_forall in H. specialize (H _ X).
  unfold ev_inside in H. simpl in H. inversion H as [|? ? _ H2]. inversion H2 as [|? ? H3 _].
  apply not_inside_x. exact H3.
Qed.
Print Assumptions C17_fs_contained_refuted.

Theorem C17_fs_injective_refuted : forall sh,
  k_alias1 <> k_alias2 /\
  path_for_key (pinned_cfg wbase sh) k_alias1 = path_for_key (pinned_cfg wbase sh) k_alias2 /\
  path_for_key (pinned_cfg wbase sh) k_alias1 <> None.
Proof. intros sh. split. discriminate. destruct sh; vm_compute; split; (reflexivity || discriminate). Qed.
Print Assumptions C17_fs_injective_refuted.

Theorem C17_refines_refuted_alias : forall sh,
  obs_of (fs_run (pinned_cfg wbase sh) (fstate0 (pinned_cfg wbase sh))
            [ONew content1; OPut k_alias1 0; OHas k_alias2; OGet k_alias2])
  = [OUnit; OOk; OBool true; OBytes content1].
Proof. destruct sh; vm_compute; reflexivity. Qed.
Print Assumptions C17_refines_refuted_alias.

Theorem C17_refines_refuted_empty_put : forall sh,
  obs_of (fs_run (pinned_cfg wbase sh) (fstate0 (pinned_cfg wbase sh)) [ONew content1; OPut [] 0; OGet []])
  = [OUnit; OOk; OErr ENOENT].
Proof. destruct sh; vm_compute; reflexivity. Qed.
Print Assumptions C17_refines_refuted_empty_put.

(* Has("") is true as soon as the padding directory exists *)
Theorem C17_refines_refuted_empty_has : forall sh,
  obs_of (fs_run (pinned_cfg wbase sh) (fstate0 (pinned_cfg wbase sh)) [ONew content1; OPut k_plain 0; OHas []])
  = [OUnit; OOk; OBool true].
Proof. destruct sh; vm_compute; reflexivity. Qed.
Print Assumptions C17_refines_refuted_empty_has.

(* a key that names a directory of the store: Has is true on a fresh store, Put reports success and drops the
   block (os.Rename's EEXIST on a directory is taken for "already there") *)
Theorem C17_refines_refuted_key_is_dir :
  obs_of (fs_run (pinned_cfg wbase R12) (fstate0 (pinned_cfg wbase R12))
            [ONew content1; OHas [46;46]%N; OPut [46;46]%N 0; OGet [46;46]%N])
  = [OUnit; OBool true; OOk; OErr EISDIR].
Proof. vm_compute; reflexivity. Qed.
Print Assumptions C17_refines_refuted_key_is_dir.
