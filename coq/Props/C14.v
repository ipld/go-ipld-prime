(* Props/C14.v — paths address what was visited.  Property theorems with their proofs: the last step from the lemmas
   of Proofs/TravPath.v, or the whole induction where the statement is a short fact about get / step / the path text
   on its own. *)
Require Import IP.Base.Bytes IP.DM.Value IP.Trav.Selector IP.Trav.Walk IP.Trav.Path
  IP.Proofs.TravSel IP.Proofs.TravPath.
Open Scope Z_scope.

(* every visit (path, node, reason) of any walk — any selector, any fuel, graphs whose blocks have unique map
   keys and are not bare links — resolves: get root path = the node visited, or, for a subset match, the node
   of which the visited one is the slice *)
Theorem C14_walk_paths : forall q g root f s,
  good_graph g = true -> keys_ok root = true ->
  Forall (resolves g root) (fst (walk_adv q g f root s)).
Proof. intros q g root f s Hg Hk. apply walk_resolves; auto. Qed.
Print Assumptions C14_walk_paths.

(* without "no block is a bare link" the statement fails: the walk visits the link node, get follows it *)
Definition C14_full : Prop := walk_paths_full.
Theorem C14_walk_paths_refuted_link_block : ~ C14_full.
Proof.
  intros H. destruct walk_paths_refuted_link_block as (e & Hin & Hn).
  specialize (H pinned lb_g lb_root 5%nat lb_sel eq_refl eq_refl). rewrite Forall_forall in H. exact (Hn (H e Hin)).
Qed.
Print Assumptions C14_walk_paths_refuted_link_block.

(* get is the left fold of single-segment lookups (each followed by link loading) *)
Theorem C14_get_stepwise : forall g p n, get g n p = get_fold g n p.
Proof.
  intros g p. unfold get_fold. induction p as [|sg p IH]; intros; [reflexivity|].
  cbn. destruct (step_deref g n sg) as [v|e]; cbn; [apply IH|symmetry; apply fold_err].
Qed.
Print Assumptions C14_get_stepwise.

Theorem C14_get_app : forall g p n q, get g n (p ++ q) = bind (get g n p) (fun v => get g v q).
Proof. exact get_app. Qed.
Print Assumptions C14_get_app.

(* get fails exactly when, after a resolvable prefix, one single step fails; the error is that step's *)
Theorem C14_fails_iff : forall g p n e,
  get g n p = Err e <->
  exists p1 sg p2 v, p = p1 ++ sg :: p2 /\ get g n p1 = Ok v /\ step_deref g v sg = Err e.
Proof.
  intros g p n e. split.
  - revert n. induction p as [|sg p IH]; intros n; [discriminate|].
    cbn. destruct (step_deref g n sg) as [v|e'] eqn:E; cbn.
    + intros H. destruct (IH v H) as (p1 & sg' & p2 & v' & -> & H1 & H2).
      exists (sg :: p1), sg', p2, v'. cbn. rewrite E. auto.
    + intros H; inversion H; subst. exists [], sg, p, n. auto.
  - intros (p1 & sg & p2 & v & -> & H1 & H2). rewrite get_app, H1. cbn. rewrite H2. reflexivity.
Qed.
Print Assumptions C14_fails_iff.

(* a step succeeds iff the segment exists; "terminal" iff a scalar was reached early; otherwise the
   segment is missing or is not an index *)
Theorem C14_step_ok_iff : forall n sg v, step n sg = Ok v <-> lookup_seg n sg = Some v.
Proof. exact step_ok_iff. Qed.
Print Assumptions C14_step_ok_iff.
Theorem C14_step_terminal_iff : forall n sg, step n sg = Err GTerminal <-> is_container n = false.
Proof.
  intros n sg. unfold step. destruct n; cbn; try (split; [reflexivity|reflexivity]); try (split; congruence).
  - destruct (seg_index sg); [destruct (list_at l z)|]; split; discriminate.
  - destruct (assoc (seg_string sg) m); split; discriminate.
Qed.
Print Assumptions C14_step_terminal_iff.
Theorem C14_step_missing : forall n sg,
  is_container n = true -> lookup_seg n sg = None -> step n sg = Err GNotExists \/ step n sg = Err GBadIndex.
Proof.
  intros n sg. unfold step, lookup_seg. destruct n; try discriminate; intros _.
  - destruct (seg_index sg); [|auto]. destruct (list_at l z); [discriminate|auto].
  - destruct (assoc (seg_string sg) m); [discriminate|auto].
Qed.
Print Assumptions C14_step_missing.

(* a path survives String() and ParsePath, as the list of its segments' strings (ParsePath returns every segment as a
   string: SegI 7 comes back as SegS "7"), when no segment is empty or contains '/' *)
Theorem C14_roundtrip : forall p,
  Forall (fun x => x <> [] /\ no_slash x) (map seg_string p) ->
  map seg_string (parse_path (format_path p)) = map seg_string p.
Proof.
  intros p H. unfold parse_path, format_path. rewrite split_join by exact H.
  rewrite map_map. cbn. apply map_id.
Qed.
Print Assumptions C14_roundtrip.
Theorem C14_roundtrip_strings : forall l,
  Forall (fun x => x <> [] /\ no_slash x) l -> parse_path (format_path (map SegS l)) = map SegS l.
Proof.
  intros l H. unfold parse_path, format_path. rewrite map_map. cbn. rewrite map_id.
  rewrite split_join by exact H. reflexivity.
Qed.
Print Assumptions C14_roundtrip_strings.

Theorem C14_hypotheses_satisfiable :
  good_graph [([1; 113; 18; 1; 170]%N, DMap [([118%N], DInt 7)])] = true /\
  keys_ok (DMap [([97%N], DLink [1; 113; 18; 1; 170]%N); ([98%N], DList [DInt 1; DString [104%N]])]) = true.
Proof. exact good_example. Qed.
Print Assumptions C14_hypotheses_satisfiable.

(* Focus / Get called on the Progress handed to a callback (nested focus, focus from a walk's visit): the reported path
   is the carried path followed by the focused path, the node is what Get from that node reaches, and it fails exactly
   when that Get fails *)
Theorem C14_focus_prefix : forall g pre n q v P lb,
  focus_from g pre n q = Ok (v, P, lb) -> P = pre ++ q /\ get g n q = Ok v.
Proof.
  intros g pre n q v P lb. unfold focus_from. rewrite <- (get_last_fst g q n [] None).
  destruct (get_last g n [] q None) as [[x l]|e]; cbn; intros E; inversion E; auto.
Qed.
Print Assumptions C14_focus_prefix.
Theorem C14_focus_prefix_fails : forall g pre n q e, focus_from g pre n q = Err e <-> get g n q = Err e.
Proof.
  intros g pre n q e. unfold focus_from. rewrite <- (get_last_fst g q n [] None).
  destruct (get_last g n [] q None) as [[x l]|e0]; cbn; split; congruence.
Qed.
Print Assumptions C14_focus_prefix_fails.

(* traversal.WalkLocal: every reported (path, node) resolves segment by segment to that node (maps with unique keys;
   a map key is ONE path segment whatever bytes it contains) *)
Theorem C14_walk_local_paths : forall root,
  keys_ok root = true ->
  Forall (fun pv => get_local root (fst pv) = Ok (snd pv)) (walk_local_all root).
Proof.
  intros root Hk. unfold walk_local_all.
  assert (H : forall f P n, get_local root P = Ok n -> keys_ok n = true ->
                            Forall (fun pv => get_local root (fst pv) = Ok (snd pv)) (walk_local f P n)).
  { induction f as [|f IH]; intros P n Hg Hn; [constructor|].
    cbn [walk_local]. constructor; [exact Hg|].
    apply Forall_forall. intros pv Hin. apply in_flat_map in Hin. destruct Hin as ([ps x] & Hkid & Hin).
    assert (Hl : lookup_seg n ps = Some x).
    { (* kids n is [children] of a selector that explores everything *)
      apply (children_lookup repaired n (SAll (SMatch None)) ps x Hn). exact Hkid. }
    pose proof (lookup_keys_ok n ps x Hn Hl) as Hx. apply step_ok_iff in Hl.
    assert (Hg' : get_local root (P ++ [ps]) = Ok x).
    { rewrite get_local_app, Hg. cbn. rewrite Hl. reflexivity. }
    specialize (IH (P ++ [ps]) x Hg' Hx). rewrite Forall_forall in IH. apply IH. exact Hin. }
  apply H; [reflexivity|exact Hk].
Qed.
Print Assumptions C14_walk_local_paths.
