(* Props/C07.v — a selector walk visits exactly what the selector denotes.  Property theorems only.
   walk_adv q  : the operational walk of Trav/Walk.v + Selector.v under the quirk switches q
                 (pinned = the code the properties were written against, current = /repo as it stands, repaired =
                 all four deviations switched off; see the header of Proofs/TravPinned.v);
   denote_sel  : the specified semantics of Trav/SelectorSpec.v (threads and recursion frames). *)
Require Import IP.Base.Bytes IP.DM.Value IP.Base.GoSem IP.Gen.FromGo IP.Trav.Selector IP.Trav.Walk IP.Trav.SelectorSpec IP.Trav.QuirkFree
  IP.Proofs.TravSel IP.Proofs.TravPath IP.Proofs.TravSlice IP.Proofs.TravDenote IP.Proofs.TravDenoteWalk IP.Proofs.TravPinned IP.Proofs.TravCurrent IP.Proofs.TravCompile
  IP.Proofs.TravC07Refuted.
Open Scope Z_scope.

(* the full statement for the pinned code: refuted below (C07_full_refuted) *)
Definition C07_full : Prop :=
  forall v s g f root,
    compile v = COk s -> keys_graph g = true -> small_graph g = true -> keys_ok root = true -> small_dm root = true ->
    walk_adv pinned g f root s = denote_sel g f root s.

(* The equivalence, for every compiled selector (all clause kinds, any nesting, any recursion limit, stop-at),
   every graph and root with unique map keys and strings shorter than 2^63 (small_graph, small_dm; every Go string
   is), every fuel — for the model with the four deviations repaired. *)
Theorem C07_walk_denotes_repaired : forall v s g f root,
  compile v = COk s -> keys_graph g = true -> small_graph g = true -> keys_ok root = true -> small_dm root = true ->
  walk_adv repaired g f root s = denote_sel g f root s.
Proof.
  intros v s g f root H Hg Hsg Hk Hsm. apply walk_denote_sel_q; auto; [eapply compile_wf; eauto|apply walk_quirk_free_repaired].
Qed.
Print Assumptions C07_walk_denotes_repaired.

(* The code with its deviations (any setting q of the switches, in particular [pinned] and [current]) on every walk
   along which no deviation fires.  [walk_quirk_free q g f root s] is a decidable condition that mirrors the walk:
   no selector's explicit interests name a child twice; no bare edge is Explore'd; whenever the current clause of a
   recursion hands back an edge, all union members it hands back are edges and the sequence has a live clause.
   Covers recursion with depth limits and stop-at (e.g. the "explore everything recursively" idiom,
   C07_pinned_fragment_example). *)
Theorem C07_walk_denotes_quirk_free : forall q v s g f root,
  compile v = COk s -> keys_graph g = true -> small_graph g = true -> keys_ok root = true -> small_dm root = true ->
  walk_quirk_free q g f root s = true ->
  walk_adv q g f root s = denote_sel g f root s.
Proof. intros q v s g f root H Hg Hsg Hk Hsm Hq. apply walk_denote_sel_q; auto. eapply compile_wf; eauto. Qed.
Print Assumptions C07_walk_denotes_quirk_free.

(* matcher / all / fields / index / range and unions of them (no recursion), for the pinned code,
   when no selector on the walk names a child twice *)
Theorem C07_fragment_norec : forall v s g f root,
  compile v = COk s -> keys_graph g = true -> small_graph g = true -> keys_ok root = true -> small_dm root = true ->
  norec s = true -> walk_interests_ok pinned g f root s = true ->
  walk_adv pinned g f root s = denote_sel g f root s.
Proof.
  intros v s g f root H Hg Hsg Hk Hsm Hn Hi. apply walk_denote_sel_q; auto; [eapply compile_wf; eauto|apply norec_quirk_free; assumption].
Qed.
Print Assumptions C07_fragment_norec.

(* the repaired model meets the condition on every walk; the pinned one on the canonical recursive selector *)
Theorem C07_repaired_quirk_free : forall g f n s, walk_quirk_free repaired g f n s = true.
Proof. exact walk_quirk_free_repaired. Qed.
Print Assumptions C07_repaired_quirk_free.
Theorem C07_pinned_fragment_example :
  let g := [([1; 113; 18; 1; 170]%N, DMap [([118%N], DInt 7)])] in
  let root := DMap [([97%N], DLink [1; 113; 18; 1; 170]%N);
                    ([98%N], DList [DInt 1; DLink [1; 113; 18; 1; 170]%N; DString [104%N; 105%N]])] in
  let sq := SUnion [SMatch None; SAll SEdge] in
  walk_quirk_free pinned g 10 root (SRec sq sq (Some 2) None) = true /\
  srcw false (SRec sq sq (Some 2) None).
Proof. exact pinned_fragment_example. Qed.
Print Assumptions C07_pinned_fragment_example.

(* the same from any node of the walk and any runtime selector (the invariant of the proof) *)
Theorem C07_walk_denotes_runtime : forall g, keys_graph g = true -> small_graph g = true -> forall f ls P n s,
  rt false s -> keys_ok n = true -> small_dm n = true ->
  walk repaired g f ls P n s = denote g f ls P n (rep s []).
Proof.
  intros g Hg Hsg f ls P n s. exact (walk_denote_q repaired g Hg Hsg f ls P n s (walk_quirk_free_repaired g f n s)).
Qed.
Print Assumptions C07_walk_denotes_runtime.

(* one step: Explore of the code corresponds to the specification's thread step *)
Theorem C07_explore_is_sstep : forall s b fr n ps v,
  rt b s -> lookup_seg n ps = Some v -> stopped fr v = false ->
  exists r, explore repaired s n ps = XOk r /\ (forall s', r = Some s' -> rt b s') /\
            lrep_opt r fr = flat_map (sstep n ps v) (rep s fr).
Proof.
  intros s b fr n ps v Hrt Hl Hs. exact (explore_sstep_q repaired s b fr n ps v Hrt Hl Hs (quirk_free_repaired s n ps)).
Qed.
Print Assumptions C07_explore_is_sstep.
Theorem C07_match_is_smatch : forall s b fr n, rt b s -> small_top n -> match_sel s n = smatch (rep s fr) n.
Proof. exact match_rep. Qed.
Print Assumptions C07_match_is_smatch.
Theorem C07_interests_is_sinterests : forall s fr, interests s = sinterests (rep s fr).
Proof. exact interests_rep. Qed.
Print Assumptions C07_interests_is_sinterests.

(* the generated sliceBounds (Gen/FromGo.v, from matcher.go) meets the documented slice semantics and its
   results never make the Go slicing panic *)
Theorem C07_slice_bounds_spec : forall from to len,
  in64 from -> in64 to -> 0 <= len < two63 -> go_sliceBounds from to len = slice_spec from to len.
Proof. exact GoLeaf.slice_bounds_spec. Qed.
Print Assumptions C07_slice_bounds_spec.
Theorem C07_slice_bounds_safe : forall from to len ok f t,
  in64 from -> in64 to -> 0 <= len < two63 ->
  go_sliceBounds from to len = (ok, f, t) -> ok = true -> 0 <= f <= t /\ t <= len /\ f < len.
Proof. intros from to len ok f t Hf Ht Hl H ->. exact (GoLeaf.slice_bounds_safe from to len Hf Ht Hl f t H). Qed.
Print Assumptions C07_slice_bounds_safe.

(* compiled selectors are closed declared selectors (edges only beneath a recursion) *)
Theorem C07_compile_wf : forall v s, compile v = COk s -> srcw false s.
Proof. exact compile_wf. Qed.
Print Assumptions C07_compile_wf.

(* the matching walk is the matched sub-sequence (plus loads) of the advanced walk, by construction *)
Theorem C07_matching : forall q g f root s,
  walk_matching q g f root s =
  (filter (fun x => is_match_visit x || is_load x) (fst (walk_adv q g f root s)), snd (walk_adv q g f root s)).
Proof. intros. unfold walk_matching. destruct (walk_adv q g f root s); reflexivity. Qed.
Print Assumptions C07_matching.

(* the code with all four deviations: four refutations, each with a setting of the switches that removes it (one
   switch for the first three, two for the shared depth counter: fix_depth) *)
Theorem C07_refuted_union_dup : differs pinned w1_sel w1_root /\ meets fix_union_dup w1_sel w1_root.
Proof. split; by_compute. Qed.
Print Assumptions C07_refuted_union_dup.
Theorem C07_refuted_bare_edge_panic :
  differs pinned w2_sel w2_root /\ meets fix_bare_edge w2_sel w2_root /\
  exists s, compile w2_sel = COk s /\ snd (walk_adv pinned [] 20 w2_root s) = OPanic.
Proof. split; [by_compute|split; by_compute]. Qed.
Print Assumptions C07_refuted_bare_edge_panic.
Theorem C07_refuted_exhausted_edge : differs pinned w3_sel w3_root /\ meets fix_unwrap w3_sel w3_root.
Proof. split; by_compute. Qed.
Print Assumptions C07_refuted_exhausted_edge.
Theorem C07_refuted_shared_depth :
  differs pinned w4_sel w4_root /\ meets fix_depth w4_sel w4_root /\ meets pinned w4_alone w4_root /\
  exists s s', compile w4_sel = COk s /\ compile w4_alone = COk s' /\
               length (fst (walk_adv pinned [] 20 w4_root s)) = 5%nat /\
               length (fst (walk_adv pinned [] 20 w4_root s')) = 6%nat /\
               length (fst (denote_sel [] 20 w4_root s)) = 6%nat.
Proof.
  split; [by_compute|]. split; [by_compute|]. split; [by_compute|].
  eexists; eexists; split; [vm_compute; reflexivity|]. split; [vm_compute; reflexivity|].
  repeat split; vm_compute; reflexivity.
Qed.
Print Assumptions C07_refuted_shared_depth.

Theorem C07_full_refuted : ~ C07_full.
Proof.
  intros H. destruct C07_refuted_union_dup as [(s & Hc & Hd) _].
  apply Hd. apply (H w1_sel s [] 20%nat w1_root Hc eq_refl eq_refl eq_refl eq_refl).
Qed.
Print Assumptions C07_full_refuted.

(* [current]: the switch setting of /repo with b8b93dd, 873f3b3 and 87fc183 applied — only the shared depth counter
   is left.  For every compiled selector satisfying the syntactic condition

     no_shared_depth s  =  no empty union anywhere in s, and every ExploreRecursive in s has a live sequence (a clause
                           that is not just edges) and either no depth limit, or a sequence all of whose edges sit at
                           the same step depth ([uniform]: every iteration takes the same number of steps, so all
                           members of the current selector pass their edges together and a member that is still
                           mid-sequence when the counter drops has no edge left to consult it)

   the walk of the current tree is exactly what the selector denotes — every graph and root with unique map keys
   and strings shorter than 2^63, every fuel.  (Proof: thread lists compared up to [norm], which erases the depth
   counters no thread can read.) *)
Theorem C07_walk_denotes_current_tree : forall v s g f root,
  compile v = COk s -> no_shared_depth s = true ->
  keys_graph g = true -> small_graph g = true -> keys_ok root = true -> small_dm root = true ->
  walk_adv current g f root s = denote_sel g f root s.
Proof. intros v s g f root H Hn Hg Hsg Hk Hsm. apply walk_denote_sel_cur; auto. eapply compile_wf; eauto. Qed.
Print Assumptions C07_walk_denotes_current_tree.

(* the condition holds for the realistic selectors ... *)
Theorem C07_no_shared_depth_realistic :
  exists s, compile (d_rec_depth 5 (d_union [d_match; d_all d_edge])) = COk s /\ no_shared_depth s = true.
Proof. exact no_shared_depth_realistic. Qed.
Print Assumptions C07_no_shared_depth_realistic.
Theorem C07_no_shared_depth_more :
  exists s, compile (d_rec_depth 3 (d_union [d_all d_match; d_all d_edge;
                                             d_fields [([97%N], d_rec_none (d_all d_edge))]])) = COk s /\
            no_shared_depth s = true.
Proof. exact no_shared_depth_more. Qed.
Print Assumptions C07_no_shared_depth_more.

(* ... and fails for the known witness, where the current tree does differ from the specification *)
Theorem C07_refuted_shared_depth_current :
  exists s, compile w4_sel = COk s /\ no_shared_depth s = false /\
            walk_adv current [] 20 w4_root s <> denote_sel [] 20 w4_root s.
Proof. eexists; split; [vm_compute; reflexivity|split; [vm_compute; reflexivity|vm_compute; discriminate]]. Qed.
Print Assumptions C07_refuted_shared_depth_current.

(* Outside no_shared_depth through an empty union (reconciled by the same switch as the shared counter):
   replaceRecursiveEdge drops an EMPTY union standing next to an edge, so
   R(depth 1, all(union(edge, union()))) over [[1]] does not visit the element, although all(union()) visits its
   children (1 event instead of 2); the model with per-member wrapping keeps it. *)
Theorem C07_refuted_empty_union_dropped :
  exists s, compile w5_sel = COk s /\ noempty s = false /\ nsd_rec s = true /\
            length (fst (walk_adv current [] 20 w5_root s)) = 1%nat /\
            length (fst (denote_sel [] 20 w5_root s)) = 2%nat /\
            walk_adv repaired [] 20 w5_root s = denote_sel [] 20 w5_root s.
Proof. eexists; split; [vm_compute; reflexivity|repeat split; vm_compute; reflexivity]. Qed.
Print Assumptions C07_refuted_empty_union_dropped.
