(* Props/C16.v — transforms are pure functional updates, also across links.
   Property theorems only, each concluded here from the lemmas of Proofs/Xform*.v.

   Vocabulary (coq/Xform/Transform.v, Proofs/XformBase.v):
     focused_transform ltb mklink q f cp fault fuel st root p   the model of Progress.FocusedTransform
        ltb: key order of the block codec, mklink: link of a block (arbitrary function),
        q: which confirmed defects are switched on (q_pinned = all six: go-ipld-prime at the commit the model
           was taken from; 32148ab and c701e19 in /repo repair five of them; q_fixed = none),
        f: the TransformFn (None in = nothing at the target, None out = remove), cp: createParents,
        fault: the storage refuses every write during this transform,
        result: new root, new store, and the list of nodes the callback was shown;
     xt / raw / valid st t / wfx t   a link-expanded tree (links annotated with the expansion of their
        block), its un-expanded form, "every annotation is what the store holds", "maps have unique keys";
     xupdate ... st t p   the SPEC: the update of the expanded tree (blocks on the path re-encoded
        and re-linked, everything else - including the annotations of untouched links - unchanged);
     xfocus               the node a path addresses in the expanded tree;
     extends st st'       every block of st is in st' under the same link;
     coherent mklink S    no block of S sits under the link of a different block. *)
Require Import IP.Base.Bytes IP.DM.Value IP.Xform.Transform IP.Xform.WalkT.
Require Import IP.Proofs.XformBase IP.Proofs.XformFocus IP.Proofs.XformLaws IP.Proofs.XformRefute
  IP.Proofs.XformExpand IP.Proofs.XformWalk IP.Proofs.XformSeg IP.Proofs.XformLoad.

(* What the defect switches are tested against, as a predicate over the quirk record: a completed
   transform returns the SPEC's tree (of C16_focus the clause res = raw t'), and where the SPEC defines a
   tree the transform does not panic. *)
Definition C16_full (q : quirks) : Prop := C16_returns_spec q /\ C16_no_panic q.

(* C16_focus: for an expansion t of the root (raw t = root, valid st t) a completed focused_transform
   returns raw t', t' the tree of xupdate st t p; st ⊆ st' (extends);
   the new expansion is valid in every coherent store that extends st' (so loading from the new root
   reproduces the updated graph; untouched blocks keep their links since their annotations are
   unchanged by the SPEC), the callback was shown [seen] each time, and a replaced root is accepted
   by the root's own prototype.  Holds for the repaired model. *)
Theorem C16_focus :
  forall ltb mklink f cp fault,
    (forall x v, owf x -> f x = Some v -> wf_dm v = true) ->
  forall fuel st root p t res st' log,
    raw t = root -> valid st t -> wfx t ->
    focused_transform ltb mklink q_fixed f cp fault fuel st root p = Ok (res, (st', log)) ->
    match xupdate ltb mklink f cp st t p with
    | XOk (Some t') seen =>
        res = raw t' /\ extends st st' /\
        (forall S, extends st' S -> coherent mklink S -> valid S t') /\ wfx t' /\
        (exists k, (1 <= k)%nat /\ log = repeat seen k) /\
        (p = [] -> root_accepts root res = true)
    | XNeedLoad => True
    | _ => False
    end.
Proof.
  intros ltb mklink f cp fault Hf fuel st root p t res st' log <- Hv Hw HF.
  pose proof (focus_spec ltb mklink f cp fault Hf fuel st t p Hv Hw) as H. rewrite HF in H.
  unfold focus_rel in H. destruct (xupdate ltb mklink f cp st t p) as [[t'|] seen| e |]; exact H.
Qed.
Print Assumptions C16_focus.

(* the errors of the transform are the errors of the SPEC (root refusals aside; a refused store -
   EStore - is the environment's failure and outside the SPEC) *)
Theorem C16_focus_errors :
  forall ltb mklink f cp fault,
    (forall x v, owf x -> f x = Some v -> wf_dm v = true) ->
  forall fuel st root p t e,
    raw t = root -> valid st t -> wfx t ->
    focused_transform ltb mklink q_fixed f cp fault fuel st root p = Err e -> e <> EFuel -> e <> EStore ->
    match xupdate ltb mklink f cp st t p with
    | XOk (Some t') _ => p = [] /\ root_accepts root (raw t') = false /\ (e = EWrongKind \/ e = EOther)
    | XOk None _ => p = [] /\ e = EPanic
    | XErr e' => e = e'
    | XNeedLoad => True
    end.
Proof.
  intros ltb mklink f cp fault Hf fuel st root p t e <- Hv Hw HF Hne Hns.
  pose proof (focus_spec ltb mklink f cp fault Hf fuel st t p Hv Hw) as H. rewrite HF in H.
  unfold focus_rel in H. destruct (xupdate ltb mklink f cp st t p) as [[t'|] seen| e' |]; [| | |exact I];
    destruct H as [[H|H]|H]; try contradiction; exact H.
Qed.
Print Assumptions C16_focus_errors.

Theorem C16_full_fixed : C16_full q_fixed.
Proof. exact (conj returns_spec_fixed no_panic_fixed). Qed.
Print Assumptions C16_full_fixed.

(* st ⊆ st' for every quirk setting: no block is lost or re-linked, untouched blocks keep their links *)
Theorem C16_store_monotone :
  forall ltb mklink q f cp fault fuel st root p res st' log,
    focused_transform ltb mklink q f cp fault fuel st root p = Ok (res, (st', log)) -> extends st st'.
Proof. exact focus_mono. Qed.
Print Assumptions C16_store_monotone.

(* every call of the callback during a completed transform is shown the node the path addresses in
   the tree as it is now (None: nothing there), and there is at least one call *)
Theorem C16_callback_sees :
  forall ltb mklink f cp fault,
    (forall x v, owf x -> f x = Some v -> wf_dm v = true) ->
  forall fuel st root p t res st' log,
    raw t = root -> valid st t -> wfx t ->
    focused_transform ltb mklink q_fixed f cp fault fuel st root p = Ok (res, (st', log)) ->
    xupdate ltb mklink f cp st t p <> XNeedLoad ->
    log <> [] /\ Forall (fun x => x = option_map raw (xfocus (Some t) p)) log.
Proof.
  intros ltb mklink f cp fault Hf fuel st root p t res st' log Hr Hv Hw HF Hnl.
  pose proof (C16_focus ltb mklink f cp fault Hf fuel st root p t res st' log Hr Hv Hw HF) as H.
  unfold xupdate in *.
  destruct (xupd ltb mklink f cp st (Some t) p) as [[t'|] seen| |] eqn:EX; try contradiction.
  destruct H as (_ & _ & _ & _ & (k & Hk & Hl) & _). subst log.
  apply (xupd_ok ltb mklink f cp st st) in EX as [-> _]. split.
  - destruct k; [lia | discriminate].
  - apply Forall_forall. intros x Hx. now apply repeat_spec in Hx.
Qed.
Print Assumptions C16_callback_sees.

(* identity callback at an existing target: the very same root comes back (also across links, when
   the store was filled through the link system) *)
Theorem C16_identity :
  forall ltb mklink cp fault fuel st root p t tx res st' log,
    raw t = root -> valid st t -> wfx t -> store_wf ltb mklink st ->
    xfocus (Some t) p = Some tx ->
    focused_transform ltb mklink q_fixed fid cp fault fuel st root p = Ok (res, (st', log)) ->
    res = root.
Proof.
  intros ltb mklink cp fault fuel st root p t tx res st' log Hr Hv Hw Hst Hf HF.
  destruct (xupd_id_raw ltb mklink cp st Hst p t tx (conj Hv Hw) Hf) as [t' [EX Hr']].
  pose proof (C16_focus ltb mklink fid cp fault fid_wf fuel st root p t res st' log Hr Hv Hw HF) as H.
  unfold xupdate in H. rewrite EX in H. destruct H as (H & _). congruence.
Qed.
Print Assumptions C16_identity.

(* sequences: a run of transforms returns the composition of the SPEC updates *)
Theorem C16_sequence :
  forall ltb mklink fuel steps st root t res st_f t_f,
    Forall step_wf steps -> raw t = root -> valid st t -> wfx t ->
    mseq ltb mklink fuel steps st root = Ok (res, st_f) -> coherent mklink st_f ->
    xseq ltb mklink steps t = Some t_f ->
    res = raw t_f /\ valid st_f t_f /\ wfx t_f /\ extends st st_f.
Proof.
  intros ltb mklink fuel.
  induction steps as [|[[[p f] cp] fault] r IH]; intros st root t res st_f t_f Hs Hr Hv Hw; cbn [mseq xseq].
  - intros E _ E2; inversion E; inversion E2; subst. repeat split; auto. apply extends_refl.
  - inversion Hs as [|s0 r0 Hs1 Hs2]; subst.
    destruct (focused_transform ltb mklink q_fixed f cp fault fuel st (raw t) p) as [[r1 [st1 l1]]|e0] eqn:EF; [|discriminate].
    cbn [bind fst snd]. intros EM Hco.
    destruct (xupdate ltb mklink f cp [] t p) as [[t'|] seen| |] eqn:EX; try discriminate.
    intro EXS.
    pose proof (C16_focus ltb mklink f cp fault Hs1 fuel st (raw t) p t r1 st1 l1 eq_refl Hv Hw EF) as H.
    unfold xupdate in *. rewrite (proj1 (proj2 (xupd_ok ltb mklink f cp [] st _ _ _ _ EX))) in H.
    destruct H as (H1 & H2 & H3 & H4 & _).
    pose proof (mseq_mono ltb mklink fuel r st1 r1 res st_f EM) as Hm.
    assert (Hv1 : valid st1 t').
    { apply H3; [apply extends_refl | eapply coherent_down; eassumption]. }
    destruct (IH st1 r1 t' res st_f t_f Hs2 (eq_sym H1) Hv1 H4 EM Hco EXS) as (A & B & C & D).
    repeat split; auto. eapply extends_trans; eassumption.
Qed.
Print Assumptions C16_sequence.

(* runs in which transforms fail (path errors, a store the codec or the storage refuses): the failed
   transform leaves root and store as they were; the run is the run of the transforms that succeeded *)
Theorem C16_failed_steps_are_noops :
  forall ltb mklink fuel steps st root,
    mseq ltb mklink fuel (survivors ltb mklink fuel steps st root) st root
    = Ok (mseq_tol ltb mklink fuel steps st root).
Proof.
  intros ltb mklink fuel.
  induction steps as [|[[[p f] cp] fault] r IH]; intros st root; cbn [survivors mseq_tol]; [reflexivity|].
  destruct (focused_transform ltb mklink q_fixed f cp fault fuel st root p) as [x|e] eqn:EF.
  - cbn [mseq]. rewrite EF. cbn [bind]. apply IH.
  - apply IH.
Qed.
Print Assumptions C16_failed_steps_are_noops.

(* the pinned tree (any quirk setting): when the callback never removes, no index is negative and
   "-" is last unless parents may be created, a run that does not panic is a run of the repaired
   model - to which C16_focus applies *)
Theorem C16_focus_partial :
  forall ltb mklink q f cp fault,
    (forall x, f x <> None) ->
  forall fuel st root p r,
    path_ok cp p ->
    focused_transform ltb mklink q f cp fault fuel st root p = Ok r ->
    focused_transform ltb mklink q_fixed f cp fault fuel st root p = Ok r.
Proof.
  intros ltb mklink q f cp fault Hf fuel st root p r Hp E.
  destruct (focus_agree ltb mklink q f cp fault Hf fuel st root p Hp) as [H|H]; rewrite H in E; [discriminate | exact E].
Qed.
Print Assumptions C16_focus_partial.

(* the confirmed defects, one witness each *)
Theorem C16_full_refuted : ~ C16_returns_spec q_pinned /\ ~ C16_no_panic q_pinned.
Proof. exact (conj (list_delete_refutes q_pinned eq_refl) (null_root_refutes q_pinned eq_refl)). Qed.
Print Assumptions C16_full_refuted.
Theorem C16_delete_list_elem_refuted : ~ C16_returns_spec (Build_quirks true false false false false false).
Proof. apply list_delete_refutes. reflexivity. Qed.
Theorem C16_delete_append_refuted : ~ C16_returns_spec (Build_quirks false true false false false false).
Proof. apply append_nil_refutes. reflexivity. Qed.
Theorem C16_delete_missing_key_refuted : ~ C16_returns_spec (Build_quirks false false true false false false).
Proof. apply missing_key_refutes. reflexivity. Qed.
Theorem C16_negative_index_refuted : ~ C16_returns_spec (Build_quirks false false false true false false).
Proof. apply negative_index_refutes. reflexivity. Qed.
Theorem C16_append_parents_refuted : ~ C16_returns_spec (Build_quirks false false false false true false).
Proof. apply append_parents_refutes. reflexivity. Qed.
Theorem C16_null_root_refuted : ~ C16_no_panic (Build_quirks false false false false false true).
Proof. apply null_root_refutes. reflexivity. Qed.
Theorem C16_delete_in_block_refuted : ~ C16_no_panic (Build_quirks true false false false false false).
Proof. apply delete_in_block_refutes. reflexivity. Qed.
Print Assumptions C16_delete_list_elem_refuted.
Print Assumptions C16_delete_append_refuted.
Print Assumptions C16_delete_missing_key_refuted.
Print Assumptions C16_negative_index_refuted.
Print Assumptions C16_append_parents_refuted.
Print Assumptions C16_null_root_refuted.
Print Assumptions C16_delete_in_block_refuted.

(* path segments stored as ints (datamodel.PathSegmentOfInt): the model takes a path as the list of
   rendered segments ([render_path]); for an int-stored i >= 0 the index the model parses out of the
   rendering is i, which is what PathSegment.Index() returns for it *)
Theorem C16_int_segment :
  forall i, (0 <= i < two63z)%Z ->
    parse_int (dec_of_Z i) = Some i /\ list_seg (xseg_string (SegI i)) = LIdx i.
Proof. exact (fun i H => conj (parse_int_dec i H) (xseg_int_is_index i H)). Qed.
Print Assumptions C16_int_segment.

(* the oracle's executable expansion satisfies the hypotheses of the theorems above *)
Theorem C16_expansion_valid :
  forall st fuel v, raw (xexpand fuel st v) = v /\ valid st (xexpand fuel st v) /\
                    (store_uniq st -> wf_dm v = true -> wfx (xexpand fuel st v)).
Proof. exact (fun st fuel v => conj (xexpand_raw st fuel v) (conj (xexpand_valid st fuel v)
                (fun Hs Hw => xexpand_wfx st Hs fuel v Hw))). Qed.
Print Assumptions C16_expansion_valid.

(* selector-driven transform (fragment of Xform/WalkT.v), for every setting of the selector switches
   (each switch of squirks: the selector package's behaviour on one side of a /repo commit - b8b93dd,
   873f3b3, 87fc183): identity law on link-free trees ... *)
Theorem C16_walk_identity :
  forall sq st fuel s here n log r, link_free n = true -> wt sq gsame st fuel s here n log = Ok r -> fst r = n.
Proof.
  intros sq st fuel s here n log r Hn E. pose proof (wt_same sq st fuel s here n log Hn) as H. now rewrite E in H.
Qed.
Print Assumptions C16_walk_identity.

(* ... and its failure across links: the loaded block is returned in place of the link *)
Theorem C16_walk_relink_refuted : forall sq,
  exists st root r, wt sq gsame st 20 sel_all [] root [] = Ok r /\ fst r <> root /\ fst r = inline 5 st root.
Proof.
  (* none of the selector switches is consulted on the way, so one evaluation serves every setting *)
  intro sq. exists [([9%N], DList [DInt 1])], (DMap [([97%N], DLink [9%N])]). eexists.
  split; [vm_compute; reflexivity|]. split; [discriminate | reflexivity].
Qed.
Print Assumptions C16_walk_relink_refuted.

(* A transform that has to go through a link whose block the storage does not hold — or refuses to load, whatever
   the loader's error (the run's read faults answer SkipMe or a plain error for every block) — fails with the load
   error, for every callback, option and defect setting: at the root ... *)
Theorem C16_missing_block_fails : forall ltb mklink q f cp fault fu st c seg p,
  lookup c st = None ->
  focused_transform ltb mklink q f cp fault (S fu) st (DLink c) (seg :: p) = Err ELoad.
Proof.
  intros ltb mklink q f cp fault fu st c seg p H. unfold focused_transform.
  now rewrite (ft_link_missing ltb mklink q f cp fault fu c _ seg p (st, [])).
Qed.
Print Assumptions C16_missing_block_fails.

(* ... and at any position the descent has reached, with whatever has been logged and stored so far *)
Theorem C16_missing_block_fails_anywhere : forall ltb mklink q f cp fault fu c na seg p2 w,
  lookup c (w_store w) = None ->
  ft ltb mklink q f cp fault (S fu) (Some (DLink c)) na (seg :: p2) w = Err ELoad.
Proof. exact ft_link_missing. Qed.
Print Assumptions C16_missing_block_fails_anywhere.

(* the hypotheses are satisfiable (a link is crossed, the final store is coherent) *)
Theorem C16_examples :
  (raw ex_t = ex_root /\ valid ex_st ex_t /\ wfx ex_t /\
   focused_transform rfc_ltb ex_link q_fixed (fconst (DInt 2)) false false 10 ex_st ex_root ex_path
   = Ok (DMap [(sega, DLink [2%N])], (ex_st', [Some (DInt 1)])) /\
   coherent ex_link ex_st' /\
   (exists t', xupdate rfc_ltb ex_link (fconst (DInt 2)) false ex_st ex_t ex_path = XOk (Some t') (Some (DInt 1))
               /\ valid ex_st' t')) /\
  (store_wf rfc_ltb ex_link ex_st /\ xfocus (Some ex_t) ex_path = Some (XLeaf (DInt 1)) /\
   focused_transform rfc_ltb ex_link q_fixed fid false false 10 ex_st ex_root ex_path
   = Ok (ex_root, (ex_st, [Some (DInt 1)]))).
Proof. exact (conj focus_ok_satisfiable focus_identity_satisfiable). Qed.
Print Assumptions C16_examples.
