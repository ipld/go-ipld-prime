(* Props/C13.v — generated code behaves exactly like the reflection binding.
   The property theorems; the lemmas they are concluded from are in Proofs/SchemaEngines.v, SchemaRefute.v, SchemaTop.v.
   "The generated package compiles" is not a theorem: it is checked on every run by generating code
   with the generator of the working tree and building it (vlib/props/c13.py, extra). *)
Require Import IP.Base.Bytes IP.DM.Value IP.Schema.Types IP.Schema.View IP.Schema.Conform IP.Schema.Sem
  IP.Proofs.SchemaBuild IP.Proofs.SchemaEngines IP.Proofs.SchemaRefute IP.Proofs.SchemaTop.

(* with the deviations of both engines off: same outcome, same type-level and representation views *)
Theorem C13_equiv : forall lvl t d, wf t = true -> gen_supported t = true ->
  observe Bind qoff lvl t d = observe Gen qoff lvl t d.
Proof. intros lvl t d _ _. apply observe_engines. Qed.
Print Assumptions C13_equiv.

(* and that common behaviour is the specified one: accepted iff conforming, with the specified type view *)
Theorem C13_spec : forall e lvl t d, wf t = true -> (e = Bind \/ e = Gen) ->
  match conf_f lvl (fuel_of t) t d with
  | Some v => exists o, observe e qoff lvl t d = BOk o /\ fst o = tview_spec t v
  | None => exists c, observe e qoff lvl t d = BErr c
  end.
Proof. intros e lvl t d Hwf _. now apply observe_spec. Qed.
Print Assumptions C13_spec.

Theorem C13_example : forallb (fun t => wf t && gen_supported t) [tSM; tTU; tUK; tKD; tMS; tNL] = true.
Proof.
  pose proof wf_examples as W. pose proof gen_supported_examples as G.
  rewrite forallb_forall in W, G |- *. intros t Ht. rewrite W, (G t Ht); [reflexivity|].
  cbn in Ht |- *. tauto.
Qed.
Print Assumptions C13_example.

(* the pinned tree (/repo at its snapshot 3e45851: the quirks [pinned]): the engines differ, one witness per leniency of bindnode and per deviation of
   the generated code *)
Definition C13_full : Prop := equiv_pinned.
Theorem C13_full_refuted : ~ C13_full.
Proof. intros H. destruct engines_differ_dup_field as [Hwf [Hg Hn]]. exact (Hn (H _ _ _ Hwf Hg)). Qed.
Print Assumptions C13_full_refuted.

(* bindnode accepts; the generated code rejects — except the repeated map key (dup_mapkey), which under [pinned]
   (qg_map_kv_dup on) it accepts too, keeping both entries where bindnode overwrites the first *)
Theorem C13_refuted_dup_field : engines_differ LRepr tSM (DMap [(sx, DInt 1); (sx, DInt 2); (sc, DInt 1)]).
Proof. exact engines_differ_dup_field. Qed.
Theorem C13_refuted_dup_mapkey : engines_differ LRepr tMS (DMap [(sa, DInt 1); (sa, DInt 2)]).
Proof. ewitness. Qed.
Theorem C13_refuted_union_two : engines_differ LRepr tUK (DMap [([105], DInt 1); ([115], DString sx)]).
Proof. ewitness. Qed.
Theorem C13_refuted_rename_alias : engines_differ LRepr tSM (DMap [(sa, DInt 1); (sc, DInt 1)]).
Proof. ewitness. Qed.
Theorem C13_refuted_member_alias : engines_differ LRepr tUK (DMap [(nInt, DInt 1)]).
Proof. ewitness. Qed.
(* bindnode panics, the generated code refuses null *)
Theorem C13_refuted_nullable_kinded : engines_differ LRepr tNL (DList [DInt 1; DNull]).
Proof. ewitness. Qed.
(* kinded union holding a struct: Length() differs *)
Theorem C13_refuted_kinded_len : engines_differ LType tKD (DMap [(nS, DMap [(sa, DInt 1); (sc, DInt 2)])]).
Proof. ewitness. Qed.
(* the generated code accepts a tuple without its required field *)
Theorem C13_refuted_gen_tuple_missing : engines_differ LRepr tTU (DList []).
Proof. ewitness. Qed.
(* the generated code refuses null in a nullable slot holding a kinded union *)
Theorem C13_refuted_gen_nullable_kinded_null : engines_differ LRepr tNL (DList [DNull]).
Proof. ewitness. Qed.
(* the generated stringprefix union (empty delimiter, as compiled from the DSL) refuses its own prefix *)
Theorem C13_refuted_gen_stringprefix_split : engines_differ LRepr tSP2 (DString [115; 45; 97]).
Proof. ewitness. Qed.
Print Assumptions C13_refuted_gen_stringprefix_split.
