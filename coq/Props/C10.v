(* Props/C10.v — parsers are total and bounded: the DAG-CBOR decoder, selector compilation and selector walks, the
   DAG-JSON decoder. Property theorems only. *)
Require Import IP.Base.Bytes IP.DM.Value IP.Codec.Cbor.
Require Import IP.Proofs.CborDec IP.Proofs.CborBound.
Require Import IP.Trav.Selector IP.Trav.Walk IP.Trav.Total IP.Proofs.TravDenote IP.Proofs.TravC07Refuted
  IP.Proofs.TravTotal.
Require Import IP.Codec.DagJson IP.Proofs.JsonTotal.
Open Scope N_scope.

(* Total: for every configuration and every byte string the DAG-CBOR decoder model returns a value
   or an error; the model's out-of-fuel outcome is unreachable and it has no Panic outcome at all
   (every Go-level panic site of the modelled code — slice bounds, nil dereference, huge make —
   is an explicit Err branch of the model, tied by the correspondence run under recover). *)
Theorem C10_decode_total : forall o bs, decode o bs <> Err DFuel.
Proof. exact decode_total. Qed.
Print Assumptions C10_decode_total.

(* Bounded: the nesting depth of anything accepted is within MaxDepth, and its allocation ledger
   (declared lengths, per-entry costs, string/bytes lengths — exactly what [cost] adds up, using the
   constants regenerated from unmarshal.go) is within AllocationBudget, unless a negative budget was configured
   (scalars that cost nothing are then still accepted).  max_depth o is positive for every o, so the first guard
   never bites. *)
Theorem C10_decode_bounded : forall o bs v rest, decode o bs = Ok (v, rest) ->
  (0 <= max_depth o -> Z.of_nat (dm_depth v) <= max_depth o)%Z /\ (0 <= budget0 o -> cost v <= budget0 o)%Z.
Proof. intros o bs v rest H. destruct (decode_bounded o bs v rest H). auto. Qed.
Print Assumptions C10_decode_bounded.

(* a list costs at least its number of elements: its declared length is charged as such (the first summand of
   cost_list), and what its elements add on top (isum) is not negative *)
Theorem C10_cost_counts_cells : forall l, (Z.of_nat (length l) <= cost (DList l))%Z.
Proof.
  intros l. rewrite cost_list. unfold lenN. pose proof (isum_nonneg l). lia.
Qed.
Print Assumptions C10_cost_counts_cells.

(* Selector part: selector compilation and selector walks are total.
   Models: Trav/Selector.v (compile = every Parse* function; Explore/Interests/Match), Trav/Walk.v (walk),
   Trav/Total.v (compile-time allocation of ranges, link-cycle freedom, sufficient fuel). *)

(* Compilation ends, for every data-model value, in a closed well-formed selector, an error, or "unsupported"
   (ExploreInterpretAs is not modelled).  The model has no panic outcome for compilation: the Parse* functions
   contain exactly one Go panic site, the makeslice of ParseExploreRange, which is the subject of
   C10_compile_range_alloc_refuted below; every other failure path of Parse* is an explicit error return. *)
Theorem C10_compile_total : forall v,
  (exists s, compile v = COk s /\ srcw false s) \/ compile v = CErr \/ compile v = CUnsupported.
Proof.
  intros v. destruct (compile v) as [s| |] eqn:E; auto. left. exists s. split; [reflexivity|]. exact (TravCompile.compile_wf v s E).
Qed.
Print Assumptions C10_compile_total.

(* ... and an error is never an artefact of the model's fuel: beyond the nesting depth of the declaration the
   result does not depend on the fuel *)
Theorem C10_compile_fuel_enough : forall v k,
  compile_f (S (dm_depth v) + k) false v = compile_f (S (dm_depth v)) false v.
Proof. intros v k. apply compile_f_stable; lia. Qed.
Print Assumptions C10_compile_fuel_enough.

(* The walk of ANY selector over ANY graph without a link cycle (every content-addressed graph) and any root, with
   fuel >= walk_fuel g root = depth(root)+1 + |g|*(deepest block+1), ends in a result or an error: never in Panic
   and never out of fuel — for the advanced and the matching walk, for every setting of the C07 switches in which
   ExploreRecursiveEdge.Explore does not panic (the repaired model, and the tree since b8b93dd; for the earlier
   code the panic is C07_refuted_bare_edge_panic). *)
Theorem C10_walk_total : forall q, q_bare_edge_panic q = false -> forall g root s f,
  chain_ok g (length g) root = true -> (walk_fuel g root <= f)%nat ->
  total_outcome (snd (walk_adv q g f root s)) /\ total_outcome (snd (walk_matching q g f root s)).
Proof.
  intros q Hq g root s f Hc Hf.
  assert (H : total_outcome (snd (walk_adv q g f root s))).
  { apply (walk_total_gen q Hq g f (length g)); [exact Hc|]. unfold walk_fuel in Hf. lia. }
  split; [exact H|]. unfold walk_matching. destruct (walk_adv q g f root s); exact H.
Qed.
Print Assumptions C10_walk_total.

Theorem C10_explore_no_panic : forall q, q_bare_edge_panic q = false ->
  forall s n p, explore q s n p <> XPanic.
Proof. exact explore_no_panic. Qed.
Print Assumptions C10_explore_no_panic.

Theorem C10_walk_total_hypotheses_satisfiable :
  let g := [([1; 113; 18; 1; 170]%N, DMap [([118%N], DInt 7)])] in
  let root := DMap [([97%N], DLink [1; 113; 18; 1; 170]%N); ([98%N], DList [DInt 1; DLink [1; 113; 18; 1; 170]%N])] in
  chain_ok g (length g) root = true /\ walk_fuel g root = 5%nat /\
  chain_ok [([1%N], DList [DLink [1%N]])] 1 (DLink [1%N]) = false.
Proof. exact walk_total_example. Qed.
Print Assumptions C10_walk_total_hypotheses_satisfiable.

(* Bounded?  NO for compilation as coded: ParseExploreRange materialises end-start path segments, so a declaration
   of 6 nodes makes the compiler allocate K segments for every K (24 bytes each; a fatal out-of-memory for
   2^40, a makeslice panic when the int64 capacity wraps) — allocation proportional to an attacker-chosen number. *)
Theorem C10_range_interests_length : forall a b nx l,
  interests (SRange a b nx) = Some l -> length l = Z.to_nat (b - a).
Proof. intros a b nx l. cbn. intros H; inversion H; subst. unfold range_segs. rewrite map_length. apply zrange_length. Qed.
Print Assumptions C10_range_interests_length.

Theorem C10_compile_range_alloc_refuted : forall K, (0 < K < int64_lim)%Z ->
  exists s, compile (d_range 0 K d_match) = COk s /\ dm_nodes (d_range 0 K d_match) = 6%nat /\ compile_alloc s = K.
Proof.
  intros K HK. exists (SRange 0 K (SMatch None)). split; [|split; [reflexivity|cbn; lia]].
  apply compile_range_match; unfold int64_lim in *; lia.
Qed.
Print Assumptions C10_compile_range_alloc_refuted.

Theorem C10_compile_range_alloc_witnesses :
  (exists s, compile (d_range 0 1099511627776 d_match) = COk s /\ compile_alloc s = 1099511627776%Z) /\
  (exists s, compile (d_range (-9223372036854775808) 9223372036854775807 d_match) = COk s /\
             range_cap_panics (-9223372036854775808) 9223372036854775807 = true /\
             compile_alloc s = 18446744073709551615%Z).
Proof. exact range_alloc_witnesses. Qed.
Print Assumptions C10_compile_range_alloc_witnesses.

(* DAG-JSON part (json cluster): the dag-json / json decoder is total and bounded.
   Model: Codec/DagJson.v (refmt JSON tokenizer + dagjson unmarshal with its look-ahead window + Decode),
   proofs: Proofs/JsonTotal.v.  strconv.ParseFloat and cid.Decode are universally quantified functions. *)

(* Total: for every option setting, every byte list and every behaviour of ParseFloat / cid.Decode the decoder
   model ends in a value or an error.  Its two abnormal outcomes are unreachable: JDFuel (out of fuel) and
   JDStale (a look-ahead slot read before it was filled: ensure(k) is only ever called with k-1 slots filled).
   Measure: mu = tokens held in the look-ahead window + unread input bytes; every token costs >= 1 byte and
   every value >= 1 token, unmarshal needs fuel 2*mu + 2, the model supplies 3*|input| + 4.
   The model has no panic outcome: the modelled Go code indexes only the fixed 7-slot window at constant
   indices and its panic("unreachable") statements sit behind exhaustive switches; tied by the recover()-wrapped run. *)
Theorem C10_json_decode_total : forall parse_float cid_parse o bs,
  jdecode parse_float cid_parse o bs <> Err JDFuel /\ jdecode parse_float cid_parse o bs <> Err JDStale.
Proof.
  intros parse_float cid_parse o bs. pose proof (jdecode_spec parse_float cid_parse o bs) as H.
  destruct (jdecode parse_float cid_parse o bs) as [x|[]]; try (split; discriminate); destruct H; contradiction.
Qed.
Print Assumptions C10_json_decode_total.

(* Bounded: whatever is accepted nests at most MaxDepth deep (default go_json_defaultMaxDepth, regenerated from
   codec/dagjson/unmarshal.go) and has at most one node per input byte.  The Go dag-json decoder has NO
   allocation budget (unlike dag-cbor): JSON carries no length claims, so allocation is bounded by the input
   length alone, which is what the node bound states. *)
Theorem C10_json_decode_bounded : forall parse_float cid_parse o bs v rest,
  jdecode parse_float cid_parse o bs = Ok (v, rest) ->
  (Z.of_nat (dm_depth v) <= jmax_depth o)%Z /\ (jnodes v <= length bs)%nat.
Proof.
  intros parse_float cid_parse o bs v rest E. pose proof (jdecode_spec parse_float cid_parse o bs) as H. rewrite E in H.
  destruct H as [D N]. cbn [fst snd] in *. split; [exact D|lia].
Qed.
Print Assumptions C10_json_decode_bounded.

(* non-vacuity: 1024 nested lists are accepted with depth 1024 under the default options, 1025 are rejected with
   the depth error; same at a configured MaxDepth of 3, where the reserved bytes form counts as one level *)
Theorem C10_json_depth_limit_witnesses :
  (exists v, jdecode no_float no_cid dagjson_dopts (nest 1024 []) = Ok (v, []) /\ dm_depth v = 1024%nat) /\
  jdecode no_float no_cid dagjson_dopts (nest 1025 []) = Err JDDepth /\
  (exists v, jdecode no_float no_cid {| jd_links := true; jd_bytes := true; jd_dont_parse_beyond := false; jd_max_depth := 3 |}
               (nest 3 [49]) = Ok (v, []) /\ dm_depth v = 3%nat) /\
  jdecode no_float no_cid {| jd_links := true; jd_bytes := true; jd_dont_parse_beyond := false; jd_max_depth := 3 |}
    (nest 4 [49]) = Err JDDepth /\
  jdecode no_float no_cid {| jd_links := true; jd_bytes := true; jd_dont_parse_beyond := false; jd_max_depth := 3 |}
    (nest 3 [123; 34; 47; 34; 58; 123; 34; 98; 121; 116; 101; 115; 34; 58; 34; 89; 81; 34; 125; 125]) = Err JDDepth /\
  jdecode no_float no_cid {| jd_links := true; jd_bytes := true; jd_dont_parse_beyond := false; jd_max_depth := 3 |}
    (nest 2 [123; 34; 47; 34; 58; 123; 34; 98; 121; 116; 101; 115; 34; 58; 34; 89; 81; 34; 125; 125]) = Ok (DList [DList [DBytes [97]]], []).
Proof. exact json_depth_limit_example. Qed.
Print Assumptions C10_json_depth_limit_witnesses.
