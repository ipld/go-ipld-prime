(* Props/C12.v — "assemblers enforce their protocol": first for the basicnode assemblers (generic node
   builders), then for the typed builders of bindnode and the generated code.  Property theorems only.
   The legal grammar with the two rejections injected at any position: [AScript] / [AScriptP] in coq/Node/Protocol.v (annotated scripts: call, expected class). *)
Require Import IP.Base.Bytes IP.DM.Value IP.Node.Basic IP.Node.Protocol
  IP.Proofs.NodeBuild IP.Proofs.NodeRoot IP.Proofs.NodeC12.

(* Every legal call sequence — nested to any depth, with repeated keys and wrong-kind assignments
   injected anywhere — produces call by call exactly the annotated results (ok everywhere except
   repeated_key / wrong_kind at the injected calls), ends with a finished builder, and the node is
   exactly the accepted entries in order, as if the rejected calls had not been made. *)
Theorem C12_legal_ok : forall q p v aops,
  AScriptP q p v aops ->
  exists n, run_tol q (init p) (map fst aops) = (map snd aops, Some (SDone p n)) /\
            abs n = v /\ wf n.
Proof. exact ascript_run. Qed.
Print Assumptions C12_legal_ok.

(* A repeated key is reported at the call that supplies it, and
   run (pre ++ rejected ++ post) = run (pre ++ post) up to the rejected calls' own results. *)
Theorem C12_dup_rollback : forall q s0 pre_ops rej post tr t m r k,
  run_tol q s0 pre_ops = (tr, Some (SOpen (FMap t m MaInitial :: r))) ->
  mem_key k m = true -> DupCall k rej ->
  run_tol q s0 (pre_ops ++ map fst rej ++ post) =
    pre (tr ++ map snd rej) (run_tol q (SOpen (FMap t m MaInitial :: r)) post) /\
  run_tol q s0 (pre_ops ++ post) =
    pre tr (run_tol q (SOpen (FMap t m MaInitial :: r)) post).
Proof.
  intros. split; rewrite run_tol_app, H; [|reflexivity].
  rewrite (runs_more q _ rej _ (dup_call_noop q t m r k rej H1 H0)), pre_pre. reflexivity.
Qed.
Print Assumptions C12_dup_rollback.

Theorem C12_dup_reported : forall k rej,
  DupCall k rej -> exists front o, rej = front ++ [(o, SErr ERepeatedKey)].
Proof.
  intros k rej H. inversion H; subst.
  - exists [], (AssembleEntry k). reflexivity.
  - exists (ok AssembleKey :: tries), g. reflexivity.
Qed.
Print Assumptions C12_dup_reported.

(* every key the assembler has accepted is refused when supplied again *)
Theorem C12_accepted_key_refused : forall ks t m k, minv ks t m -> In k ks -> mem_key k m = true.
Proof. intros ks t m k H. apply (minv_mem ks t m k H). Qed.
Print Assumptions C12_accepted_key_refused.

(* An assignment of a kind the position cannot hold is reported by an error from that call and
   changes nothing: key assemblers, typed root builders; any-kind positions refuse nothing. *)
Theorem C12_bad_kind :
  (forall q t m r o c, KeyTry (o, c) ->
     exists e, c = SErr e /\ step q (SOpen (FMap t m MaMidKey :: r)) o = OErr e (SOpen (FMap t m MaMidKey :: r))) /\
  (forall q p o, root_wrong p o = true -> step q (init p) o = OErr EWrongKind (init p)) /\
  (forall q top rest o, accepts_any top -> is_node_op o = true ->
     exists s', step q (SOpen (top :: rest)) o = OOk s').
Proof.
  split; [exact key_bad_kind|split; [exact root_bad_kind|]].
  intros q top rest o Ha Ho. rewrite step_value; auto.
  assert (Hd : forall n, exists s', deliver (top :: rest) n = OOk s').
  { intros n. rewrite deliver_receives by (apply accepts_receives; auto). eexists. reflexivity. }
  destruct o; simpl in Ho; try discriminate; simpl; try apply Hd; eexists; reflexivity.
Qed.
Print Assumptions C12_bad_kind.

(* The same for the typed builders of the two engines (bindnode, generated code).  Model:
   coq/Node/Typed.v — Msg3 structs, typed maps {String:T} and lists [T] of them, nested to any depth.
   Grammar with injected rejections: coq/Node/TypedProtocol.v ([TScript e q ty v script]).
   [tq_ok e q]: the quirk settings in which the protocol defects of engine e are off. *)
Require Import IP.Node.Typed IP.Node.TypedProtocol IP.Proofs.NodeTypedAll IP.Proofs.NodeTyped.

(* Every legal script for a value v of type ty — entry shortcut or key assembler + value, fields in
   any order, nested containers, AssignNode of conforming nodes, any size hints — with, at ANY position,
   wrong-kind calls (roots, map values, list elements, int fields, key assemblers), repeated fields /
   map keys through either path, unknown field names (generated code) and a Finish that comes too early
   (missing field), has call by call exactly the annotated results and builds exactly v. *)
Theorem C12_typed_all_scripts : forall e q ty v aops,
  tq_ok e q -> TScript e q ty v aops ->
  trun_tol e q (tinit ty) (map fst aops) = (map snd aops, Some (TDone v)) /\
  tbuild e (TDone v) = Some (tval_dm e v).
Proof.
  intros e q ty v aops Hq HS. split; [|reflexivity].
  exact (tscript_run e q Hq ty v aops HS [TRoot ty] eq_refl).
Qed.
Print Assumptions C12_typed_all_scripts.

(* roll-back: a rejected request (repeated key or field through either path, unknown field, early
   Finish) leaves the assembler where it was: run (pre ++ rejected ++ post) = run (pre ++ post) *)
Theorem C12_typed_rollback : forall e q s0 pre_ops s rej post tr,
  tq_ok e q -> trun_tol e q s0 pre_ops = (tr, Some s) -> Rejected e s rej ->
  trun_tol e q s0 (pre_ops ++ map fst rej ++ post) = tpre (tr ++ map snd rej) (trun_tol e q s post) /\
  trun_tol e q s0 (pre_ops ++ post) = tpre tr (trun_tol e q s post).
Proof.
  intros e q s0 pre_ops s rej post tr Hq Hr Hj. split; rewrite trun_app, Hr; [|reflexivity].
  rewrite (truns_more e q s rej s (rejected_noop e q s rej Hq Hj)), tpre_tpre. reflexivity.
Qed.
Print Assumptions C12_typed_rollback.

(* a wrong-kind call is answered with an error by that call and changes nothing — for EVERY quirk
   setting, at every kind of position *)
Theorem C12_typed_bad_kind : forall e q,
  (forall ty stk o, tpos stk ty -> pos_wrong ty o = true ->
     tstep e q (TOpen stk) o = TErr TEWrong (TOpen stk)) /\
  (forall done vals f r o c, IntTry (o, c) ->
     exists err, c = TSErr err /\
       tstep e q (TOpen (TStruct done vals (TsMidValue f) :: r)) o =
       TErr err (TOpen (TStruct done vals (TsMidValue f) :: r))) /\
  (forall done vals r o c, SKeyTry e (o, c) ->
     exists err, c = TSErr err /\
       tstep e q (TOpen (TStruct done vals TsMidKey :: r)) o = TErr err (TOpen (TStruct done vals TsMidKey :: r))) /\
  (forall vt t r o c, TKeyTry (o, c) ->
     exists err, c = TSErr err /\
       tstep e q (TOpen (TMap vt t TmMidKey :: r)) o = TErr err (TOpen (TMap vt t TmMidKey :: r))).
Proof.
  intros e q. split; [exact (pos_bad_kind e q)|split; [exact (int_try_step e q)|split; [exact (skey_try_step e q)|]]].
  intros vt t r o c. apply tkey_try_step. exact I.
Qed.
Print Assumptions C12_typed_bad_kind.

(* call orders the contract calls misuse (a second key before the value, Finish with a pending key or
   value, AssembleValue with no key, any call after the builder finished) are outside [TScript]; the
   generated code detects them (panic), bindnode keeps no protocol state (outside its model) *)
Theorem C12_typed_misuse_detected : forall q r,
  (forall done vals o, is_map_op o = true ->
     tstep EGen q (TOpen (TStruct done vals TsMidKey :: r)) o = TPanic) /\
  (forall done vals f o, is_map_op o = true -> o <> AssembleValue ->
     tstep EGen q (TOpen (TStruct done vals (TsExpectValue f) :: r)) o = TPanic) /\
  (forall done vals f o, is_map_op o = true ->
     tstep EGen q (TOpen (TStruct done vals (TsMidValue f) :: r)) o = TPanic) /\
  (forall vt t o, is_map_op o = true -> tstep EGen q (TOpen (TMap vt t TmMidKey :: r)) o = TPanic) /\
  (forall vt t k o, is_map_op o = true -> o <> AssembleValue ->
     tstep EGen q (TOpen (TMap vt t (TmExpectValue k) :: r)) o = TPanic) /\
  (forall vt t k o, is_map_op o = true -> tstep EGen q (TOpen (TMap vt t (TmMidValue k) :: r)) o = TPanic) /\
  (forall done vals, tstep EGen q (TOpen (TStruct done vals TsInitial :: r)) AssembleValue = TPanic) /\
  (forall vt t, tstep EGen q (TOpen (TMap vt t TmInitial :: r)) AssembleValue = TPanic) /\
  (forall v o, tstep EGen q (TDone v) o = TNoMethod).
Proof. intros q r. repeat split; intros; try (destruct o; simpl in *; try discriminate; try reflexivity; congruence). Qed.
Print Assumptions C12_typed_misuse_detected.

Theorem C12_typed_dup_ok : forall e q, tq_ok e q -> typed_dup_statement e q.
Proof.
  intros e q Hq. split.
  - intros done vals r f k Hf Hd. split.
    + apply (sentry_dup e q done vals r k f); auto.
    + apply (skey_dup e q done vals r k f); auto. constructor.
  - intros vt t r k Hm. split.
    + apply mentry_dup; auto.
    + apply (mkey_dup e q vt t r k); auto. constructor.
Qed.
Print Assumptions C12_typed_dup_ok.

Theorem C12_typed_dup_repaired : forall e, typed_dup_statement e trepaired.
Proof. intro e. apply C12_typed_dup_ok, tq_ok_repaired. Qed.
Print Assumptions C12_typed_dup_repaired.

Theorem C12_typed_dup_refuted : forall e, ~ typed_dup_statement e tpinned.
Proof.
  intros e [Hs Hm]. destruct e.
  - (* bindnode: the repeated field is accepted *)
    destruct (Hs [0%nat] [] [] 0%nat f_whee eq_refl eq_refl) as [H _]. discriminate H.
  - (* generated struct: reported, but the key assembler stays at midKey *)
    destruct (Hs [0%nat] [] [] 0%nat f_whee eq_refl eq_refl) as [_ H]. discriminate H.
Qed.
Print Assumptions C12_typed_dup_refuted.

(* non-vacuity: a struct in a map in a list, with every kind of rejection injected, is in the grammar
   and runs as annotated *)
Theorem C12_typed_nested_example :
  (forall q, TScript EGen q (TyL (TyM TyS)) nested_value nested_script) /\
  trun_tol EGen trepaired (tinit (TyL (TyM TyS))) (map fst nested_script) =
    (map snd nested_script, Some (TDone nested_value)).
Proof. split; [exact nested_script_legal|exact nested_script_runs]. Qed.
Print Assumptions C12_typed_nested_example.

(* the pinned tree: the all-scripts statement fails there, one witness per known finding *)
Definition C12_full : Prop :=
  (forall q p v aops, AScriptP q p v aops ->
     exists n, run_tol q (init p) (map fst aops) = (map snd aops, Some (SDone p n)) /\ abs n = v) /\
  (forall e, typed_all_scripts_pinned e) /\
  (forall e, treset_ok e tpinned = true).

(* bind_struct_dup_accepted *)
Theorem C12_typed_refuted_bind_struct_dup : ~ typed_all_scripts_pinned EBind.
Proof.
  intros H. specialize (H TyS (TVS s123) dup_field_script (dup_field_script_legal EBind trepaired)).
  vm_compute in H. discriminate H.
Qed.
Print Assumptions C12_typed_refuted_bind_struct_dup.

(* bind_map_dup_accepted *)
Theorem C12_typed_refuted_bind_map_dup :
  TScript EBind trepaired (TyM TyS) (TVM [(k_a, TVS s123)]) dup_mapkey_entry_script /\
  trun_tol EBind tpinned (tinit (TyM TyS)) (map fst dup_mapkey_entry_script) <>
  (map snd dup_mapkey_entry_script, Some (TDone (TVM [(k_a, TVS s123)]))).
Proof. split; [exact (dup_mapkey_entry_legal EBind trepaired)|exact bind_map_dup_refuted]. Qed.
Print Assumptions C12_typed_refuted_bind_map_dup.

(* gen_map_keypath_dup_accepted: the generated map refuses the key through AssembleEntry but not
   through the key assembler *)
Theorem C12_typed_refuted_gen_map_keypath : ~ typed_all_scripts_pinned EGen.
Proof.
  intros H. specialize (H (TyM TyS) _ dup_mapkey_key_script (dup_mapkey_key_legal EGen trepaired)).
  vm_compute in H. discriminate H.
Qed.
Print Assumptions C12_typed_refuted_gen_map_keypath.

(* gen_map_assignnode_foreign_panic *)
Theorem C12_typed_refuted_gen_map_node :
  TScript EGen trepaired (TyM TyS) (TVM [(k_a, TVS s123)]) [tok (AssignNode plain_map_a)] /\
  trun_tol EGen tpinned (tinit (TyM TyS)) [AssignNode plain_map_a] = ([TSPanic], None).
Proof. split; [exact gen_map_node_legal|exact (proj1 gen_map_node_refuted)]. Qed.
Print Assumptions C12_typed_refuted_gen_map_node.

(* bind_reset_panics *)
Theorem C12_typed_refuted_bind_reset : treset_ok EBind tpinned = false /\ treset_ok EBind trepaired = true.
Proof. split; reflexivity. Qed.
Print Assumptions C12_typed_refuted_bind_reset.

Theorem C12_full_refuted : ~ C12_full.
Proof. intros [_ [H _]]. exact (C12_typed_refuted_bind_struct_dup (H EBind)). Qed.
Print Assumptions C12_full_refuted.
