(* Props/C06.v — no load returns data that does not hash to its link, whatever the storage does.
   Property theorems only, each concluded here from the lemmas of Proofs/LinkBase.v, LinkC06.v and LinkInj.v.
   [hasher_ok], [hash] (arbitrary function: no collision-freedom, no output-length law) and the
   codec registry are universally quantified; the one law asked of the codecs is
   [registry_consumes_all] (a successful decode has pulled the whole stream), which is proved below
   for dag-cbor, cbor and raw and remains a premise for dag-json and json. *)
Require Import IP.Base.Bytes IP.DM.Value IP.Codec.Cbor IP.Link.LinkSys IP.Link.LinkSpec.
Require Import IP.Proofs.LinkBase IP.Proofs.LinkC06 IP.Proofs.LinkInj.
Open Scope N_scope.

(* Unless storage is declared trusted, a load (any of the four forms) that reports success was
   given a complete stream whose bytes hash to the link; the node returned is what the link's
   decoder makes of exactly those bytes, the raw bytes returned are exactly those bytes. *)
Theorem C06_sound :
  forall (hasher_ok : N -> bool) (hash : N -> bytes -> bytes) (decoders : N -> option codec),
    registry_consumes_all decoders ->
    forall (f : lform) (ro : ropen) (l : link),
      lo_status (load_any hasher_ok hash decoders f false ro l) = SOk ->
      exists chunks : list bytes,
        ro = RStream chunks TEof /\
        verify hash l (concat chunks) = VOk /\
        (forall n : dm,
            lo_node (load_any hasher_ok hash decoders f false ro l) = Some n ->
            exists (c : codec) (p : N) (e : bool),
              decoders (lp_codec (link_proto l)) = Some c /\ c_dec c (concat chunks) = Some (n, p, e)) /\
        (forall raw : bytes,
            lo_raw (load_any hasher_ok hash decoders f false ro l) = Some raw -> raw = concat chunks).
Proof. exact sound. Qed.
Print Assumptions C06_sound.

(* the same in link terms: BuildLink of the link's own prototype over the hash of the delivered
   bytes has the binary form of the requested link *)
Theorem C06_sound_binary :
  forall (hasher_ok : N -> bool) (hash : N -> bytes -> bytes) (decoders : N -> option codec),
    registry_consumes_all decoders ->
    forall (f : lform) (ro : ropen) (l : link),
      lo_status (load_any hasher_ok hash decoders f false ro l) = SOk ->
      exists (chunks : list bytes) (l2 : link),
        ro = RStream chunks TEof /\
        build_link (link_proto l) (hash (lp_mhtype (link_proto l)) (concat chunks)) = Some l2 /\
        link_binary l2 = link_binary l.
Proof.
  intros hasher_ok hash decoders Hlaw f ro l S.
  destruct (sound hasher_ok hash decoders Hlaw f ro l S) as (chunks & -> & V & _).
  apply verify_ok_binary in V as (l2 & B & E). eauto.
Qed.
Print Assumptions C06_sound_binary.

(* Link.Binary() is injective on well-formed links (64-bit codes and digest length; CIDv0 = dag-pb +
   sha2-256) ... *)
Theorem C06_link_binary_inj :
  forall a b : link, wf_link a -> wf_link b -> link_binary a = link_binary b -> a = b.
Proof. exact link_binary_inj. Qed.
Print Assumptions C06_link_binary_inj.

(* ... so for such a link and a hash whose output length fits 64 bits the conclusion of C06_sound_binary
   is an equality of links: BuildLink over the hash of the delivered bytes gives back the requested link *)
Theorem C06_sound_eq :
  forall (hasher_ok : N -> bool) (hash : N -> bytes -> bytes) (decoders : N -> option codec),
    (forall mht bs, u64 (lenN (hash mht bs))) ->
    registry_consumes_all decoders ->
    forall (f : lform) (ro : ropen) (l : link), wf_link l ->
      lo_status (load_any hasher_ok hash decoders f false ro l) = SOk ->
      exists chunks : list bytes,
        ro = RStream chunks TEof /\
        build_link (link_proto l) (hash (lp_mhtype (link_proto l)) (concat chunks)) = Some l.
Proof.
  intros hasher_ok hash decoders Hlen Hlaw f ro l W S.
  destruct (sound hasher_ok hash decoders Hlaw f ro l S) as (chunks & -> & V & _).
  exists chunks. split; [reflexivity|]. now apply (verify_ok_eq hash Hlen).
Qed.
Print Assumptions C06_sound_eq.

(* NodeReifier: Load and LoadPlusRaw hand the reifier the link system the call was made on (same
   TrustedStorage, same read opener), and only after the load itself succeeded *)
Theorem C06_reifier_handle :
  forall (hasher_ok : N -> bool) (hash : N -> bytes -> bytes) (decoders : N -> option codec)
         (rm : rmode) (f : lform) (h : handle) (l : link) (h' : handle),
    reifier_handle hasher_ok hash decoders rm f h l = Some h' ->
    h' = h /\ (f = FLoad \/ f = FLoadPlusRaw) /\
    lo_status (load_any hasher_ok hash decoders f (h_trusted h) (h_open h l) l) = SOk.
Proof. exact reifier_handle_inv. Qed.
Print Assumptions C06_reifier_handle.

(* C06_sound for every load a reifier (an ADL) makes through the link system it was handed, during
   the outer call or later: unless the USER declared the storage trusted, such a load that reports
   success was given a complete stream that verifies against the requested link *)
Theorem C06_reifier_loads_sound :
  forall (hasher_ok : N -> bool) (hash : N -> bytes -> bytes) (decoders : N -> option codec),
    registry_consumes_all decoders ->
    forall (rm : rmode) (f : lform) (h : handle) (l : link) (h' : handle) (rm' : rmode) (f' : lform) (l' : link),
      reifier_handle hasher_ok hash decoders rm f h l = Some h' ->
      h_trusted h = false ->
      lo_status (load_h hasher_ok hash decoders rm' f' h' l') = SOk ->
      exists chunks : list bytes,
        h_open h l' = RStream chunks TEof /\
        verify hash l' (concat chunks) = VOk /\
        (forall n : dm,
            lo_node (load_h hasher_ok hash decoders rm' f' h' l') = Some n ->
            exists (c : codec) (p : N) (e : bool),
              decoders (lp_codec (link_proto l')) = Some c /\ c_dec c (concat chunks) = Some (n, p, e)) /\
        (forall raw : bytes,
            lo_raw (load_h hasher_ok hash decoders rm' f' h' l') = Some raw -> raw = concat chunks).
Proof.
  intros hasher_ok hash decoders Hlaw rm f h l h' rm' f' l' R T S.
  pose proof (reifier_load _ _ _ _ _ _ _ _ _ _ _ R S) as E. rewrite E, T in *.
  now apply sound.
Qed.
Print Assumptions C06_reifier_loads_sound.

(* LoadRaw and LoadPlusRaw verify the hash even under TrustedStorage *)
Theorem C06_raw_forms_ignore_trust :
  forall (hasher_ok : N -> bool) (hash : N -> bytes -> bytes) (decoders : N -> option codec)
         (f : lform) (trusted : bool) (ro : ropen) (l : link),
    f = FLoadRaw \/ f = FLoadPlusRaw ->
    load_any hasher_ok hash decoders f trusted ro l = load_any hasher_ok hash decoders f false ro l.
Proof. intros hasher_ok hash decoders f trusted ro l [->| ->]; reflexivity. Qed.
Print Assumptions C06_raw_forms_ignore_trust.

(* bytes that do not hash to the link, no I/O error: hash mismatch from every load form, whatever
   the decoder does with them *)
Theorem C06_precedence :
  forall (hasher_ok : N -> bool) (hash : N -> bytes -> bytes) (decoders : N -> option codec),
    registry_consumes_all decoders ->
    forall (f : lform) (chunks : list bytes) (l : link) (c : codec),
      decoders (lp_codec (link_proto l)) = Some c ->
      hasher_ok (lp_mhtype (link_proto l)) = true ->
      verify hash l (concat chunks) = VMismatch ->
      load_any hasher_ok hash decoders f false (RStream chunks TEof) l = lfail EHashMismatch.
Proof. exact precedence. Qed.
Print Assumptions C06_precedence.

(* an error from the read opener is returned as such, trusted or not *)
Theorem C06_io_open :
  forall (hasher_ok : N -> bool) (hash : N -> bytes -> bytes) (decoders : N -> option codec)
         (f : lform) (trusted : bool) (l : link) (c : codec),
    decoders (lp_codec (link_proto l)) = Some c ->
    hasher_ok (lp_mhtype (link_proto l)) = true ->
    load_any hasher_ok hash decoders f trusted ROpenErr l = lfail EOpen.
Proof.
  intros hasher_ok hash decoders f trusted l c C H.
  destruct f; cbn [load_any]; unfold fill, load_plus_raw, load_raw; rewrite ?C, ?H; reflexivity.
Qed.
Print Assumptions C06_io_open.

(* a read error at any offset of the stream is returned as the I/O error by an untrusted load *)
Theorem C06_io_read :
  forall (hasher_ok : N -> bool) (hash : N -> bytes -> bytes) (decoders : N -> option codec),
    registry_consumes_all decoders ->
    forall (f : lform) (chunks : list bytes) (l : link) (c : codec),
      decoders (lp_codec (link_proto l)) = Some c ->
      hasher_ok (lp_mhtype (link_proto l)) = true ->
      load_any hasher_ok hash decoders f false (RStream chunks TErr) l = lfail EIo.
Proof.
  intros hasher_ok hash decoders Hlaw f chunks l c C H.
  assert (R : load_raw hasher_ok hash (RStream chunks TErr) l = lfail EIo) by (unfold load_raw; now rewrite H).
  rewrite (untrusted_load_fails hasher_ok hash decoders Hlaw f _ l c C); rewrite R; [reflexivity|discriminate].
Qed.
Print Assumptions C06_io_read.

(* ... and never yields Ok, a node or bytes, in any configuration (trusted, unknown codec, ...) *)
Theorem C06_io :
  forall (hasher_ok : N -> bool) (hash : N -> bytes -> bytes) (decoders : N -> option codec),
    registry_consumes_all decoders ->
    forall (f : lform) (trusted : bool) (ro : ropen) (l : link),
      ro = ROpenErr \/ (exists chunks : list bytes, ro = RStream chunks TErr) ->
      let o := load_any hasher_ok hash decoders f trusted ro l in
      lo_status o <> SOk /\ lo_node o = None /\ lo_raw o = None.
Proof.
  intros hasher_ok hash decoders Hlaw f trusted ro l Hro o; subst o.
  destruct (io_error_surfaces hasher_ok hash decoders Hlaw f trusted ro l Hro) as [e ->].
  cbn. repeat split; discriminate.
Qed.
Print Assumptions C06_io.

(* a store that does not report success (encoder refused the value, open/commit failure, reported
   write failure, BuildLink panic) leaves the storage unchanged — with or without the write-error
   latch in Store *)
Theorem C06_store_atomic :
  forall (hasher_ok : N -> bool) (hash : N -> bytes -> bytes) (encoders : N -> option codec)
         (latch : bool) (sk : skind) (w : wbeh) (st : storage) (lp : lproto) (v : dm) (s : sout) (st' : storage),
    store hasher_ok hash encoders latch sk w st lp v = (s, st') -> so_status s <> SOk -> st' = st.
Proof.
  intros hasher_ok hash encoders latch sk w st lp v s st' S N.
  destruct (store_inv _ _ _ _ _ _ _ _ _ _ _ S)
    as [(_ & _ & ->)|(c & chunks & wr & hs & la & l & _ & _ & _ & _ & _ & _ & -> & ->)]; [reflexivity|].
  destruct (w_commit_err w); [reflexivity|]. now destruct N.
Qed.
Print Assumptions C06_store_atomic.

Theorem C06_store_encode_error :
  forall (hasher_ok : N -> bool) (hash : N -> bytes -> bytes) (encoders : N -> option codec)
         (latch : bool) (sk : skind) (w : wbeh) (st : storage) (lp : lproto) (v : dm) (c : codec),
    encoders (lp_codec lp) = Some c ->
    hasher_ok (lp_mhtype lp) = true ->
    w_open_err w = false ->
    c_enc c v = None -> store hasher_ok hash encoders latch sk w st lp v = (sfail EEncode, st).
Proof. intros hasher_ok hash encoders latch sk w st lp v c C H O E. unfold store. now rewrite C, H, O, E. Qed.
Print Assumptions C06_store_encode_error.

(* Whatever the storage writer does — sticky or transient failures, short writes, any per-Write
   schedule — a store that gets as far as the committer (reports Ok, or the committer's own error)
   has handed the writer exactly the encoder's output, returns the link ComputeLink returns, and
   (when Ok) commits exactly that output under it.  Holds when Store has the write-error latch (the
   tree with /repo fix 4c486a6) for EVERY encoder, and without it for encoders that report failed writes. *)
Theorem C06_store_commits_whole :
  forall (hasher_ok : N -> bool) (hash : N -> bytes -> bytes) (encoders : N -> option codec)
         (latch : bool) (sk : skind) (w : wbeh) (st : storage) (lp : lproto) (v : dm)
         (c : codec) (chunks : list bytes) (s : sout) (st' : storage),
    encoders (lp_codec lp) = Some c ->
    c_enc c v = Some chunks ->
    latch || negb (c_werr_ignored c) = true ->
    store hasher_ok hash encoders latch sk w st lp v = (s, st') ->
    so_status s = SOk \/ so_status s = SErr ECommit ->
    s = {| so_status := so_status s; so_link := so_link (compute hasher_ok hash encoders lp v) |} /\
    so_status (compute hasher_ok hash encoders lp v) = SOk /\
    (so_status s = SOk ->
     exists l : link, so_link s = Some l /\ st' = put sk st (skey sk l) (concat chunks)).
Proof.
  intros hasher_ok hash encoders latch sk w st lp v c chunks s st' C E M S St.
  destruct (store_inv _ _ _ _ _ _ _ _ _ _ _ S)
    as [(N1 & N2 & _)|(c' & chunks' & wr & hs & la & l & C' & H & E' & W & L & B & -> & ->)].
  - destruct St; contradiction.
  - rewrite C in C'. inversion C'; subst c'. rewrite E in E'. inversion E'; subst chunks'.
    destruct (write_all_clean _ _ _ _ _ _ _ _ _ _ M W L) as [-> ->].
    unfold compute. rewrite C, H, E, B. cbn. repeat split; auto.
    intros Sok. exists l. destruct (w_commit_err w); [discriminate|auto].
Qed.
Print Assumptions C06_store_commits_whole.

(* Full store-side statement for the capacity-limited (sticky) writer: running out of room during
   the encoder's output makes the store fail and commit nothing. *)
Definition C06_store_write_error_full (latch : bool) : Prop :=
  forall (hasher_ok : N -> bool) (hash : N -> bytes -> bytes) (encoders : N -> option codec)
         (sk : skind) (w : wbeh) (st : storage) (lp : lproto) (v : dm) (c : codec)
         (chunks : list bytes) (k : N),
    encoders (lp_codec lp) = Some c ->
    hasher_ok (lp_mhtype lp) = true ->
    w_open_err w = false ->
    c_enc c v = Some chunks ->
    w_cap w = Some k ->
    k < lenN (concat chunks) ->
    store hasher_ok hash encoders latch sk w st lp v = (sfail (wfail_class w chunks), st).

(* with the latch (/repo fix 4c486a6) it holds for every encoder ... *)
Theorem C06_store_write_error : C06_store_write_error_full true.
Proof.
  intros hasher_ok hash encoders sk w st lp v c chunks k C H O E K L.
  exact (store_write_error hasher_ok hash encoders true sk w st lp v c chunks k C H O eq_refl E K L).
Qed.
Print Assumptions C06_store_write_error.

(* ... without it, for every encoder that reports a failed write (dag-cbor, cbor, raw) ... *)
Theorem C06_store_write_error_partial :
  forall (hasher_ok : N -> bool) (hash : N -> bytes -> bytes) (encoders : N -> option codec)
         (latch : bool) (sk : skind) (w : wbeh) (st : storage) (lp : lproto) (v : dm) (c : codec)
         (chunks : list bytes) (k : N),
    encoders (lp_codec lp) = Some c ->
    hasher_ok (lp_mhtype lp) = true ->
    w_open_err w = false ->
    latch || negb (c_werr_ignored c) = true ->
    c_enc c v = Some chunks ->
    w_cap w = Some k ->
    k < lenN (concat chunks) ->
    store hasher_ok hash encoders latch sk w st lp v = (sfail (wfail_class w chunks), st).
Proof. exact store_write_error. Qed.
Print Assumptions C06_store_write_error_partial.

(* ... and fails without the latch for an encoder that drops write errors, as refmt's JSON encoder
   (dag-json, json) does: without the latch the store reports success and commits the truncated
   block *)
Theorem C06_store_write_error_refuted :
  exists (encoders : N -> option codec) (w : wbeh) (lp : lproto) (v : dm) (s : sout) (st' : storage),
    store toy_ok toy_hash encoders false memstore_kind w [] lp v = (s, st') /\
    w_cap w = Some 1 /\
    (exists (c : codec) (chunks : list bytes),
        encoders (lp_codec lp) = Some c /\ c_enc c v = Some chunks /\ 1 < lenN (concat chunks)) /\
    so_status s = SOk /\ st' <> [].
Proof.
  exists (fun _ => Some sloppy_codec), {| w_open_err := false; w_cap := Some 1; w_sched := []; w_commit_err := false |},
    toy_lp, DNull.
  eexists. eexists. split; [vm_compute; reflexivity|].
  split; [reflexivity|]. split; [exists sloppy_codec, [[1]; [2]]; repeat split; vm_compute; reflexivity|].
  split; [reflexivity|discriminate].
Qed.
Print Assumptions C06_store_write_error_refuted.

(* a single failing Write anywhere in the schedule (later writes succeed): never Ok, nothing
   committed — with the latch, or with an encoder that reports it *)
Theorem C06_store_transient_write_error :
  forall (hasher_ok : N -> bool) (hash : N -> bytes -> bytes) (encoders : N -> option codec)
         (latch : bool) (sk : skind) (w : wbeh) (st : storage) (lp : lproto) (v : dm)
         (c : codec) (pre : list bytes) (x : bytes) (post : list bytes),
    encoders (lp_codec lp) = Some c ->
    hasher_ok (lp_mhtype lp) = true ->
    w_open_err w = false ->
    latch || negb (c_werr_ignored c) = true ->
    c_enc c v = Some (pre ++ x :: post) ->
    w_cap w = None ->
    nth_error (w_sched w) (length pre) = Some WFail ->
    so_status (fst (store hasher_ok hash encoders latch sk w st lp v)) <> SOk /\
    snd (store hasher_ok hash encoders latch sk w st lp v) = st.
Proof. intros until 5. intros _ F. eapply store_transient_write_error; eauto. Qed.
Print Assumptions C06_store_transient_write_error.

(* without the latch and with an encoder that ignores the failed write: success is reported for a
   block with a hole, under a link that is not ComputeLink's *)
Theorem C06_store_transient_refuted :
  let encoders := fun _ : N => Some sloppy3_codec in
  let w := {| w_open_err := false; w_cap := None; w_sched := [WOk; WFail]; w_commit_err := false |} in
  exists (l : link) (st' : storage),
    store toy_ok toy_hash encoders false memstore_kind w [] toy_lp DNull =
    ({| so_status := SOk; so_link := Some l |}, st') /\
    lookup st' (skey memstore_kind l) = Some [1; 3] /\
    so_link (compute toy_ok toy_hash encoders toy_lp DNull) <> Some l.
Proof. cbv zeta. eexists. eexists. split; [vm_compute; reflexivity|]. split; [vm_compute; reflexivity|]. vm_compute. discriminate. Qed.
Print Assumptions C06_store_transient_refuted.

(* the codec law, for the codecs that are modelled concretely *)
Theorem C06_dagcbor_consumes_all :
  forall (links : bool) (sm : sortmode) (reject_tags : bool),
    consumes_all (cbor_family_codec links sm reject_tags).
Proof. exact cbor_family_consumes_all. Qed.
Print Assumptions C06_dagcbor_consumes_all.

Theorem C06_raw_consumes_all : consumes_all raw_codec.
Proof. exact raw_consumes_all. Qed.
Print Assumptions C06_raw_consumes_all.

(* so, for the default registry, the law is only assumed of the two JSON codecs *)
Theorem C06_default_registry_law :
  forall (reject_tags : bool) (dagjson json : codec),
    consumes_all dagjson -> consumes_all json ->
    registry_consumes_all (default_registry reject_tags dagjson json).
Proof. exact default_registry_consumes_all. Qed.
Print Assumptions C06_default_registry_law.

(* the law cannot be dropped: a decoder that succeeds on a prefix makes Fill return a node for a
   block that does not hash to the link *)
Theorem C06_sound_needs_consumes_all :
  exists (decoders : N -> option codec) (l : link) (chunks : list bytes),
    lo_status (fill toy_ok toy_hash decoders false (RStream chunks TEof) l) = SOk /\
    verify toy_hash l (concat chunks) = VMismatch.
Proof.
  exists (fun _ => Some {| c_enc := fun _ => Some [[]]; c_dec := fun _ => Some (DNull, 0, false);
                           c_werr_ignored := false |}),
    {| l_v0 := false; l_codec := 85; l_mhtype := 18; l_digest := [0; 0] |}, [[7; 7; 7]].
  split; vm_compute; reflexivity.
Qed.
Print Assumptions C06_sound_needs_consumes_all.
