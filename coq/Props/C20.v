(* Props/C20.v — shared immutable objects are goroutine-safe (PARTIAL by nature).
   Property theorems only: the data-race-freedom theorem is proved in coq/Proofs/HeapDrf.v; the clauses are
   derived here, the one about readers as its instance, those about API calls from the C11 files; that
   allocations are local is an induction on the run, of every program over the heap of GoMem.v.

   Model: coq/Heap/Footprint.v — goroutines are heap programs (coq/Heap/GoMem.v) with an arena each,
   interleaving at single loads / stores / allocations; the footprint of a thread is the access log
   of running it alone.  coq/Heap/Conc.v — the thread programs: sequences of basicnode API calls
   (footprints computed by the heap model), and abstract programs for the shared objects outside the
   heap model (footprints read off the Go source).
   NOT modelled: the Go memory model, compiler/hardware reordering, the scheduler, sub-cell
   granularity.  The footprints are tied to the Go code by the race detector, not proved of it. *)
Require Import IP.Base.Bytes IP.DM.Value IP.Heap.GoMem IP.Heap.BasicHeap IP.Heap.Footprint IP.Heap.Conc.
Require Import IP.Proofs.HeapMem IP.Proofs.HeapLogic IP.Proofs.HeapSteps IP.Proofs.HeapOps IP.Proofs.HeapPrims IP.Proofs.HeapDrf IP.Proofs.HeapConc.
From Coq Require Import List ZArith Bool Lia.
Import ListNotations.
Local Open Scope nat_scope.

(* The classical theorem, once, for every cell type and every program: if the threads allocate in
   distinct, initially empty arenas and no thread's writes (stores and allocations of its solo run)
   touch an address in another thread's solo footprint, then EVERY interleaving is race-free (no
   reachable state in which two threads are about to access one cell, one of them writing) and every
   thread that finishes has the result it has running alone. *)
Theorem C20_drf : forall (V R : Type) (h0 : heap V) (ts : list (thread V R)),
  drf_check h0 ts = true ->
  race_free (h0, ts) /\
  forall s i t o, nth_error (snd (sched_run s (h0, ts))) i = Some t -> finished t = Some o ->
    exists t0 : thread V R, nth_error ts i = Some t0 /\ alone_out h0 t0 = o.
Proof. intros V R h0 ts Hc. apply drf_of_premise, drf_check_sound, Hc. Qed.
Print Assumptions C20_drf.

(* Clause "reading, comparing, encoding, walking": threads that only load are race-free among each
   other in every interleaving, whatever they read and however many they are. *)
Theorem C20_readers : forall (V R : Type) (h0 : heap V) (ts : list (thread V R)),
  NoDup (map t_ar ts) -> (forall t, In t ts -> nth (t_ar t) h0 [] = []) ->
  (forall t, In t ts -> wfree (t_prog t)) ->
  race_free (h0, ts) /\
  forall s i t o, nth_error (snd (sched_run s (h0, ts))) i = Some t -> finished t = Some o ->
    exists t0 : thread V R, nth_error ts i = Some t0 /\ alone_out h0 t0 = o.
Proof.
  (* a thread that only loads has no write footprint: what the DRF theorem asks holds, whatever the arenas *)
  intros V R h0 ts _ _ Hw. apply drf_of_premise.
  assert (Hnw : forall i ti, nth_error ts i = Some ti -> wfp (alone_log h0 ti) = []).
  { intros i ti Hi. unfold alone_log, alone. destruct (run (t_ar ti) (t_prog ti) h0) as [[o h'] l] eqn:E.
    rewrite wfp_writes. exact (proj2 (wfree_run _ _ _ (Hw ti (nth_error_In _ _ Hi)) _ _ _ _ _ E)). }
  intros i j ti tj _ Hi _ a Ha. rewrite (Hnw i ti Hi) in Ha. contradiction.
Qed.
Print Assumptions C20_readers.

(* … and every accessor of a basicnode node — Kind, Length, lookups, iteration, As*, AsBytes and
   AsLargeBytes of plain bytes — is such a program; reads of a streamBytes node are left out (where streamBytes shares one reader position
   they move it; on the repaired tree they only load as well). *)
Theorem C20_node_reads_only_load : forall cf l, Forall pure_read l -> wfree (prims_prog cf l).
Proof.
  induction l as [|p l IH]; cbn; intros HF; [constructor|]. inversion HF as [|? ? (r & a & -> & Hs) Hl]; subst.
  apply wfree_bind.
  - cbn. apply wfree_bind; [apply acc_wfree; assumption | intros; constructor].
  - intros o. apply wfree_bind; [apply IH; assumption | intros; constructor].
Qed.
Print Assumptions C20_node_reads_only_load.

(* Clauses "copying, building fresh nodes from shared prototypes": from C11's ownership invariant, a
   Legal API call (copy into a fresh builder, AssignNode, transform, …) NEVER STORES to a cell of a
   finished node, reader positions apart … ([prim_pre] is what a Legal call meets in a client state
   whose handles are all well formed, as they are along a Legal history: HeapC11.legal_pre, C11_ownership_invariant.) *)
Theorem C20_legal_calls_do_not_store_to_finished_nodes : forall cf tg h ar p o h' l,
  Inv tg h -> prim_pre p tg h -> run ar (prim_prog cf p) h = (o, h', l) ->
  forall a, In a (stores l) -> tg a = TFrozen -> exists r, hget h a = Some (CRdr r).
Proof.
  intros * HI HP Hr a Ha Ta.
  assert (He : exec ar (prim_prog cf p) h = (o, h')) by (unfold exec; rewrite Hr; reflexivity).
  destruct (t_prim_prog cf p tg h ar o h' HI HP He) as (tg' & [_ HE] & _).
  destruct (inv_frozen _ _ _ HI Ta) as [c [Gc _]].
  apply hget_some in Gc. destruct Gc as [v Gv].
  (* a store raises the cell's write counter, which Ext keeps for every frozen cell but a reader *)
  destruct (run_ver _ _ _ _ _ _ _ _ Hr a _ v Gv) as (c' & v' & G' & _ & Hlt). specialize (Hlt Ha).
  destruct c as [sl|es|x|bs|r]; try (exfalso;
    rewrite (ext_unwritten _ _ _ _ _ _ _ HE Ta Gv ltac:(discriminate)) in G'; inversion G'; lia).
  exists r. apply hget_some. eauto.
Qed.
Print Assumptions C20_legal_calls_do_not_store_to_finished_nodes.

(* … and everything it allocates lies in the caller's own arena, at addresses free before. *)
Theorem C20_allocations_are_local : forall V A (p : prog V A) ar h o h' l, run ar p h = (o, h', l) ->
  forall a, In (ENew a) l -> fst a = ar /\ hget h a = None.
Proof.
  intros * Hr. apply run_Run in Hr. induction Hr; cbn; intros x Hin; try contradiction.
  - destruct Hin as [F|Hin]; [discriminate | auto].
  - destruct Hin as [F|[]]. discriminate.
  - (* after a store: the cell was free then, so it was free before *)
    destruct Hin as [F|Hin]; [discriminate|]. destruct (IHHr _ Hin) as [H1 H2]. split; [assumption|].
    destruct (addr_dec a x) as [->|Hn].
    + erewrite hget_hset_same in H2 by eauto. discriminate.
    + rewrite hget_hset_other in H2 by assumption. assumption.
  - destruct Hin as [F|[]]. discriminate.
  - destruct Hin as [F|Hin].
    + inversion F; subst. split; [unfold halloc in H; inversion H; reflexivity | eapply hget_halloc_new; eauto].
    + destruct (IHHr _ Hin) as [H1 H2]. split; [assumption|].
      destruct (hget h x) eqn:G; [|reflexivity]. erewrite hget_halloc_mono in H2 by eauto. discriminate.
Qed.
Print Assumptions C20_allocations_are_local.

(* The scenario classes of the harness whose goroutines touch objects outside the heap model, with
   footprints read off the Go source: the premise of C20_drf holds for all of them but two. *)
Theorem C20_scenarios_disjoint :
  map (fun s => scen_check s 3) [ScReadViews; ScWalk; ScLoad; ScProtoBuild; ScWrapSchema; ScWrapInferred TsFullSync]
  = [true; true; true; true; true; true].
Proof. vm_compute. reflexivity. Qed.
Print Assumptions C20_scenarios_disjoint.

(* a concrete instance: three goroutines read a shared list and copy it into builders of their own *)

Definition w20_shared : list prim :=
  [PNewBuilder PrList; PBeginList (HBuilder (0, 1)) 4; PAssembleValue (HListAsm (0, 1));
   PAssign (HValL (0, 1)) (AvScalar (SInt 1)); PFinish (HListAsm (0, 1)); PBuild (HBuilder (0, 1))].
Definition w20_heap : mheap := hp (runh cfg_pinned pinit w20_shared).
Definition w20_thread (k : nat) : nat * list prim :=
  (k, [PRead (HNode (RList (0, 0))) AItems; PNewBuilder PrList;
       PAssignNode (HBuilder (k, 1)) (HNode (RList (0, 0))); PBuild (HBuilder (k, 1));
       PRead (HNode (RList (k, 0))) ALength]).

Example C20_hypotheses_satisfiable :
  basic_check cfg_pinned w20_heap [w20_thread 1; w20_thread 2; w20_thread 3] = true /\
  alone_out w20_heap (basic_thread cfg_pinned 2 (snd (w20_thread 2))) =
    Done [PAcc (XItems [RScalar KInt (0, 3)]); POk (HBuilder (2, 1)); POk HNone; POk (HNode (RList (2, 0))); PAcc (XLen 1)].
Proof. vm_compute. split; reflexivity. Qed.

(* the refuted instances (all three confirmed with the race detector) *)

(* concurrent AsBytes of one streamBytes node: both move the shared reader position *)
Definition w20_stream_shared : list prim :=
  [PNewSlice [97; 98; 99]%N; PNewStreamNode (HSlice {| s_arr := Some (0, 0); s_off := 0; s_len := 3; s_cap := 3 |})].
Definition w20_stream_heap : mheap := hp (runh cfg_pinned pinit w20_stream_shared).
Definition w20_stream_thread (k : nat) : nat * list prim := (k, [PRead (HNode (RStream (0, 1))) ABytes]).
Definition w20_stream_conf (cf : cfg) : conf val (list pout) :=
  (w20_stream_heap, [basic_thread cf 1 (snd (w20_stream_thread 1)); basic_thread cf 2 (snd (w20_stream_thread 2))]).

Theorem C20_refuted_streambytes_reader :
  basic_check cfg_pinned w20_stream_heap [w20_stream_thread 1; w20_stream_thread 2] = false /\
  racy (sched_run [0; 0] (w20_stream_conf cfg_pinned)) /\
  basic_check cfg_repaired w20_stream_heap [w20_stream_thread 1; w20_stream_thread 2] = true.
Proof.
  split; [vm_compute; reflexivity|]. split; [|vm_compute; reflexivity].
  apply (racy_at_sound _ _ 0 1); [discriminate | vm_compute; reflexivity].
Qed.
Print Assumptions C20_refuted_streambytes_reader.

(* a shared traversal.Config with nil Ctx (or chooser): init() stores into it during every walk *)
Theorem C20_refuted_traversal_config_init :
  scen_check ScWalkLazyCfg 2 = false /\
  racy (sched_run [0] (scen_heap ScWalkLazyCfg, scen_threads ScWalkLazyCfg 2)).
Proof.
  split; [vm_compute; reflexivity|].
  apply (racy_at_sound _ _ 0 1); [discriminate | vm_compute; reflexivity].
Qed.
Print Assumptions C20_refuted_traversal_config_init.

(* bindnode.Wrap / Prototype with an inferred schema: the package-global type system is written by
   every first inference and read by the type lookups of nodes bound earlier.  Refuted for the tree
   without synchronisation and for the tree whose inference (only) runs under a mutex; the premise
   holds (C20_scenarios_disjoint) once every access to the registry is synchronised. *)
Theorem C20_refuted_bindnode_default_typesystem : forall m, m <> TsFullSync ->
  scen_check (ScWrapInferred m) 2 = false /\
  racy (sched_run [0] (scen_heap (ScWrapInferred m), scen_threads (ScWrapInferred m) 2)).
Proof.
  intros m Hm. destruct m; [| |congruence];
    (split; [vm_compute; reflexivity|];
     apply (racy_at_sound _ _ 0 1); [discriminate | vm_compute; reflexivity]).
Qed.
Print Assumptions C20_refuted_bindnode_default_typesystem.
