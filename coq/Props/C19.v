(* Props/C19.v — binding Go values is faithful, reversible and a pure function of its inputs.
   The property theorems and the definition [C19_pure]; the theorems are concluded here from the lemmas of
   Proofs/Bind*.v (C19_dagjson_encoder: of Proofs/JsonPerm.v) about the executable model Bind/Bind.v
   (impl-model) and Bind/Spec.v (denotation, vocabulary), except C19_remarshal_perm (from
   C19_marshal_roundtrip_perm) and C19_narrowing_checked (by cases on [asm_int]), which are proved here. *)
Require Import IP.Base.Bytes IP.DM.Value IP.Bind.GoVal IP.Bind.Bind IP.Bind.Spec.
Require Import IP.Proofs.BindFacts IP.Proofs.BindAsm IP.Proofs.BindRead IP.Proofs.BindPure IP.Proofs.BindRefute IP.Proofs.BindMain.
Require Import IP.Codec.Cbor IP.Proofs.CborEnc IP.Proofs.CborDec IP.Proofs.BindCbor.

(* Wrap: for every quirk setting q, level (type / representation), bindable pair and Go value well formed
   for that setting ([gv_ok q]: a Go uint above MaxInt64 is well formed only where q_uint_kind reads it),
   the node view computed along bindnode's reflection code paths succeeds and is the
   denotation of the value (struct fields, slices, Keys-ordered maps, pointers for optional and
   nullable, union structs, integer widths, uint64 above int64). *)
Theorem C19_wrap_faithful : forall q lv n32 t s g,
  is_any t = false -> bindable t s = true -> gv_ok q n32 t s g = true ->
  view q lv t s g = Ok (denote lv t g).
Proof. exact (fun q lv n32 t s g Hany => view_denote q lv n32 t Hany s g). Qed.
Print Assumptions C19_wrap_faithful.

(* Build + Unwrap: assembling a tree that fits the type into the zero Go value succeeds, gives a
   well-formed Go value, and that value denotes (hence, by C19_wrap_faithful, reads back as)
   exactly the tree that was assembled — at type level and through the representation builder. *)
Theorem C19_unwrap : forall q lv n32 t s d,
  bindable t s = true -> fits q lv n32 t s d = true ->
  exists g, asm q lv n32 t s (zero_of s) false d = Ok g
            /\ gv_ok q n32 t s g = true /\ denote lv t g = d
            /\ (is_any t = false -> view q lv t s g = Ok d).
Proof.
  intros q lv n32 t s d Hb Hf.
  pose proof (bindable_noptr _ _ Hb) as Hnp. rewrite <- (deref1_noptr s Hnp) in Hf.
  destruct (asm_denote q n32 lv t s d d (bindable_loc_ok t s Hb) Hf eq_refl) as [g [Ha [Hok Hden]]].
  rewrite ok_loc_noptr in Hok by exact Hnp.
  exists g. repeat split; auto.
  intros Hany. rewrite Hden. exact (view_denote q lv n32 t Hany s g Hb Hok).
Qed.
Print Assumptions C19_unwrap.

(* Marshal then Unmarshal through any codec that returns exactly what it was given: the fresh Go
   value is well formed and holds the same data (same representation-level denotation, same view).
   Codecs that reorder map entries are C19_marshal_roundtrip_perm / _dagcbor below. *)
Theorem C19_marshal_roundtrip :
  forall q n32 (enc : dm -> bytes) (dec : bytes -> bres dm), (forall d, dec (enc d) = Ok d) ->
  forall t s g, is_any t = false -> bindable t s = true -> gv_ok q n32 t s g = true ->
  exists b g', marshal q enc t s g = Ok b /\ unmarshal q n32 dec t s b = Ok g' /\
               gv_ok q n32 t s g' = true /\ denote LRepr t g' = denote LRepr t g /\
               view q LRepr t s g' = view q LRepr t s g.
Proof.
  intros q n32 enc dec Hrt t s g Hany Hb Hg.
  destruct (marshal_roundtrip_rel q n32 eq (asm_denote q n32 LRepr) enc dec (fun _ => True)
              (fun d _ => ex_intro _ d (conj (Hrt d) eq_refl)) t s g Hany Hb Hg I)
    as [b [g' [Hm [Hu [Hok [Hden Hv]]]]]].
  exists b, g'. repeat split; auto.
  rewrite Hv, <- Hden. symmetry. exact (view_denote q LRepr n32 t Hany s g Hb Hg).
Qed.
Print Assumptions C19_marshal_roundtrip.

(* Building from a tree whose map entries arrive in any order, at any depth ([perm_eq]: the relation
   under which the DAG-CBOR encoder is invariant): if d fits the type and d' is d up to entry order,
   building d' succeeds, the Go value is well formed and denotes d up to entry order (struct fields
   land in their places whatever the order; ordered-map structs keep the delivered order in Keys). *)
Theorem C19_unwrap_any_order : forall q lv n32 t s d d',
  loc_ok (fun _ => bindable t) t s = true -> fits q lv n32 t (deref1 s) d = true -> perm_eq d d' ->
  exists g, asm q lv n32 t s (zero_of s) false d' = Ok g
            /\ ok_loc (gv_ok q n32 t) s g = true /\ perm_eq d (denote lv t g).
Proof. exact (fun q lv n32 t => asm_perm q n32 lv t). Qed.
Print Assumptions C19_unwrap_any_order.

(* Marshal then Unmarshal through any codec whose decoder returns what the encoder was given up to
   the order of map entries at every level: the fresh Go value is well formed, holds the same data up
   to entry order, and reads back as what it denotes ... *)
Theorem C19_marshal_roundtrip_perm :
  forall q n32 (enc : dm -> bytes) (dec : bytes -> bres dm) (encodable : dm -> Prop),
  (forall d, encodable d -> exists d', dec (enc d) = Ok d' /\ perm_eq d d') ->
  forall t s g, is_any t = false -> bindable t s = true -> gv_ok q n32 t s g = true ->
  encodable (denote LRepr t g) ->
  exists b g', marshal q enc t s g = Ok b /\ unmarshal q n32 dec t s b = Ok g' /\
               gv_ok q n32 t s g' = true /\
               perm_eq (denote LRepr t g) (denote LRepr t g') /\
               view q LRepr t s g' = Ok (denote LRepr t g').
Proof. intros q n32. exact (marshal_roundtrip_rel q n32 perm_eq (asm_perm q n32 LRepr)). Qed.
Print Assumptions C19_marshal_roundtrip_perm.

(* ... and when the encoder does not depend on entry order, marshalling the fresh value gives the
   same bytes again *)
Theorem C19_remarshal_perm :
  forall q n32 (enc : dm -> bytes) (dec : bytes -> bres dm) (encodable : dm -> Prop),
  (forall d, encodable d -> exists d', dec (enc d) = Ok d' /\ perm_eq d d') ->
  (forall d d', keys_nodup d -> perm_eq d d' -> enc d = enc d') ->
  forall t s g, is_any t = false -> bindable t s = true -> gv_ok q n32 t s g = true ->
  encodable (denote LRepr t g) -> keys_nodup (denote LRepr t g) ->
  exists b g', marshal q enc t s g = Ok b /\ unmarshal q n32 dec t s b = Ok g' /\
               gv_ok q n32 t s g' = true /\
               perm_eq (denote LRepr t g) (denote LRepr t g') /\
               marshal q enc t s g' = Ok b.
Proof.
  intros q n32 enc dec encodable Hcodec Henc_perm t s g Hany Hb Hg Henc Hnd.
  destruct (C19_marshal_roundtrip_perm q n32 enc dec encodable Hcodec t s g Hany Hb Hg Henc) as [b [g' [Hm [Hu [Hok [Hp Hv]]]]]].
  exists b, g'. repeat split; try assumption.
  unfold marshal in *. rewrite Hv. cbn [bind].
  rewrite (view_denote q LRepr n32 t Hany s g Hb Hg) in Hm. cbn [bind] in Hm. inversion Hm; subst b.
  f_equal. symmetry. apply Henc_perm; assumption.
Qed.
Print Assumptions C19_remarshal_perm.

(* The concrete DAG-CBOR codec model (Codec/Cbor.v: [cbor_enc] = the registered encoder's output,
   [cbor_dec o] = the decoder with options o): no premise about the codec is left except that the
   representation of the value is within the decoder's limits (ints in range, strings to the cap,
   distinct keys inside Any content, depth, allocation budget). *)
Theorem C19_marshal_roundtrip_dagcbor : forall q n32 o t s g,
  d_allow_links o = true ->
  is_any t = false -> bindable t s = true -> gv_ok q n32 t s g = true ->
  within_cbor_limits o (denote LRepr t g) ->
  exists b g', marshal q cbor_enc t s g = Ok b /\ unmarshal q n32 (cbor_dec o) t s b = Ok g' /\
               gv_ok q n32 t s g' = true /\
               perm_eq (denote LRepr t g) (denote LRepr t g') /\
               marshal q cbor_enc t s g' = Ok b.
Proof.
  intros q n32 o t s g Hl Hany Hb Hg Hw.
  apply (C19_remarshal_perm q n32 cbor_enc (cbor_dec o) (within_cbor_limits o) (cbor_codec_perm o Hl) cbor_enc_perm
           t s g Hany Hb Hg Hw).
  apply rt_ok_keys_nodup. exact (proj1 Hw).
Qed.
Print Assumptions C19_marshal_roundtrip_dagcbor.

(* the registered encoder (dagcbor.Encode: links allowed, RFC7049 key order) produces these bytes *)
Theorem C19_dagcbor_encoder : forall d, Cbor.enc dagcbor_eopts d = Ok (cbor_enc d).
Proof. intros d. apply (enc_ok dagcbor_eopts d). reflexivity. Qed.

(* Unwrap then rebuild: the view of any well-formed value fits its type, so the value can be
   rebuilt from what Wrap shows (both levels) into a value holding the same data. *)
Theorem C19_rebuild : forall q lv n32 t s g,
  bindable t s = true -> gv_ok q n32 t s g = true ->
  exists g', asm q lv n32 t s (zero_of s) false (denote lv t g) = Ok g'
             /\ gv_ok q n32 t s g' = true /\ denote lv t g' = denote lv t g.
Proof.
  intros q lv n32 t s g Hb Hg.
  destruct (C19_unwrap q lv n32 t s _ Hb (denote_fits q lv n32 t s g Hb Hg)) as [g' [Ha [Hok [Hden _]]]].
  exists g'. auto.
Qed.
Print Assumptions C19_rebuild.

(* Purity.  The full statement: every call of every history gives what the same call gives on the
   initial state and none ends in the duplicate-type-name panic. *)
Definition C19_pure (q : quirks) : Prop := pure_prop q.

(* it holds whenever inferSchema reuses what is registered (the proposed fix) ... *)
Theorem C19_pure_repaired : forall q, q_reuse_registered q = true -> C19_pure q.
Proof. exact pure_repaired_thm. Qed.
Print Assumptions C19_pure_repaired.

(* ... and fails on the pinned tree: Wrap(&d, nil) twice for type D struct{ N int64 } *)
Theorem C19_refuted_rewrap : ~ C19_pure pinned.
Proof.
  intros H. destruct (rewrap_refuted (fun x => x)) as [c [Hne _]].
  destruct (H (fun x => x) [c; c] registry0) as [Heq _]. exact (Hne Heq).
Qed.
Print Assumptions C19_refuted_rewrap.

(* further shapes of the same defect: one Wrap of a struct with two []string fields; every
   ipld.Unmarshal(.., &v, nil) of a named struct *)
Theorem C19_refuted_first_wrap : forall n32,
  snd (step pinned n32 registry0 (CWrap Inferred shape_two_lists (GStruct [GNil; GNil]))) = OFail PDup.
Proof. reflexivity. Qed.
Theorem C19_refuted_unmarshal_nil : forall n32,
  snd (step pinned n32 registry0 (CUnmarshal Inferred shape_D (DMap [([78], DInt 1%Z)]))) = OFail PDup.
Proof. (* Unmarshal resolves the schema twice *) reflexivity. Qed.

(* Integer widths on assembly: 300 into an int8 field is stored as 44 without an error (so the
   in-range side condition of C19_unwrap is necessary on the pinned tree); with the range check the
   builder refuses, and whatever integer it stores reads back unchanged. *)
Theorem C19_refuted_narrowing : forall n32,
  verify_compat t_narrow s_narrow = true /\
  asm pinned LType n32 t_narrow s_narrow (zero_of s_narrow) false d_300 = Ok (GStruct [GInt 44]) /\
  view pinned LType t_narrow s_narrow (GStruct [GInt 44]) = Ok (DMap [(fA, DInt 44)]) /\
  DMap [(fA, DInt 44)] <> d_300.
Proof. intros. repeat split. discriminate. Qed.
Theorem C19_narrowing_checked : forall q s z g, q_range_check q = true -> asm_int q s z = Ok g ->
  exists k, deref1 s = SInt k /\ ik_in k z = true /\ g = put s (GInt z).
Proof.
  intros q s z g Hq H. unfold asm_int in H. rewrite Hq in H. cbn [andb] in H.
  destruct (deref1 s) as [|k| | | | | | | | |] eqn:Es; try discriminate.
  exists k. split; [reflexivity|].
  destruct (if q_ptr_uint q then ik_unsigned k else match s with SInt k' => ik_unsigned k' | _ => false end).
  - destruct (z <? 0)%Z; [discriminate|].
    destruct (ik_in k z) eqn:Hin; simpl in H; [|discriminate].
    rewrite (ik_narrow_in k z Hin) in H. inversion H. auto.
  - destruct (ik_unsigned k) eqn:Hu; [discriminate|].
    destruct (ik_in k z) eqn:Hin; simpl in H; [|discriminate].
    assert ((two63z <=? z)%Z = false) as E.
    { apply Z.leb_gt. pose proof (signed_below_two63 k z Hu Hin) as L. apply Z.ltb_lt in L. exact L. }
    rewrite E in H. rewrite (ik_narrow_in k z Hin) in H. inversion H. auto.
Qed.
Print Assumptions C19_narrowing_checked.

(* A Go uint (kind Uint) above MaxInt64: well formed for the repaired setting, unreadable on the pinned tree, read
   correctly when newNode treats Uint like Uint64 *)
Theorem C19_refuted_uint_kind : forall n32,
  verify_compat t_bigu s_bigu = true /\ gv_ok repaired n32 t_bigu s_bigu g_bigu = true /\
  view pinned LType t_bigu s_bigu g_bigu = Err XOverflow /\
  view repaired LType t_bigu s_bigu g_bigu = Ok (denote LType t_bigu g_bigu).
Proof. intros. repeat split. Qed.

(* Pairs verifyCompatibility accepts but that are outside [bindable] — the hypothesis of the
   theorems above cannot be weakened to verify_compat *)
Theorem C19_refuted_nullable_uint : forall n32,
  verify_compat t_nulu s_nulu = true /\ bindable t_nulu s_nulu = false /\
  asm pinned LType n32 t_nulu s_nulu (zero_of s_nulu) false (DMap [(fV, DInt 5)]) = Err PReflect.
Proof. intros. repeat split. Qed.
Theorem C19_refuted_optional_slice : forall n32,
  verify_compat t_optl s_optl = true /\ bindable t_optl s_optl = false /\
  view pinned LRepr t_optl s_optl (GStruct [GSlice []]) = Ok (DMap [(fL, DList [])]) /\
  asm pinned LRepr n32 t_optl s_optl (zero_of s_optl) false (DMap [(fL, DList [])]) = Ok (GStruct [GNil]) /\
  view pinned LRepr t_optl s_optl (GStruct [GNil]) = Ok (DMap []).
Proof. intros. repeat split. Qed.
Theorem C19_refuted_int_enum : forall n32,
  verify_compat t_enum s_enum = true /\ bindable t_enum s_enum = false /\
  view pinned LType t_enum s_enum (GStruct [GInt 2]) = Ok (DMap [(fE, DString (reflect_nonstring IInt))]) /\
  denote LType t_enum (GStruct [GInt 2]) = DMap [(fE, DString [71])] /\
  asm pinned LType n32 t_enum s_enum (zero_of s_enum) false (DMap [(fE, DString [71])]) = Err PReflect.
Proof. intros. repeat split. Qed.
Print Assumptions C19_refuted_int_enum.

(* The DAG-JSON instance: Marshal / Unmarshal through the concrete DAG-JSON model
   (Codec/DagJson.v; proof Proofs/BindJson.v over Proofs/JsonPerm.v, from C04's theorems).
   json_enc = the text dagjson.Encode writes (C19_dagjson_encoder), json_bdec = dagjson.Decode demanding that
   all input is consumed.  Hypotheses that remain, as premises (definitions at the end of Proofs/JsonMain.v,
   sampled on the real code by ./check C04): A1 (ParseFloat inverts emitFloat), A2 (emitFloat's text has
   '.'/exponent iff the float is not an integer below 1e21), CID (cid.Decode inverts Cid.String(), valid UTF-8).
   json_within cid_ok d = dag-json's domain: finite floats none of which is an integer below 1e21 (the known
   C04 finding), valid UTF-8 strings and keys, int64 ints, defined CIDs, distinct keys and none of the two
   reserved shapes inside Any content, decoder depth within the default limit. *)

(* imported only here: these modules define an [SInt] of their own, which the statements above must not see *)
Require Import IP.Codec.DagJson IP.Proofs.JsonMain IP.Proofs.JsonPerm IP.Proofs.BindJson.

Theorem C19_marshal_roundtrip_dagjson : forall fmt_float parse_float cid_str cid_parse cid_ok,
  JsonMain.A1 fmt_float parse_float -> JsonMain.A2 fmt_float -> JsonMain.CID cid_str cid_parse cid_ok ->
  forall q n32 t s g,
  is_any t = false -> bindable t s = true -> gv_ok q n32 t s g = true ->
  json_within cid_ok (denote LRepr t g) ->
  exists b g', marshal q (json_enc fmt_float cid_str) t s g = Ok b /\
               unmarshal q n32 (json_bdec parse_float cid_parse) t s b = Ok g' /\
               gv_ok q n32 t s g' = true /\
               perm_eq (denote LRepr t g) (denote LRepr t g') /\
               marshal q (json_enc fmt_float cid_str) t s g' = Ok b.
Proof.
  intros fmt_float parse_float cid_str cid_parse cid_ok H1 H2 H3 q n32 t s g Hany Hb Hg Hw.
  apply (C19_remarshal_perm q n32 (json_enc fmt_float cid_str) (json_bdec parse_float cid_parse) (json_within cid_ok)
           (fun d Hd => json_codec_perm fmt_float parse_float cid_str cid_parse cid_ok H1 H2 H3 XOther d Hd)
           (json_enc_perm fmt_float cid_str) t s g Hany Hb Hg Hw).
  exact (json_safe_keys_nodup _ _ _ (proj1 Hw)).
Qed.
Print Assumptions C19_marshal_roundtrip_dagjson.

Theorem C19_dagjson_encoder : forall fmt_float cid_str cid_ok d, JsonEnc.encodable cid_ok d = true ->
  jenc fmt_float cid_str dagjson_eopts cid_ok d = Ok (json_enc fmt_float cid_str d).
Proof. exact json_enc_is_encode. Qed.
Print Assumptions C19_dagjson_encoder.

(* the premises are satisfiable (ordered map {String:Int} with Keys [b; a]); the round trip really reorders *)
Theorem C19_marshal_roundtrip_dagjson_example : forall q n32 cid_ok,
  is_any t_msi = false /\ bindable t_msi s_msi = true /\ gv_ok q n32 t_msi s_msi g_msi = true /\
  json_within cid_ok (denote LRepr t_msi g_msi).
Proof. exact dagjson_hyps_sat. Qed.
Print Assumptions C19_marshal_roundtrip_dagjson_example.
