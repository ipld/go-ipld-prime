(* Props/C05.v — links are a function of value and prototype; store then load returns the value.
   Property theorems only, each concluded here from the lemmas of Proofs/LinkBase.v, LinkC05.v and LinkCbor.v.
   [hasher_ok], [hash] (an arbitrary function) and the codec registry are universally quantified. *)
Require Import IP.Base.Bytes IP.DM.Value IP.Codec.Cbor IP.Link.LinkSys IP.Link.LinkSpec.
Require Import IP.Gen.FromGo IP.Proofs.CborEnc IP.Proofs.CborDec.
Require Import IP.Proofs.LinkBase IP.Proofs.LinkC06 IP.Proofs.LinkC05 IP.Proofs.LinkCbor.
Open Scope N_scope.

(* after any history of store / compute / load operations, Store returns (status and link) exactly
   what ComputeLink returns: no state of the link system or the storage enters the link *)
Theorem C05_store_eq_compute :
  forall (hasher_ok : N -> bool) (hash : N -> bytes -> bytes) (encoders decoders : N -> option codec)
         (sk : skind) (trusted : bool) (h : list lop) (lp : lproto) (v : dm),
    fst (store hasher_ok hash encoders true sk honest_w (snd (run hasher_ok hash encoders decoders true sk trusted [] h)) lp v) =
    compute hasher_ok hash encoders lp v.
Proof. intros. apply store_eq_compute. Qed.
Print Assumptions C05_store_eq_compute.

(* ... and whatever the storage WRITER does during a Store (transient or sticky failures, short
   writes — the storage itself stays honest): a Store that reports Ok returns ComputeLink's result *)
Theorem C05_store_faulty_writer_eq_compute :
  forall (hasher_ok : N -> bool) (hash : N -> bytes -> bytes) (encoders : N -> option codec)
         (sk : skind) (w : wbeh) (st : storage) (lp : lproto) (v : dm),
    so_status (fst (store hasher_ok hash encoders true sk w st lp v)) = SOk ->
    fst (store hasher_ok hash encoders true sk w st lp v) = compute hasher_ok hash encoders lp v.
Proof.
  intros hasher_ok hash encoders sk w st lp v Sok.
  destruct (storeW_cases hasher_ok hash encoders sk w st lp v) as [[N _]|E]; [contradiction|].
  rewrite E. apply store_eq_compute.
Qed.
Print Assumptions C05_store_faulty_writer_eq_compute.

(* the link of (prototype, value) is the same after any two histories *)
Theorem C05_link_fn :
  forall (hasher_ok : N -> bool) (hash : N -> bytes -> bytes) (encoders decoders : N -> option codec)
         (sk : skind) (trusted : bool) (h1 h2 : list lop) (lp : lproto) (v : dm),
    fst (store hasher_ok hash encoders true sk honest_w (snd (run hasher_ok hash encoders decoders true sk trusted [] h1)) lp v) =
    fst (store hasher_ok hash encoders true sk honest_w (snd (run hasher_ok hash encoders decoders true sk trusted [] h2)) lp v).
Proof. intros. now rewrite !store_eq_compute. Qed.
Print Assumptions C05_link_fn.

(* for a codec whose encoder is insensitive to map entry order (the key-sorting DAG codecs), two
   values that differ only in entry order get the same link *)
Theorem C05_link_fn_perm :
  forall (hasher_ok : N -> bool) (hash : N -> bytes -> bytes) (encoders : N -> option codec)
         (same : dm -> dm -> Prop) (lp : lproto) (c : codec) (dom : dm -> Prop) (v1 v2 : dm),
    encoders (lp_codec lp) = Some c ->
    order_insensitive same c dom ->
    dom v1 -> dom v2 -> same v1 v2 ->
    compute hasher_ok hash encoders lp v1 = compute hasher_ok hash encoders lp v2.
Proof. exact link_fn_perm. Qed.
Print Assumptions C05_link_fn_perm.

(* invariant of every history from an empty store: each block sits under the key of a link that
   its bytes hash to *)
Theorem C05_blocks_ok :
  forall (hasher_ok : N -> bool) (hash : N -> bytes -> bytes) (encoders decoders : N -> option codec)
         (sk : skind) (tr : bool) (h : list lop),
    blocks_ok hash sk (snd (run hasher_ok hash encoders decoders true sk tr [] h)).
Proof. intros. apply blocks_ok_run. intros k b L. discriminate. Qed.
Print Assumptions C05_blocks_ok.

(* a link returned by a store anywhere in a history loads back, with every load form, as the
   decoding of exactly the bytes written, which hash to the link — provided no other store of the
   history put different bytes under the same storage key (possible only when (truncated) digests
   collide; see collision_possible in Proofs/LinkC05.v) *)
Theorem C05_store_load :
  forall (hasher_ok : N -> bool) (hash : N -> bytes -> bytes) (encoders decoders : N -> option codec)
         (sk : skind) (tr : bool) (h1 h2 : list lop) (lp : lproto) (v : dm) (l : link)
         (b : bytes) (f : lform) (cl : codec) (v' : dm) (e : bool),
    store_plan hasher_ok hash encoders lp v = Some (l, b) ->
    no_collision hasher_ok hash encoders sk (skey sk l) b (h1 ++ OStore lp v :: h2) ->
    decoders (lp_codec (link_proto l)) = Some cl ->
    c_dec cl b = Some (v', lenN b, e) ->
    let st := snd (run hasher_ok hash encoders decoders true sk tr [] (h1 ++ OStore lp v :: h2)) in
    load_any hasher_ok hash decoders f tr (honest_read sk st l) l = loaded f v' b /\ verify hash l b = VOk.
Proof. exact store_load. Qed.
Print Assumptions C05_store_load.

(* with the codec's round-trip law (decode (encode v) = canonical form of v, consuming everything)
   and a CIDv1 prototype: the node read back is the canonicalised value *)
Theorem C05_store_load_roundtrip :
  forall (hasher_ok : N -> bool) (hash : N -> bytes -> bytes) (encoders decoders : N -> option codec)
         (sk : skind) (tr : bool) (h1 h2 : list lop) (lp : lproto) (v : dm) (l : link)
         (b : bytes) (f : lform) (c : codec) (dom : dm -> Prop) (canon : dm -> dm),
    lp_version lp = 1 ->
    encoders (lp_codec lp) = Some c -> decoders (lp_codec lp) = Some c ->
    roundtrips c dom canon ->
    dom v ->
    store_plan hasher_ok hash encoders lp v = Some (l, b) ->
    no_collision hasher_ok hash encoders sk (skey sk l) b (h1 ++ OStore lp v :: h2) ->
    let st := snd (run hasher_ok hash encoders decoders true sk tr [] (h1 ++ OStore lp v :: h2)) in
    load_any hasher_ok hash decoders f tr (honest_read sk st l) l = loaded f (canon v) b /\
    verify hash l b = VOk.
Proof. exact store_load_roundtrip. Qed.
Print Assumptions C05_store_load_roundtrip.

(* BuildLink is idempotent through the link's own prototype (what makes a stored block verify) *)
Theorem C05_build_link_idem :
  forall (lp : lproto) (d : bytes) (l : link),
    build_link lp d = Some l -> build_link (link_proto l) d = Some l.
Proof. exact build_link_idem. Qed.
Print Assumptions C05_build_link_idem.

(* the round-trip law for the raw codec *)
Theorem C05_raw_roundtrips : roundtrips raw_codec (fun _ => True) (fun v => v).
Proof.
  intros v chunks _. destruct v; cbn; try discriminate. intros E; inversion E; subst. cbn.
  now rewrite app_nil_r.
Qed.
Print Assumptions C05_raw_roundtrips.

(* dag-cbor: the two codec laws are discharged against coq/Codec/Cbor.v by C02's theorems
   (encb_perm_invariant, decode_encode), so the statements below have no codec premise left *)

Theorem C05_dagcbor_order_insensitive :
  forall reject_tags : bool, order_insensitive perm_eq (dagcbor_codec reject_tags) keys_nodup.
Proof. exact dagcbor_order_insensitive. Qed.
Print Assumptions C05_dagcbor_order_insensitive.

Theorem C05_dagcbor_roundtrips :
  forall reject_tags : bool, roundtrips (dagcbor_codec reject_tags) dagcbor_dom (sort_maps rfc_ltb).
Proof. exact dagcbor_roundtrips. Qed.
Print Assumptions C05_dagcbor_roundtrips.

(* under any registry that maps 0x71 to dag-cbor (the default registry does), for any hash: values
   equal up to map entry order, with duplicate-free keys, get the same link *)
Theorem C05_dagcbor_link_fn_perm :
  forall (hasher_ok : N -> bool) (hash : N -> bytes -> bytes) (encoders : N -> option codec) (rt : bool),
    encoders 113 = Some (dagcbor_codec rt) ->
    forall (lp : lproto) (v1 v2 : dm),
      lp_codec lp = 113 -> keys_nodup v1 -> keys_nodup v2 -> perm_eq v1 v2 ->
      compute hasher_ok hash encoders lp v1 = compute hasher_ok hash encoders lp v2.
Proof.
  intros hasher_ok hash encoders rt Hreg lp v1 v2 C D1 D2 P.
  eapply (link_fn_perm hasher_ok hash encoders perm_eq); eauto.
  - rewrite C. exact Hreg.
  - apply dagcbor_order_insensitive.
Qed.
Print Assumptions C05_dagcbor_link_fn_perm.

(* ... and a stored dag-cbor link (CIDv1) loads back, with every load form, as the value with its
   maps in RFC 7049 order and the stored bytes, which hash to the link *)
Theorem C05_dagcbor_store_load :
  forall (hasher_ok : N -> bool) (hash : N -> bytes -> bytes) (encoders decoders : N -> option codec) (rt : bool),
    encoders 113 = Some (dagcbor_codec rt) -> decoders 113 = Some (dagcbor_codec rt) ->
    forall (sk : skind) (tr : bool) (h1 h2 : list lop) (lp : lproto) (v : dm) (l : link) (b : bytes) (f : lform),
      lp_version lp = 1 -> lp_codec lp = 113 -> dagcbor_dom v ->
      store_plan hasher_ok hash encoders lp v = Some (l, b) ->
      no_collision hasher_ok hash encoders sk (skey sk l) b (h1 ++ OStore lp v :: h2) ->
      let st := snd (run hasher_ok hash encoders decoders true sk tr [] (h1 ++ OStore lp v :: h2)) in
      load_any hasher_ok hash decoders f tr (honest_read sk st l) l = loaded f (sort_maps rfc_ltb v) b /\
      verify hash l b = VOk.
Proof.
  intros hasher_ok hash encoders decoders rt Hreg Hregd sk tr h1 h2 lp v l b f V C D P NC.
  eapply (store_load_roundtrip hasher_ok hash encoders decoders); eauto.
  - rewrite C. exact Hreg.
  - rewrite C. exact Hregd.
  - apply dagcbor_roundtrips.
Qed.
Print Assumptions C05_dagcbor_store_load.
