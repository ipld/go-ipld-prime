(* Props/C09.v — typed builders accept exactly the data that conforms to the schema.
   The property theorems; the lemmas they are concluded from are in Proofs/SchemaBuild.v, SchemaShape.v, SchemaTop.v, SchemaRefute.v and,
   for the statements through the codec, SchemaCborAccept.v. *)
Require Import IP.Base.Bytes IP.DM.Value IP.Schema.Types IP.Schema.View IP.Schema.Conform IP.Schema.Sem
  IP.Proofs.SchemaBuild IP.Proofs.SchemaShape IP.Proofs.SchemaRefute IP.Proofs.SchemaTop.
Require Import IP.Codec.Cbor IP.Codec.CborSpec IP.Proofs.CborDec IP.Proofs.CborSound IP.Proofs.CborComplete IP.Proofs.SchemaCborAccept.

(* every strategy, both levels, both engines, leniencies off: accepted <-> conforms, same value *)
Theorem C09_accept_iff : forall e t d v, (e = Bind \/ e = Gen) -> wf t = true ->
  (rbuild e qoff t d = BOk v <-> conforms_r t d = Some v) /\
  (tbuild e qoff t d = BOk v <-> conforms_t t d = Some v).
Proof. intros e t d v _. apply accept_iff_top. Qed.
Print Assumptions C09_accept_iff.

(* the same for every setting of the quirk record in which the acceptance-relevant switches are off *)
Theorem C09_accept_iff_strict : forall e q lvl t d v, strict e q -> wf t = true ->
  (build e q lvl t d = BOk v <-> conf_f lvl (fuel_of t) t d = Some v).
Proof. exact accept_iff. Qed.
Print Assumptions C09_accept_iff_strict.

Theorem C09_no_panic : forall e t d, (e = Bind \/ e = Gen) -> wf t = true ->
  rbuild e qoff t d <> BPanic /\ tbuild e qoff t d <> BPanic.
Proof. intros e t d _. apply no_panic_top. Qed.
Print Assumptions C09_no_panic.

Theorem C09_reject_is_error : forall e t d, (e = Bind \/ e = Gen) -> wf t = true ->
  (conforms_r t d = None -> exists c, rbuild e qoff t d = BErr c) /\
  (conforms_t t d = None -> exists c, tbuild e qoff t d = BErr c).
Proof. intros e t d _. apply reject_top. Qed.
Print Assumptions C09_reject_is_error.

(* what a builder returns has the shape of the type ([has_shape]: the value space [has_type] without the two
   conditions that only concern representability — tuple: absent fields form a suffix; stringjoin: no delimiter
   inside a field — which a type-level build does not meet: {a:1,c:2} into the tuple struct tTU leaves b absent) *)
Theorem C09_built_in_type : forall e q lvl t d v, strict e q -> wf t = true ->
  build e q lvl t d = BOk v -> has_shape t v = true.
Proof.
  intros e q lvl t d v Hs Hwf Hb. apply (accept_iff e q lvl t d v Hs Hwf) in Hb.
  eapply conf_shape; eauto.
Qed.
Print Assumptions C09_built_in_type.

(* the hypotheses are satisfiable *)
Theorem C09_example : wf tBig = true /\ strict Bind qoff /\ strict Gen qoff.
Proof. split; [reflexivity|split; apply strict_qoff]. Qed.
Print Assumptions C09_example.

(* the full statement about the pinned tree (/repo at its snapshot 3e45851: the quirks [pinned]) is false; one witness
   per confirmed leniency *)
Definition C09_full : Prop := accept_iff_pinned /\ no_panic_pinned.
Theorem C09_full_refuted : ~ C09_full.
Proof. intros [H _]. exact (accept_iff_pinned_false H). Qed.
Print Assumptions C09_full_refuted.

Theorem C09_refuted_dup_field :
  accepts_nonconforming LRepr tSM (DMap [(sx, DInt 1); (sx, DInt 2); (sc, DInt 1)]).
Proof. exact refuted_dup_field. Qed.
Theorem C09_refuted_dup_mapkey : accepts_nonconforming LRepr tMS (DMap [(sa, DInt 1); (sa, DInt 2)]).
Proof. witness. Qed.
Theorem C09_refuted_union_two : accepts_nonconforming LRepr tUK (DMap [([105], DInt 1); ([115], DString sx)]).
Proof. witness. Qed.
Theorem C09_refuted_rename_alias : accepts_nonconforming LRepr tSM (DMap [(sa, DInt 1); (sc, DInt 1)]).
Proof. witness. Qed.
Theorem C09_refuted_member_alias : accepts_nonconforming LRepr tUK (DMap [(nInt, DInt 1)]).
Proof. witness. Qed.
Theorem C09_refuted_listpairs_dup :
  accepts_nonconforming LRepr tLP (DList [DList [DString sc; DInt 1]; DList [DString sc; DInt 2]]).
Proof. witness. Qed.
Theorem C09_refuted_listpairs_short :
  accepts_nonconforming LRepr tLP (DList [DList [DString sc; DInt 1]; DList [DString sa]]).
Proof. witness. Qed.
Theorem C09_refuted_enum_name_alias : accepts_nonconforming LRepr tEn (DString nAa).
Proof. witness. Qed.
Theorem C09_refuted_enum_type_unchecked : accepts_nonconforming LType tEn (DString [103]).
Proof. witness. Qed.
Theorem C09_refuted_int_narrow : accepts_nonconforming LRepr tI8 (DMap [([118], DInt 300)]).
Proof. witness. Qed.
Theorem C09_refuted_listpairs_unknown_panic :
  wf tLP = true /\
  rbuild Bind pinned tLP (DList [DList [DString sc; DInt 1]; DList [DString sq; DInt 1]]) = BPanic.
Proof. exact refuted_listpairs_unknown_panic. Qed.
Theorem C09_refuted_nullable_sum_panic :
  wf tNL = true /\ conforms_r tNL (DList [DInt 1; DNull]) <> None /\
  rbuild Bind pinned tNL (DList [DInt 1; DNull]) = BPanic.
Proof. vm_compute. repeat split; auto. discriminate. Qed.
Print Assumptions C09_refuted_nullable_sum_panic.

(* through the codec: a typed builder fed by the strict dag-cbor decoder (repaired tree, links allowed,
   whole input consumed) accepts exactly the byte strings that are one well-formed DAG-CBOR item ([chk],
   Codec/CborSpec.v) denoting a tree within the decoder's limits that conforms to the type — and builds
   the value that tree denotes.  Composition of C03's decode_iff with C09_accept_iff. *)
Theorem C09_bytes_accept_iff : forall e o t bs v,
  (e = Bind \/ e = Gen) -> wf t = true -> strict_dagcbor o -> wfb bs ->
  ((exists d, decode o bs = Ok (d, []) /\ rbuild e qoff t d = BOk v) <->
   (exists d, chk true true true d bs = Some [] /\ fits o d /\ conforms_r t d = Some v)).
Proof. intros e o t bs v _. apply bytes_accept_iff. Qed.
Print Assumptions C09_bytes_accept_iff.

(* C09_built_in_type and C09_no_panic for a tree that came out of the decoder; the decoding premise plays no
   part in the proofs *)
Theorem C09_bytes_built_in_type : forall e o t bs d v,
  (e = Bind \/ e = Gen) -> wf t = true ->
  decode o bs = Ok (d, []) -> rbuild e qoff t d = BOk v -> has_shape t v = true.
Proof.
  intros e o t bs d v _ Hwf _ Hr. apply (accept_iff_top e t d v Hwf) in Hr.
  now apply (conf_shape LRepr (fuel_of t) t d).
Qed.
Print Assumptions C09_bytes_built_in_type.

Theorem C09_bytes_no_panic : forall e o t bs d,
  (e = Bind \/ e = Gen) -> wf t = true -> decode o bs = Ok (d, []) -> rbuild e qoff t d <> BPanic.
Proof. intros e o t bs d _ Hwf _. now apply no_panic_top. Qed.
Print Assumptions C09_bytes_no_panic.

(* satisfiable, both sides inhabited: {"c":null,"x":1} into struct {a Int (rename "x"), b optional nullable
   String, c nullable Int, d optional String} *)
Theorem C09_bytes_example :
  strict_dagcbor ex_opts /\ wfb ex_bytes /\ wf tSM = true /\
  decode ex_opts ex_bytes = Ok (DMap [(sc, DNull); (sx, DInt 1)], []) /\
  rbuild Bind qoff tSM (DMap [(sc, DNull); (sx, DInt 1)]) = BOk (VStruct [MVal (VInt 1); MAbsent; MNull; MAbsent]) /\
  chk true true true (DMap [(sc, DNull); (sx, DInt 1)]) ex_bytes = Some [].
Proof. exact bytes_accept_example. Qed.
Print Assumptions C09_bytes_example.
