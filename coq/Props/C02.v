(* Props/C02.v — DAG-CBOR encoding is canonical, order-independent, round-trips; the predicted
   length is the produced length.  Property theorems only: each is an instance of a lemma of coq/Proofs/ or,
   where the statement is stated nowhere else (C02_canonical, C02_heads_shortest), proved here from them (the
   witnesses by computation), with Print Assumptions beneath the theorems. *)
Require Import IP.Base.Bytes IP.DM.Value IP.Codec.Cbor IP.Codec.CborSpec.
Require Import IP.Proofs.BytesFacts IP.Proofs.CborHead IP.Proofs.CborEnc IP.Proofs.CborDec IP.Proofs.CborCanon.
Require IP.Gen.FromGo IP.Proofs.GoSort.
From Coq Require Import Permutation.
Open Scope N_scope.

(* The model encoder with links allowed never fails and equals the closed form [encb]. *)
Theorem C02_encoder_closed_form : forall o v, e_allow_links o = true -> enc o v = Ok (encb (e_sort o) v).
Proof. exact enc_ok. Qed.
Print Assumptions C02_encoder_closed_form.

(* Canonical: for every value whose ints fit a node and whose maps have distinct keys, the bytes the
   registered codec produces are in the relation Canon (shortest heads, float64 only, definite
   lengths, keys length-then-bytewise, tag 42 over 0x00-prefixed CID) ... *)
Theorem C02_canonical : forall v, int_ok v -> keys_nodup v -> Canon v (encb SortRFC7049 v).
Proof.
  induction v as [| b | z | f | s | s | c | l IH | es IH] using dm_ind2; intros Hi Hk; cbn [encb].
  - constructor.
  - destruct b; constructor.
  - cbn [int_ok] in Hi. unfold enc_int. destruct (Z.leb_spec 0 z); constructor; lia.
  - constructor.
  - unfold enc_str. constructor.
  - constructor.
  - unfold enc_link. change IP.Gen.FromGo.go_linkTag with 42. constructor.
  - apply int_ok_list in Hi. apply keys_nodup_list in Hk.
    apply CList. induction IH as [|x r Hx _ IHr]; [constructor|].
    inversion Hi; inversion Hk; subst. cbn [map]. constructor; auto.
  - apply int_ok_map in Hi. apply keys_nodup_map in Hk as [Hnd Hk].
    rewrite sort_entries_map_snd, map_map. cbn [sort_entries].
    set (es' := sort_kv rfc_ltb es).
    assert (HP : Permutation es es') by apply sort_perm.
    apply (CMap es es').
    + exact HP.
    + apply sort_sorted; auto using rfc_ltb_irrefl, rfc_ltb_total. apply rfc_ltb_trans.
    + assert (HA : Forall (fun kv => Canon (snd kv) (encb SortRFC7049 (snd kv))) es').
      { eapply Permutation_Forall; [exact HP|].
        rewrite Forall_forall in *. intros kv Hin. apply IH; auto. }
      clear -HA. induction HA as [|kv r Hkv _ IHr]; [constructor|]. cbn [map]. constructor; [|exact IHr].
      exists (encb SortRFC7049 (snd kv)). split; [exact Hkv|]. unfold enc_entry, enc_str. cbn [fst snd]. reflexivity.
Qed.
Print Assumptions C02_canonical.

(* ... and that relation determines the bytes: "exactly the canonical byte string". *)
Theorem C02_canonical_unique : forall v, keys_nodup v -> forall b1 b2, Canon v b1 -> Canon v b2 -> b1 = b2.
Proof. intros v _. apply canon_functional. Qed.
Print Assumptions C02_canonical_unique.

(* the heads used are the shortest ones: the SPEC's strict head reader accepts only them (and each of them:
   CborHead.rd_head_of_head) *)
Theorem C02_heads_shortest : forall bs mj a r, Forall (fun b => b < 256) bs ->
  rd_head true bs = Some (mj, a, r) -> bs = head mj a ++ r /\ a < two64 /\ mj < 8.
Proof.
  (* the reader's thresholds (24, 2^8, 2^16, 2^32) are the least arguments of head's rows, so what it accepts is
     literally [head mj a] followed by the rest *)
  intros bs mj a r Hw H. destruct (rd_head_wf _ _ _ _ _ Hw H) as (Ha & Hm & _). split; [|auto].
  apply rd_head_inv in H as (b & t & -> & -> & Ea). inversion Hw as [|? ? _ Ht]; subst.
  pose proof (first_byte_split b) as Hb.
  apply dec_arg_inv in Ea as [(Hlt & -> & ->)|(w & lo & x & Hrow & -> & <- & -> & Hlo)].
  - rewrite head_small by assumption. now rewrite <- Hb.
  - apply Forall_app in Ht as [Hx _]. pose proof (unbe_bound x 0 Hx) as Hbd. rewrite (head_row _ _ _ _ _ Hrow) by (specialize (Hlo eq_refl); lia).
    rewrite be_unbe by assumption. cbn [app]. now rewrite <- Hb.
Qed.
Print Assumptions C02_heads_shortest.

(* Order independence: values equal up to the order of map entries (at every level) encode to the
   same bytes under both sorting modes. *)
Theorem C02_order_independent : forall m v1 v2,
  m <> SortNone -> perm_eq v1 v2 -> keys_nodup v1 -> encb m v1 = encb m v2.
Proof. exact encb_perm_invariant. Qed.
Print Assumptions C02_order_independent.

(* Round trip: decoding the produced bytes gives the value with maps in the emitted order, for all
   values within the decoder's configured limits (depth, allocation budget, 32 MiB strings). *)
Theorem C02_roundtrip : forall m o v,
  d_allow_links o = true -> rt_ok v ->
  (Z.of_nat (dm_depth v) <= max_depth o)%Z -> (cost v <= budget0 o)%Z ->
  decode o (encb m v) = Ok (sortv m v, []).
Proof. exact decode_encode. Qed.
Print Assumptions C02_roundtrip.

Theorem C02_roundtrip_sorted_is_sort_maps : forall v, sortv SortRFC7049 v = sort_maps rfc_ltb v.
Proof. exact sortv_rfc. Qed.
Print Assumptions C02_roundtrip_sorted_is_sort_maps.

(* Length law (on the repaired tree: EncodedLength goes through AsUint for uint nodes). *)
Theorem C02_length : forall m v, int_ok v -> enc_len true v = Ok (Z.of_nat (length (encb m v))).
Proof. intros m v _. apply enc_len_any. Qed.
Print Assumptions C02_length.

(* The defect that was repaired (fix: 6abf683): with AsInt only, the length of a uint above int64 fails. *)
Theorem C02_length_refuted_pinned : exists v, int_ok v /\ enc_len false v = Err LEIntRange.
Proof. exists (DInt 9223372036854775808). split; [cbn; unfold two63z, two64z; lia|reflexivity]. Qed.
Print Assumptions C02_length_refuted_pinned.

(* Tie to the source beyond the run: the comparison closures marshalMap hands to sort.Slice, translated from
   codec/dagcbor/marshal.go by gotrans on every run (Gen/FromGo.v), are exactly the key orders the model sorts
   by — length first then bytewise for MapSortMode_RFC7049 (the registered codec), bytewise for _Lexical. *)
Theorem C02_source_key_order : forall a b,
  IP.Gen.FromGo.go_cbor_less_rfc7049 a b = rfc_ltb a b /\ IP.Gen.FromGo.go_cbor_less_lexical a b = bytes_ltb a b.
Proof. exact (fun a b => conj (IP.Proofs.GoSort.cbor_less_rfc7049_is_model a b) (IP.Proofs.GoSort.cbor_less_lexical_is_model a b)). Qed.
Print Assumptions C02_source_key_order.

(* non-vacuity: a value with a nested map, a link-free list and boundary ints meets every hypothesis *)
Example C02_hypotheses_satisfiable :
  let v := DMap [([98;98], DList [DInt 65536; DInt (-25); DString [104;105]]); ([97], DMap [([], DNull)])] in
  int_ok v /\ keys_nodup v /\ rt_ok v /\
  decode (dagcbor_dopts true) (encb SortRFC7049 v) = Ok (sort_maps rfc_ltb v, []).
Proof.
  (* [repeat split] closes the decode equation itself: eq's one constructor, by conversion *)
  cbv zeta. repeat split; try (cbn; unfold two63z, two64z, str_cap, two63; lia);
    try (repeat constructor; cbn; intuition discriminate).
Qed.
