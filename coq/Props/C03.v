(* Props/C03.v — DAG-CBOR decoding is strict and denotes exactly the bytes it accepts.
   Property theorems only.  SPEC = the value-directed checker [chk] of Codec/CborSpec.v:
   [chk strict links negwrap v bs = Some rest] says a prefix of bs is one well-formed item denoting
   exactly v (definite lengths, shortest heads and no NaN/Inf when strict, string keys without
   duplicates, tag 42 only and only around 0x00 + valid CID, ints in [-2^63, 2^64)), tolerating
   only unsorted keys, 16/32-bit floats and undefined-as-null. *)
Require Import IP.Base.Bytes IP.DM.Value IP.Codec.Cbor IP.Codec.CborSpec.
Require Import IP.Proofs.CborDec IP.Proofs.CborSound IP.Proofs.CborBound IP.Proofs.CborComplete.
Open Scope N_scope.

(* The full statement: acceptance implies the strict SPEC with NO tolerance for refmt's wrap. *)
Definition C03_full : Prop := forall o, d_reject_tags o = true -> forall bs v rest,
  wfb bs -> decode o bs = Ok (v, rest) ->
  chk (negb (d_relaxed o)) (d_allow_links o) false v bs = Some rest /\
  (d_dont_parse_beyond o = false -> rest = []).

(* Proved part: the same statement with the single tolerance that 3b ff..ff (the integer -2^64) may
   be read as 0 — refmt's uint64 wrap in decodeNegInt, a defect of the dependency (known finding). *)
Theorem C03_partial : forall o, d_reject_tags o = true -> forall bs v rest,
  wfb bs -> decode o bs = Ok (v, rest) ->
  chk (negb (d_relaxed o)) (d_allow_links o) true v bs = Some rest /\
  (d_dont_parse_beyond o = false -> rest = []).
Proof. exact decode_sound. Qed.
Print Assumptions C03_partial.

(* The full statement is false of the faithful model: the witness replays on the implementation. *)
Theorem C03_refuted_negint : ~ C03_full.
Proof.
  intros H. specialize (H (dagcbor_dopts true) eq_refl [59; 255; 255; 255; 255; 255; 255; 255; 255] (DInt 0) []
              ltac:(repeat constructor) ltac:(vm_compute; reflexivity)).
  destruct H as [H _]. vm_compute in H. discriminate.
Qed.
Print Assumptions C03_refuted_negint.

(* On the pinned tree (before fix 67123ae) tags in front of non-bytes items were dropped: c1 01 -> 1. *)
Theorem C03_refuted_tag_pinned :
  decode (dagcbor_dopts false) [193; 1] = Ok (DInt 1, []) /\ chk true true true (DInt 1) [193; 1] = None /\
  decode (dagcbor_dopts true) [193; 1] = Err DOther.
Proof. vm_compute. repeat split. Qed.
Print Assumptions C03_refuted_tag_pinned.

(* indefinite lengths are refused in relaxed mode as well — by every option setting (CborDec.decode_indefinite:
   the four markers are an error branch of the first-byte dispatch); the SPEC checker has no indefinite form at all *)
Theorem C03_relaxed_rejects_indefinite : forall o b r, d_reject_tags o = true ->
  In b [95; 127; 159; 191] -> decode o (b :: r) = Err DOther.
Proof.
  intros o b r _. apply decode_indefinite.
Qed.
Print Assumptions C03_relaxed_rejects_indefinite.

(* nothing deeper than the configured limit, nothing that was not paid for from the budget *)
Theorem C03_within_limits : forall o bs v rest, decode o bs = Ok (v, rest) ->
  (0 <= max_depth o -> Z.of_nat (dm_depth v) <= max_depth o)%Z /\ (0 <= budget0 o -> cost v <= budget0 o)%Z.
Proof. intros o bs v rest H. destruct (decode_bounded o bs v rest H). auto. Qed.
Print Assumptions C03_within_limits.

(* non-vacuity: an accepted input with a map, a link and a 16-bit float *)
Example C03_accepts_something :
  let bs := [162; 97; 97; 249; 60; 0; 97; 98; 216; 42; 69; 0; 1; 113; 0; 0] in
  wfb bs /\ exists v, decode (dagcbor_dopts true) bs = Ok (v, []).
Proof. cbv zeta. split; [repeat constructor|]. eexists. vm_compute. reflexivity. Qed.
Print Assumptions C03_accepts_something.

(* the converse: the SPEC and the limits are all the decoder asks.  [lim_ok v]: strings, bytes, keys and
   links within 32 MiB, collection lengths within Go's int, no NaN (its payload is not compared by chk). *)
Theorem C03_complete : forall o bs v rest, d_reject_tags o = true -> wfb bs ->
  chk (negb (d_relaxed o)) (d_allow_links o) true v bs = Some rest -> lim_ok v ->
  (Z.of_nat (dm_depth v) <= max_depth o)%Z -> (cost v <= budget0 o)%Z ->
  (d_dont_parse_beyond o = false -> rest = []) ->
  decode o bs = Ok (v, rest).
Proof. intros o bs v rest _ _. apply decode_complete. Qed.
Print Assumptions C03_complete.

(* "denotes exactly the bytes it accepts", from both sides: in strict mode on the repaired tree the decoder
   accepts bs with (v, rest) exactly when a prefix of bs is one well-formed item denoting v, v is within the
   configured limits, and nothing is left unless stop-at-end was asked *)
Theorem C03_decode_iff : forall o bs v rest,
  d_reject_tags o = true -> d_relaxed o = false -> (0 <= budget0 o)%Z -> wfb bs ->
  (decode o bs = Ok (v, rest) <->
   chk true (d_allow_links o) true v bs = Some rest /\ lim_ok v /\
   (Z.of_nat (dm_depth v) <= max_depth o)%Z /\ (cost v <= budget0 o)%Z /\
   (d_dont_parse_beyond o = false -> rest = [])).
Proof. exact decode_iff. Qed.
Print Assumptions C03_decode_iff.

(* non-vacuity of the converse: a non-canonical input (keys out of order, a 16-bit float, a longer-than-needed
   form is NOT used since strict) meets every premise of C03_complete and is accepted with that value *)
Example C03_complete_example :
  let bs := [162; 97; 98; 249; 60; 0; 97; 97; 130; 246; 33] in
  let v := DMap [([98], DFloat 4607182418800017408); ([97], DList [DNull; DInt (-2)])] in
  wfb bs /\ chk true true true v bs = Some [] /\ lim_ok v /\
  decode (dagcbor_dopts true) bs = Ok (v, []).
Proof. cbv zeta. split; [repeat constructor|]. split; [vm_compute; reflexivity|]. split; [|vm_compute; reflexivity].
  cbn. unfold two63, str_cap. repeat split; try lia. Qed.
Print Assumptions C03_complete_example.
