(* Props/C08.v — type-level and representation views of a typed node obey the schema's strategy.
   The property theorems; the lemmas they are concluded from are in Proofs/Schema*.v.
   Model: Schema/Sem.v (engines), Schema/Conform.v (specification), Schema/Types.v (wf). *)
Require Import IP.Base.Bytes IP.DM.Value IP.Schema.Types IP.Schema.View IP.Schema.Conform IP.Schema.Sem
  IP.Proofs.SchemaBuild IP.Proofs.SchemaRepr IP.Proofs.SchemaRefute IP.Proofs.SchemaTop IP.Proofs.SchemaCopy IP.Schema.Perm IP.Proofs.SchemaPerm.
Require Import IP.Codec.Cbor IP.Proofs.CborEnc IP.Proofs.CborDec IP.Proofs.SchemaCbor.

(* every strategy: the representation view is the canonical view of the specified representation, its
   data is the specified representation, and the type-level view is the specified one.
   [views_off e q]: the four view defects are off for engine e (true of (Bind, qoff) and of Gen). *)
Theorem C08_views : forall e q t v, views_off e q -> on e q q_union_any = false ->
  wf t = true -> has_type t v = true ->
  repr_view e q t v = ov_of_dm (repr_spec t v) /\
  repr e q t v = Some (repr_spec t v) /\
  type_view e q t v = tview_spec t v.
Proof. intros e q t v Hv _. now apply views_top. Qed.
Print Assumptions C08_views.

Theorem C08_views_bind : views_off Bind qoff /\ on Bind qoff q_union_any = false.
Proof. split; [exact (views_off_qoff Bind)|reflexivity]. Qed.
Print Assumptions C08_views_bind.

(* both build routes rebuild the value, on both engines, for every strategy *)
Theorem C08_two_routes : forall e t v, (e = Bind \/ e = Gen) -> wf t = true -> has_type t v = true ->
  tbuild e qoff t (tdm_spec t v) = BOk v /\ rbuild e qoff t (repr_spec t v) = BOk v /\
  conforms_t t (tdm_spec t v) = Some v /\ conforms_r t (repr_spec t v) = Some v.
Proof. intros e t v _. apply two_routes_top. Qed.
Print Assumptions C08_two_routes.

(* the literal form: copy either view of the node (datamodel.Copy skips absent struct fields) and feed
   the builder of that level *)
Theorem C08_two_routes_views : forall e t v, (e = Bind \/ e = Gen) -> wf t = true -> has_type t v = true ->
  (exists d, ov_copy (type_view e qoff t v) = Some d /\ tbuild e qoff t d = BOk v) /\
  (exists d, ov_copy (repr_view e qoff t v) = Some d /\ rbuild e qoff t d = BOk v).
Proof. intros e t v _. apply two_routes_views. Qed.
Print Assumptions C08_two_routes_views.

(* bytes, over any codec, for representations the codec reproduces exactly (maps in canonical order) *)
Theorem C08_bytes_partial : forall (encode : dm -> option bytes) (decode : bytes -> option dm) e t v bs,
  (e = Bind \/ e = Gen) -> wf t = true -> has_type t v = true ->
  reproduced encode decode (repr_spec t v) ->
  match repr e qoff t v with Some d => encode d | None => None end = Some bs ->
  exists d', decode bs = Some d' /\ rbuild e qoff t d' = BOk v /\
             match repr e qoff t v with Some d => encode d | None => None end = Some bs.
Proof. intros encode decode e t v bs _. apply bytes_top. Qed.
Print Assumptions C08_bytes_partial.

(* bytes, in full: over any codec that gives a tree back up to the order of map entries ([peq]) and whose
   encoding of a value does not depend on that order (what C02_roundtrip and C02_order_independent say of
   dag-cbor, whose total encoder and limited decoder have another shape: C08_bytes_dagcbor below is proved
   beside this theorem, from the same lemma SchemaPerm.rebuild_peq, not as an instance of it): encode the representation, decode, feed the representation builder — the
   result is v up to the entry order of typed maps and of Any content ([veq]), it is a value of the type,
   and its representation encodes to the same bytes *)
Theorem C08_bytes : forall (encode : dm -> option bytes) (decode : bytes -> option dm),
  (forall d bs, dm_wf d = true -> encode d = Some bs -> exists d', decode bs = Some d' /\ peq d d') ->
  (forall d d', dm_wf d = true -> peq d d' -> encode d = encode d') ->
  forall e t v bs, (e = Bind \/ e = Gen) -> wf t = true -> has_type t v = true ->
    encode (repr_spec t v) = Some bs ->
    exists d' v', decode bs = Some d' /\ rbuild e qoff t d' = BOk v' /\ veq v v' /\ has_type t v' = true /\
                  repr e qoff t v' = Some (repr_spec t v') /\ encode (repr_spec t v') = Some bs.
Proof. intros encode decode Hde Hep e t v bs _. now apply bytes_full. Qed.
Print Assumptions C08_bytes.

(* the statement about the pinned tree (/repo at its snapshot 3e45851: the quirks [pinned]) is false (witnesses below) *)
Definition C08_full : Prop :=
  forall t v, wf t = true -> has_type t v = true ->
    repr_view Bind pinned t v = ov_of_dm (repr_spec t v) /\ rbuild Bind pinned t (repr_spec t v) = BOk v.
Theorem C08_full_refuted : ~ C08_full.
Proof.
  intros H. destruct refuted_listpairs_iter_index as [Hwf [Hh Hn]]. exact (Hn (proj1 (H _ _ Hwf Hh))).
Qed.
Print Assumptions C08_full_refuted.

(* the hypotheses are satisfiable, and the theorems compute on a deep example *)
Theorem C08_example : has_type tBig vBig = true /\ wf tBig = true /\
  rbuild Bind qoff tBig (repr_spec tBig vBig) = BOk vBig.
Proof.
  split; [exact (proj2 has_type_examples)|]. split; [reflexivity|exact (proj1 (proj2 big_two_routes))].
Qed.
Print Assumptions C08_example.

(* the pinned tree: one witness per confirmed view defect *)
Theorem C08_refuted_listpairs_iter_index :
  view_deviates tLP (VStruct [MAbsent; MVal (VString sq); MVal (VInt 1)]).
Proof. exact refuted_listpairs_iter_index. Qed.
Theorem C08_refuted_kinded_enum_kind : view_deviates tKE (VUnion 0 (VEnum nAa)).
Proof. vwitness. Qed.
Theorem C08_refuted_kinded_len : view_deviates tKD (VUnion 2 vSM).
Proof. vwitness. Qed.
Theorem C08_refuted_union_any : view_deviates tUA (VUnion 0 (VAny (DString sx))).
Proof. vwitness. Qed.
(* under the pinned quirks the representation of a nullable list of kinded unions cannot be fed back: it panics *)
Theorem C08_refuted_two_routes :
  wf tNL = true /\ has_type tNL (VList [MVal (VUnion 0 (VInt 1)); MNull]) = true /\
  rbuild Bind pinned tNL (repr_spec tNL (VList [MVal (VUnion 0 (VInt 1)); MNull])) = BPanic.
Proof. vm_compute. auto. Qed.
Print Assumptions C08_refuted_two_routes.

(* the bytes clause over the concrete DAG-CBOR codec of Codec/Cbor.v (the model the C02/C03
   correspondence ties to codec/dagcbor); proofs in Proofs/SchemaCbor.v.
   Encode the representation of a typed value with the registered encoder, decode with the registered
   decoder, feed the representation builder: the value comes back up to the entry order of typed maps and
   Any content, is a value of the type, and its representation encodes to the same bytes — for every
   wf type, every value of it, both engines, every decoder configuration that allows links, whenever the
   representation is within that configuration's limits *)
Theorem C08_bytes_dagcbor : forall e o t v,
  (e = Bind \/ e = Gen) -> wf t = true -> has_type t v = true ->
  d_allow_links o = true -> within_limits o (repr_spec t v) ->
  exists d' v', decode o (cbor_bytes (repr_spec t v)) = Ok (d', []) /\
                rbuild e qoff t d' = BOk v' /\ veq v v' /\ has_type t v' = true /\
                repr e qoff t v' = Some (repr_spec t v') /\
                cbor_bytes (repr_spec t v') = cbor_bytes (repr_spec t v).
Proof. intros e o t v _. apply typed_dagcbor_roundtrip. Qed.
Print Assumptions C08_bytes_dagcbor.

(* the two hypotheses C08_bytes makes of "any codec", in the shape dag-cbor meets them (total encoder, decoder
   with limits and a rest): on every tree within the limits *)
Theorem C08_dagcbor_is_such_a_codec : forall o d d', d_allow_links o = true -> within_limits o d ->
  (exists d1, decode o (cbor_bytes d) = Ok (d1, []) /\ peq d d1) /\
  (dm_wf d = true -> peq d d' -> cbor_bytes d = cbor_bytes d').
Proof. intros o d d' Hl Hw. split; [exact (dagcbor_dec_enc o d Hl Hw)|exact (dagcbor_enc_peq d d')]. Qed.
Print Assumptions C08_dagcbor_is_such_a_codec.

(* the premises are satisfiable: the deep example type and value are within the default limits *)
Theorem C08_bytes_dagcbor_example :
  wf tBig = true /\ has_type tBig vBig = true /\ within_limits (dagcbor_dopts true) (repr_spec tBig vBig).
Proof.
  split; [reflexivity|]. split; [exact (proj2 has_type_examples)|].
  unfold within_limits. split; [|split; vm_compute; discriminate].
  exact within_big.
Qed.
Print Assumptions C08_bytes_dagcbor_example.

(* the bytes clause over the concrete DAG-JSON model: the typed round trip
   (Codec/DagJson.v; proofs Proofs/SchemaJson.v over Proofs/JsonPerm.v, from C04's theorems).
   Hypotheses that remain, as premises (definitions at the end of Proofs/JsonMain.v, sampled on the real
   code by ./check C04):  A1  strconv.ParseFloat inverts refmt's emitFloat on finite floats;
                          A2  emitFloat's text is a JSON number with '.'/exponent iff the float is not an
                              integer below 1e21;
                          CID cid.Decode inverts Cid.String() on defined CIDs, CID strings are valid UTF-8.
   json_within cid_ok d  =  json_safe cid_ok nonintegral d = true /\ jdepth d <= 1024: dag-json's domain
   (finite floats none of which is an integer below 1e21 — the known C04 finding float_integral_text —,
   valid UTF-8 strings and keys, int64 ints, defined CIDs, distinct keys, none of the two reserved shapes
   {"/":string} / {"/":{"bytes":string}} inside Any content, decoder depth within the default limit). *)
Require Import IP.Codec.DagJson IP.Proofs.JsonMain IP.Proofs.JsonPerm IP.Proofs.SchemaJson.

Theorem C08_bytes_dagjson : forall fmt_float parse_float cid_str cid_parse cid_ok,
  JsonMain.A1 fmt_float parse_float -> JsonMain.A2 fmt_float -> JsonMain.CID cid_str cid_parse cid_ok ->
  forall e t v,
  (e = Bind \/ e = Gen) -> wf t = true -> has_type t v = true ->
  json_within cid_ok (repr_spec t v) ->
  exists d' v', json_decode parse_float cid_parse (json_enc fmt_float cid_str (repr_spec t v)) = Ok (d', []) /\
                rbuild e qoff t d' = BOk v' /\ veq v v' /\ has_type t v' = true /\
                repr e qoff t v' = Some (repr_spec t v') /\
                json_enc fmt_float cid_str (repr_spec t v') = json_enc fmt_float cid_str (repr_spec t v).
Proof. intros f p cs cp ck H1 H2 H3 e t v _. now apply typed_dagjson_roundtrip. Qed.
Print Assumptions C08_bytes_dagjson.

(* json_enc is what the registered encoder writes, for every tree it accepts *)
Theorem C08_dagjson_encoder : forall fmt_float cid_str cid_ok d, JsonEnc.encodable cid_ok d = true ->
  jenc fmt_float cid_str dagjson_eopts cid_ok d = Ok (json_enc fmt_float cid_str d).
Proof. exact json_enc_is_encode. Qed.
Print Assumptions C08_dagjson_encoder.

(* the two hypotheses C08_bytes makes of "any codec", in the shape dag-json meets them (total encoder, decoder
   with a rest), on every tree of its domain *)
Theorem C08_dagjson_is_such_a_codec : forall fmt_float parse_float cid_str cid_parse cid_ok,
  JsonMain.A1 fmt_float parse_float -> JsonMain.A2 fmt_float -> JsonMain.CID cid_str cid_parse cid_ok ->
  forall d d', json_within cid_ok d ->
  (exists d1, json_decode parse_float cid_parse (json_enc fmt_float cid_str d) = Ok (d1, []) /\ peq d d1) /\
  (dm_wf d = true -> peq d d' -> json_enc fmt_float cid_str d = json_enc fmt_float cid_str d').
Proof.
  intros fmt_float parse_float cid_str cid_parse cid_ok H1 H2 H3 d d' Hw.
  split; [exact (dagjson_dec_enc fmt_float parse_float cid_str cid_parse cid_ok H1 H2 H3 d Hw)|exact (dagjson_enc_peq fmt_float cid_str d d')].
Qed.
Print Assumptions C08_dagjson_is_such_a_codec.

(* the premises are satisfiable: the deep example type and value are in dag-json's domain (for any notion of
   defined CID), and A1, A2, CID have a model (C04_assumptions_consistent) *)
Theorem C08_bytes_dagjson_example : forall cid_ok,
  wf tBig = true /\ has_type tBig vBig = true /\ json_within cid_ok (repr_spec tBig vBig).
Proof.
  intros cid_ok. split; [reflexivity|]. split; [exact (proj2 has_type_examples)|].
  split; [vm_compute; reflexivity|vm_compute; discriminate].
Qed.
Print Assumptions C08_bytes_dagjson_example.
