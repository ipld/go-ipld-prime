(* Proofs/SchemaCborAccept.v — a typed builder fed by the dag-cbor decoder accepts exactly the byte
   strings that are ONE well-formed DAG-CBOR item denoting a tree that conforms to the type:
   the composition of [decode_iff] (Proofs/CborComplete.v: the decoder model is characterised by the
   SPEC checker [chk] from both sides) with [accept_iff_top] (Proofs/SchemaTop.v, from SchemaBuild.accept_iff:
   representation builder accepts <-> conforms_r).  The statement speaks of "decode to a tree, then feed the builder"; that the
   Go decoder, which drives the typed assembler directly, does the same is tied by the correspondence
   run (records "bytes" of harness/cmd/c09). *)
Require Import IP.Base.Bytes IP.DM.Value IP.Codec.Cid IP.Codec.Cbor IP.Codec.CborSpec.
Require Import IP.Schema.Types IP.Schema.View IP.Schema.Conform IP.Schema.Sem.
Require Import IP.Proofs.CborDec IP.Proofs.CborSound IP.Proofs.CborComplete.
Require Import IP.Proofs.SchemaBuild IP.Proofs.SchemaRefute IP.Proofs.SchemaTop.
Open Scope N_scope.

(* [d_reject_tags o = true] is the decoder of /repo from 67123ae on (tags refused on anything but a byte
   string) *)
Definition strict_dagcbor (o : dopts) : Prop :=
  d_reject_tags o = true /\ d_relaxed o = false /\ d_allow_links o = true /\ (0 <= budget0 o)%Z.

Definition fits (o : dopts) (d : dm) : Prop :=
  lim_ok d /\ (Z.of_nat (dm_depth d) <= max_depth o)%Z /\ (cost d <= budget0 o)%Z.

Theorem bytes_accept_iff e o t bs v :
  wf t = true -> strict_dagcbor o -> wfb bs ->
  ((exists d, decode o bs = Ok (d, []) /\ rbuild e qoff t d = BOk v) <->
   (exists d, chk true true true d bs = Some [] /\ fits o d /\ conforms_r t d = Some v)).
Proof.
  intros Hwf (Hrt & Hs & Hl & Hb) Hw.
  pose proof (fun d => proj1 (accept_iff_top e t d v Hwf)) as Hacc.
  pose proof (fun d => decode_iff o bs d [] Hrt Hs Hb Hw) as Hdec. rewrite Hl in Hdec.
  split; intros (d & H1 & H2); exists d.
  - apply Hdec in H1 as (Hc & Hlim & Hdep & Hco & _). repeat split; auto. now apply Hacc.
  - destruct H2 as ((Hlim & Hdep & Hco) & Hcf). split; [apply Hdec; repeat split; auto|now apply Hacc].
Qed.

(* the hypotheses are satisfiable and both sides are inhabited: the struct { a Int (rename "x"), b optional
   nullable String, c nullable Int, d optional String } and the bytes a2 61 63 f6 61 78 01 = {"c":null,"x":1} *)
Definition ex_opts : dopts := dagcbor_dopts true.
Definition ex_bytes : bytes := [162; 97; 99; 246; 97; 120; 1].

Example bytes_accept_example :
  strict_dagcbor ex_opts /\ wfb ex_bytes /\ wf tSM = true /\
  decode ex_opts ex_bytes = Ok (DMap [(sc, DNull); (sx, DInt 1)], []) /\
  rbuild Bind qoff tSM (DMap [(sc, DNull); (sx, DInt 1)]) = BOk (VStruct [MVal (VInt 1); MAbsent; MNull; MAbsent]) /\
  chk true true true (DMap [(sc, DNull); (sx, DInt 1)]) ex_bytes = Some [].
Proof.
  split; [|split; [|split; [|split; [|split]]]].
  - unfold strict_dagcbor, ex_opts. vm_compute. repeat split; discriminate.
  - unfold wfb, ex_bytes. repeat constructor.
  - vm_compute. reflexivity.
  - vm_compute. reflexivity.
  - vm_compute. reflexivity.
  - vm_compute. reflexivity.
Qed.
