(* Proofs/HeapReaders.v — which reader cell a call may store to.

   A reader the library handed out (AsLargeBytes) is a cell of its own; the ownership invariant of
   HeapLogic.v keeps it among the frozen cells "up to its position", which is too weak to say WHO may
   move it.  This file adds the missing ownership fact, for the repaired configuration
   (cf_stream_shared = false):

   - [nrw x p] ("no reader written to x"): the store footprint of program [p], as a property of its text: every store of a READER
     value goes to a cell other than [x]; the cells [p] allocates itself count as other than [x]
     ([nrw_new]), as they are whenever [x] exists already.  Every call of the model
     other than a Read/Seek on a reader has this footprint ([prim_nrw]).  A Read/Seek has none in its text
     (a reader over a section of another moves that other); on a reader other than [x] it leaves [x] as
     it was in every state where the reader it is made on is a leaf, since what follows the load of
     a leaf has the footprint ([reader_prim_untouched]).
   - [RInv]: every handed-out reader is a leaf reader (bytes.Reader or streamCursor: its Read/Seek
     stores to its own cell only); preserved by every Legal call ([rinv_step]).
   - a run with footprint [nrw x] that leaves a reader in the cell [x] has not stored to it at all ([nrw_untouched]:
     what it may store there is not a reader, and only a store of a reader could replace that again); that the cell
     still holds a reader after the call is the ownership invariant (Ext).

   Together: nothing but a Read/Seek on the reader itself stores to the cell of a reader, handed out or not (the
   reader inside a stream node is such a cell too), in one Legal call ([reader_untouched_step]) and along a Legal
   history from any state in which both invariants hold ([reader_untouched_runh]; from the initial state and for the
   readers the client holds: Props/C11.v, C11_readers_are_leaves and C11_reader_untouched). *)
Require Import IP.Base.Bytes IP.DM.Value IP.Gen.FromGo IP.Heap.GoMem IP.Heap.BasicHeap.
Require Import IP.Proofs.HeapMem IP.Proofs.HeapLogic IP.Proofs.HeapSteps IP.Proofs.HeapOps IP.Proofs.HeapPrims IP.Proofs.HeapC11.
From Coq Require Import List Arith Bool Lia ZArith.
Import ListNotations.
Local Open Scope nat_scope.

Section Footprint.
  Variable x : addr.

  Inductive nrw {A} : mprog A -> Prop :=
  | nrw_ret : forall a, nrw (Ret a)
  | nrw_crash : nrw Crash
  | nrw_rd : forall a k, (forall c, nrw (k c)) -> nrw (Rd a k)
  | nrw_wr : forall a c k, (a <> x \/ forall r, c <> CRdr r) -> nrw k -> nrw (Wr a c k)
  | nrw_new : forall c k, (forall a, a <> x -> nrw (k a)) -> nrw (New c k).

  Lemma nrw_bind : forall A B (p : mprog A) (f : A -> mprog B), nrw p -> (forall a, nrw (f a)) -> nrw (pbind p f).
  Proof. induction 1; cbn; intros; auto; constructor; auto. Qed.

  Lemma wfree_nrw : forall A (p : mprog A), wfree p -> nrw p.
  Proof. induction 1; constructor; auto. Qed.

  (* with the write counter: from it HeapMem.run_ver gives that the log has no store to [x] *)
  Definition untouched {A} (p : mprog A) (ar : nat) (h : mheap) : Prop :=
    forall o h' l cx vx r', run ar p h = (o, h', l) -> hgetv h x = Some (cx, vx) -> hget h' x = Some (CRdr r') ->
      hgetv h' x = Some (cx, vx).

  Lemma nrw_untouched : forall A (p : mprog A), nrw p -> forall ar h, untouched p ar h.
  Proof.
    intros A p Hp ar h o h' l cx vx r' Hr. apply run_Run in Hr. revert cx vx.
    induction Hr as [| | | | a c k h c0 o h' l G Hr IH | a c k h G | c k h h1 a o h' l Ea Hr IH];
      inversion Hp as [| | | ? ? ? Hc Hk | ? ? Hk]; subst; cbn; intros cx vx Hx Hx'; auto.
    - destruct (addr_dec a x) as [->|Ne].
      + (* a store to [x]: of something that is not a reader, which the rest of the run would have to leave there *)
        destruct Hc as [Hc|Hc]; [contradiction|]. exfalso.
        pose proof (IH Hk c (S vx) (hgetv_hset_same _ _ _ c _ _ Hx) Hx') as E.
        apply hget_some in Hx'. destruct Hx' as [v' Hx']. rewrite E in Hx'. inversion Hx'. eapply Hc; eauto.
      + apply (IH Hk); [rewrite hgetv_hset_other by assumption|]; assumption.
    - assert (Ne : a <> x). { intros ->. destruct (hgetv_halloc_new _ _ _ _ _ _ Ea) as [_ Hn']. congruence. }
      apply IH; auto. erewrite hgetv_halloc_old; eauto.
  Qed.

  Lemma untouched_rd : forall A a (k : mcell -> mprog A) ar h c,
    hget h a = Some c -> nrw (k c) -> untouched (Rd a k) ar h.
  Proof.
    intros A a k ar h c G Hk o h' l cx vx r' Hr. cbn in Hr. rewrite G in Hr.
    destruct (run ar (k c) h) as [[o1 h1] l1] eqn:R. inversion Hr; subst.
    eapply (nrw_untouched _ _ Hk); eauto.
  Qed.
End Footprint.

Create HintDb nrw.

Ltac nrw_step :=
  match goal with
  | |- nrw _ (Ret _) => apply nrw_ret
  | |- nrw _ Crash => apply nrw_crash
  | |- nrw _ (pbind _ _) => apply nrw_bind; [|intros]
  | |- nrw _ (Rd _ _) => apply nrw_rd; intros
  | |- nrw _ (rdv _ _) => unfold rdv
  | |- nrw _ (wrv _ _ _) => unfold wrv
  | |- nrw _ (newv _ _) => unfold newv
  | |- nrw _ (rd_masm _ _) => unfold rd_masm
  | |- nrw _ (rd_lasm _ _) => unfold rd_lasm
  | |- nrw _ (Wr _ (CRdr _) _) => apply nrw_wr; [left; assumption|]
  | |- nrw _ (Wr _ _ _) => apply nrw_wr; [right; intros ?; discriminate|]
  | |- nrw _ (New _ _) => apply nrw_new; intros
  | |- nrw _ (match ?v with _ => _ end) => destruct v
  end.

Ltac nrw_auto := repeat first [ solve [auto 2 with nrw nocore] | nrw_step ].

Definition leaf_rdr (r : rdr) : Prop := match r with RdSect _ _ _ _ _ => False | _ => True end.

Definition touches (x : addr) (p : prim) : bool :=
  match p with
  | PReaderRead (HReader y) _ | PReaderSeek (HReader y) _ _ => addr_eqb x y
  | _ => false
  end.

Definition reader_prim (p : prim) : bool :=
  match p with PReaderRead _ _ | PReaderSeek _ _ _ => true | _ => false end.

Section Ops.
  Variable cf : cfg.
  Variable x : addr.

  Lemma nrw_read_bytes : forall s, nrw x (@read_bytes val s).
  Proof. intros; apply wfree_nrw, wfree_read_bytes. Qed.
  Lemma nrw_read_slice : forall s, nrw x (@read_slice val s).
  Proof. intros; apply wfree_nrw, wfree_read_slice. Qed.
  Lemma nrw_rd_content : forall fuel a, nrw x (@rd_content val fuel a).
  Proof. intros; apply wfree_nrw, wfree_rd_content. Qed.
  Lemma nrw_gomap_has : forall g k, nrw x (gomap_has g k).
  Proof. intros. unfold gomap_has. nrw_auto. Qed.
  Lemma nrw_va_parent : forall pf pa, nrw x (va_parent pf pa).
  Proof. intros; apply wfree_nrw, wfree_va_parent. Qed.
  Lemma nrw_builder_build : forall a, nrw x (builder_build a).
  Proof. intros. unfold builder_build. nrw_auto. Qed.
  Hint Resolve nrw_read_bytes nrw_read_slice nrw_rd_content nrw_gomap_has nrw_va_parent nrw_builder_build : nrw.

  Lemma nrw_append1 : forall gr zero s v, nrw x (@append1 val gr zero s v).
  Proof. intros. unfold append1. nrw_auto. Qed.
  Lemma nrw_make_slice : forall zero n, nrw x (@make_slice val zero n).
  Proof. intros. unfold make_slice. nrw_auto. Qed.
  Hint Resolve nrw_append1 nrw_make_slice : nrw.

  Lemma nrw_map_begin : forall a hint, nrw x (map_begin a hint).
  Proof. intros. unfold map_begin. nrw_auto. Qed.
  Lemma nrw_map_assemble_entry : forall a k, nrw x (map_assemble_entry cf a k).
  Proof. intros. unfold map_assemble_entry. nrw_auto. Qed.
  Lemma nrw_map_assemble_key : forall a, nrw x (map_assemble_key a).
  Proof. intros. unfold map_assemble_key. nrw_auto. Qed.
  Lemma nrw_map_assemble_value : forall a, nrw x (map_assemble_value a).
  Proof. intros. unfold map_assemble_value. nrw_auto. Qed.
  Lemma nrw_key_assign_string : forall a k, nrw x (key_assign_string cf a k).
  Proof. intros. unfold key_assign_string. nrw_auto. Qed.
  Lemma nrw_va_assign_m : forall a r, nrw x (va_assign_m a r).
  Proof. intros. unfold va_assign_m. nrw_auto. Qed.
  Lemma nrw_map_finish_top : forall a, nrw x (map_finish_top a).
  Proof. intros. unfold map_finish_top. nrw_auto. Qed.
  Lemma nrw_list_begin : forall a hint, nrw x (list_begin a hint).
  Proof. intros. unfold list_begin. nrw_auto. Qed.
  Lemma nrw_list_assemble_value : forall a, nrw x (list_assemble_value a).
  Proof. intros. unfold list_assemble_value. nrw_auto. Qed.
  Lemma nrw_va_assign_l : forall a r, nrw x (va_assign_l cf a r).
  Proof. intros. unfold va_assign_l. nrw_auto. Qed.
  Lemma nrw_list_finish_top : forall a, nrw x (list_finish_top a).
  Proof. intros. unfold list_finish_top. nrw_auto. Qed.
  Hint Resolve nrw_map_begin nrw_map_assemble_entry nrw_map_assemble_key nrw_map_assemble_value nrw_key_assign_string
    nrw_va_assign_m nrw_map_finish_top nrw_list_begin nrw_list_assemble_value nrw_va_assign_l nrw_list_finish_top : nrw.

  Lemma nrw_va_assign : forall pf a r, nrw x (va_assign cf pf a r).
  Proof. intros. unfold va_assign. nrw_auto. Qed.
  Hint Resolve nrw_va_assign : nrw.
  Lemma nrw_val_begin_map : forall pf pa hint, nrw x (val_begin_map pf pa hint).
  Proof. intros. unfold val_begin_map. nrw_auto. Qed.
  Lemma nrw_val_begin_list : forall pf pa hint, nrw x (val_begin_list pf pa hint).
  Proof. intros. unfold val_begin_list. nrw_auto. Qed.
  Lemma nrw_map_finish : forall a, nrw x (map_finish cf a).
  Proof. intros. unfold map_finish. nrw_auto. Qed.
  Lemma nrw_list_finish : forall a, nrw x (list_finish cf a).
  Proof. intros. unfold list_finish. nrw_auto. Qed.
  Hint Resolve nrw_val_begin_map nrw_val_begin_list nrw_map_finish nrw_list_finish : nrw.

  Lemma nrw_new_scalar_node : forall sv, nrw x (new_scalar_node sv).
  Proof. intros. unfold new_scalar_node. nrw_auto. Qed.
  Hint Resolve nrw_new_scalar_node : nrw.
  Lemma nrw_sval_node : forall v, nrw x (sval_node v).
  Proof. intros. unfold sval_node. nrw_auto. Qed.
  Hint Resolve nrw_sval_node : nrw.

  Lemma nrw_map_copy_loop : forall es a, nrw x (map_copy_loop cf a es).
  Proof. induction es as [|[k d] es IH]; intros; cbn [map_copy_loop]; nrw_auto. Qed.
  Lemma nrw_list_copy_loop : forall l a, nrw x (list_copy_loop cf a l).
  Proof. induction l as [|d l IH]; intros; cbn [list_copy_loop]; nrw_auto. Qed.
  Hint Resolve nrw_map_copy_loop nrw_list_copy_loop : nrw.

  Lemma nrw_map_assign_node : forall a r, nrw x (map_assign_node cf a r).
  Proof. intros. unfold map_assign_node. nrw_auto. Qed.
  Lemma nrw_list_assign_node : forall a r, nrw x (list_assign_node cf a r).
  Proof. intros. unfold list_assign_node. nrw_auto. Qed.
  Lemma nrw_bytes_assign_node : forall a r, nrw x (bytes_assign_node a r).
  Proof. intros. unfold bytes_assign_node. nrw_auto. Qed.
  Lemma nrw_new_builder : forall p, nrw x (new_builder p).
  Proof. intros. unfold new_builder. nrw_auto. Qed.
  Lemma nrw_builder_reset : forall a, nrw x (builder_reset a).
  Proof. intros. unfold builder_reset. nrw_auto. Qed.
  Hint Resolve nrw_map_assign_node nrw_list_assign_node nrw_bytes_assign_node nrw_new_builder nrw_builder_reset : nrw.

  Lemma reader_prim_untouched : forall p ar h, reader_prim p = true -> touches x p = false ->
    (forall y, In (HReader y) (prim_operands p) -> exists r, hget h y = Some (CRdr r) /\ leaf_rdr r) ->
    untouched x (prim_prog cf p) ar h.
  Proof.
    intros p ar h Hp Ht Hy.
    destruct p; try discriminate Hp; cbn [prim_prog]; (destruct r as [| | | | | | | | |y]; try solve [apply nrw_untouched; constructor]);
      cbn in Ht; apply addr_eqb_neq, not_eq_sym in Ht; destruct (Hy y (or_introl eq_refl)) as (r & G & L).
    - change rd_fuel with (S (Nat.pred rd_fuel)). cbn [rd_read pbind].
      apply (untouched_rd x _ _ _ _ _ _ G). destruct r; [| destruct L |]; cbn [pbind]; nrw_auto.
    - unfold rd_seekw. cbn [pbind].
      apply (untouched_rd x _ _ _ _ _ _ G). destruct r; [| destruct L |]; cbn [pbind]; nrw_auto.
  Qed.

  (* the repaired configuration: a read of a stream node does not move any reader *)
  Hypothesis Hrep : cf_stream_shared cf = false.

  Lemma nrw_acc_prog : forall r a, nrw x (acc_prog cf r a).
  Proof.
    intros r a. destruct r; [constructor| | | | | | |];
      destruct a; cbn; unfold stream_read; rewrite ?Hrep; nrw_auto.
  Qed.
  Hint Resolve nrw_acc_prog : nrw.

  Lemma nrw_builder_op : forall a o, nrw x (builder_op cf a o).
  Proof. intros. unfold builder_op. nrw_auto. Qed.
  Lemma nrw_value_op : forall pf a o, nrw x (value_op cf pf a o).
  Proof. intros. unfold value_op. nrw_auto. Qed.
  Lemma nrw_key_op : forall a o, nrw x (key_op cf a o).
  Proof. intros. unfold key_op. nrw_auto. Qed.
  Hint Resolve nrw_builder_op nrw_value_op nrw_key_op : nrw.
  Lemma nrw_asm_op : forall h o, nrw x (asm_op cf h o).
  Proof. intros. unfold asm_op. nrw_auto. Qed.
  Hint Resolve nrw_asm_op : nrw.

  Lemma nrw_rd_seek_end : forall a, a <> x -> nrw x (@rd_seek_end val a).
  Proof. intros. unfold rd_seek_end. nrw_auto. Qed.
  Lemma nrw_rd_seek : forall a o, a <> x -> nrw x (@rd_seek val a o).
  Proof. intros. unfold rd_seek. nrw_auto. Qed.
  Hint Resolve nrw_rd_seek_end nrw_rd_seek : nrw.

  Lemma nrw_match_subset : forall r from to, nrw x (match_subset cf r from to).
  Proof. intros. unfold match_subset. rewrite Hrep. nrw_auto. Qed.
  Hint Resolve nrw_match_subset : nrw.

  Lemma prim_nrw : forall p, reader_prim p = false -> nrw x (prim_prog cf p).
  Proof.
    intros p Hp. destruct p; try discriminate Hp; cbn [prim_prog]; try rewrite Hrep; nrw_auto.
  Qed.
End Ops.

(* a property of the program's text: whatever it returns satisfies P *)
Inductive retp {A} (P : A -> Prop) : mprog A -> Prop :=
| retp_ret : forall a, P a -> retp P (Ret a)
| retp_crash : retp P Crash
| retp_rd : forall a k, (forall c, retp P (k c)) -> retp P (Rd a k)
| retp_wr : forall a c k, retp P k -> retp P (Wr a c k)
| retp_new : forall c k, (forall a, retp P (k a)) -> retp P (New c k).

Lemma retp_any : forall A (p : mprog A), retp (fun _ => True) p.
Proof. induction p; constructor; auto. Qed.

Lemma retp_bind : forall A B (P : B -> Prop) (p : mprog A) (f : A -> mprog B),
  (forall a, retp P (f a)) -> retp P (pbind p f).
Proof. induction p; cbn; intros; auto; constructor; auto. Qed.

Lemma retp_exec : forall A (P : A -> Prop) (p : mprog A), retp P p -> forall ar h a h', exec ar p h = (Done a, h') -> P a.
Proof.
  induction 1 as [a0 Ha| |x k Hk IH|x c k Hk IH|c k Hk IH]; intros ar h a h' He.
  - inversion He; subst. assumption.
  - discriminate He.
  - rewrite exec_rd in He. destruct (hget h x); [eauto | discriminate He].
  - rewrite exec_wr in He. destruct (hget h x); [eauto | discriminate He].
  - rewrite exec_new in He. destruct (halloc ar h c). eauto.
Qed.

Definition no_reader_out (o : pout) : Prop := forall y, ~ In (HReader y) (out_handles o).

Lemma no_reader_acc : forall r, no_reader_out (PAcc r).
Proof.
  intros r y. destruct r; cbn; try tauto.
  - intros [E|[]]; discriminate.
  - intros H. apply in_map_iff in H. destruct H as (? & E & _). discriminate.
  - intros H. apply in_map_iff in H. destruct H as (? & E & _). discriminate.
  - destruct alias; cbn; [intros [E|[]]; discriminate | tauto].
Qed.

Ltac retp_step :=
  match goal with
  | |- retp _ (Ret (PAcc _)) => apply retp_ret, no_reader_acc
  | |- retp _ (Ret _) => apply retp_ret; intros ? ; cbn; intuition discriminate
  | |- retp _ Crash => apply retp_crash
  | |- retp _ (pbind _ _) => apply retp_bind; intros
  | |- retp _ (Rd _ _) => apply retp_rd; intros
  | |- retp _ (rdv _ _) => unfold rdv
  | |- retp _ (Wr _ _ _) => apply retp_wr
  | |- retp _ (New _ _) => apply retp_new; intros
  | |- retp _ (match ?v with _ => _ end) => destruct v
  end.

Lemma prim_no_reader_out : forall cf p, (forall n, p <> PLargeBytes n) -> returns_caps p = true ->
  retp no_reader_out (prim_prog cf p).
Proof.
  intros cf p Hp Hc. destruct p; try discriminate Hc; cbn [prim_prog].
  - destruct h; try apply retp_crash. unfold builder_build. repeat retp_step.
  - repeat retp_step.
  - repeat retp_step.
  - repeat retp_step.
  - repeat retp_step.
  - unfold sval_node, new_scalar_node, newv. repeat retp_step.
  - repeat retp_step.
  - destruct n; try apply retp_crash. unfold match_subset, new_scalar_node, newv, rd_seek_end, rd_seek. repeat retp_step.
  - exfalso. eapply Hp; reflexivity.
Qed.

Lemma leaf_eqv : forall r r', rdr_eqv r r' -> leaf_rdr r -> leaf_rdr r'.
Proof. destruct r, r'; cbn; tauto. Qed.

Definition RInv (ps : pstate) : Prop :=
  forall y, In (HReader y) (kn ps) -> exists r, hget (hp ps) y = Some (CRdr r) /\ leaf_rdr r.

Lemma known_reader_in : forall k x, known_b k (HReader x) = true -> In (HReader x) k.
Proof. intros k x H. apply existsb_handle_in. exact H. Qed.

Lemma exec_run : forall A ar (p : mprog A) h, exec ar p h = (fst (fst (run ar p h)), snd (fst (run ar p h))).
Proof. intros. unfold exec. destruct (run ar p h) as [[o h'] l]. reflexivity. Qed.

Lemma large_bytes_leaf : forall cf n ar h po h' y, cf_stream_shared cf = false ->
  exec ar (prim_prog cf (PLargeBytes n)) h = (Done po, h') -> In (HReader y) (out_handles po) ->
  exists r, hget h' y = Some (CRdr r) /\ leaf_rdr r.
Proof.
  intros cf n ar h po h' y Hrep He Hin. cbn [prim_prog] in He. rewrite Hrep in He.
  assert (Hnew : forall r, leaf_rdr r -> exec ar (New (CRdr r) (fun x => Ret (POk (HReader x)))) h = (Done po, h') ->
            exists r, hget h' y = Some (CRdr r) /\ leaf_rdr r).
  { intros r L He1. rewrite exec_new in He1. destruct (halloc ar h (CRdr r)) as [h1 a] eqn:Ea.
    rewrite exec_ret in He1. inversion He1; subst. cbn in Hin. destruct Hin as [E|[]]. inversion E; subst.
    destruct (hget_halloc_new _ _ _ _ _ _ Ea) as [G _]. eauto. }
  destruct n; try (rewrite exec_crash in He; discriminate He).
  destruct r; try (rewrite exec_crash in He; discriminate He);
    try (rewrite exec_ret in He; inversion He; subst; cbn in Hin; tauto); eapply Hnew; eauto; exact I.
Qed.

Lemma rinv_step : forall cf tg ps p, cf_stream_shared cf = false -> SInv tg ps -> RInv ps -> legal ps p = true ->
  RInv (fst (pstep cf ps p)).
Proof.
  intros cf tg ps p Hrep HS HR Hl.
  destruct (pstep_inv cf tg ps p HS Hl) as (tg' & _ & HE).
  destruct HS as [HI HK].
  assert (Old : forall y, In (HReader y) (kn ps) -> exists r, hget (hp (fst (pstep cf ps p))) y = Some (CRdr r) /\ leaf_rdr r).
  { intros y Hy. destruct (HR y Hy) as (r & G & L).
    unfold KInv in HK. rewrite Forall_forall in HK. destruct (HK _ Hy) as [Ty _].
    destruct (ext_rdr _ _ _ _ _ _ HE Ty G) as (r' & G' & Eq). exists r'. split; [assumption | eapply leaf_eqv; eauto]. }
  revert Old. rewrite pstep_exec.
  destruct (exec (par ps) (prim_prog cf p) (hp ps)) as [[po|] h'] eqn:He; cbn; intros Old y Hy; [|auto].
  destruct (returns_caps p) eqn:Rc; [|auto].
  cbn [hp]. revert Hy. apply fold_add_known_ind; [auto|]. intros k' hd Hy IH [->|H]; [|auto].
  destruct p; try discriminate Rc;
    try (exfalso; refine (retp_exec _ _ _ (prim_no_reader_out cf _ _ Rc) _ _ _ _ He y Hy); intros ?; discriminate).
  eapply large_bytes_leaf; eauto.
Qed.

Definition call_log (cf : cfg) (ps : pstate) (p : prim) : list ev := snd (run (par ps) (prim_prog cf p) (hp ps)).

Lemma pstep_hp : forall cf ps p, hp (fst (pstep cf ps p)) = snd (fst (run (par ps) (prim_prog cf p) (hp ps))).
Proof. intros. rewrite pstep_exec, exec_run. destruct (fst (fst (run (par ps) (prim_prog cf p) (hp ps)))); reflexivity. Qed.

Theorem reader_untouched_step : forall cf tg ps p x, cf_stream_shared cf = false ->
  SInv tg ps -> RInv ps -> legal ps p = true ->
  rdr_at x tg (hp ps) -> touches x p = false ->
  hgetv (hp (fst (pstep cf ps p))) x = hgetv (hp ps) x /\ ~ In x (stores (call_log cf ps p)).
Proof.
  intros cf tg ps p x Hrep HS HR Hl [Tx [r0 G]] Ht.
  destruct (pstep_inv cf tg ps p HS Hl) as (tg' & _ & HE).
  destruct (ext_rdr _ _ _ _ _ _ HE Tx G) as (r' & G' & _).
  apply hget_some in G. destruct G as [v0 G].
  assert (U : untouched x (prim_prog cf p) (par ps) (hp ps)).
  { destruct (reader_prim p) eqn:Rp.
    - apply reader_prim_untouched; [assumption | assumption |].
      intros y Hy. apply HR. apply known_reader_in.
      unfold legal in Hl. apply andb_true_iff in Hl. destruct Hl as [Hops _].
      rewrite forallb_forall in Hops. apply Hops. assumption.
    - apply nrw_untouched. apply prim_nrw; assumption. }
  rewrite pstep_hp in *. unfold call_log.
  destruct (run (par ps) (prim_prog cf p) (hp ps)) as [[o h'] l] eqn:R. cbn [fst snd] in *.
  rewrite G. pose proof (U _ _ _ _ _ _ R G G') as E. split; [exact E|]. intros Hin.
  destruct (run_ver _ _ _ _ _ _ _ _ R x _ _ G) as (c1 & v1 & E1 & _ & Hlt). rewrite E in E1. inversion E1; subst.
  specialize (Hlt Hin). lia.
Qed.

Lemma rinv_init : RInv pinit.
Proof. intros y []. Qed.

Lemma reader_untouched_runh : forall cf, cf_stream_shared cf = false -> forall hs tg ps x, SInv tg ps -> RInv ps ->
  legalh cf ps hs = true -> rdr_at x tg (hp ps) ->
  forallb (fun p => negb (touches x p)) hs = true ->
  hgetv (hp (runh cf ps hs)) x = hgetv (hp ps) x.
Proof.
  intros cf Hrep. induction hs as [|p hs IH]; cbn [runh legalh forallb]; intros tg ps x HS HR Hl Hx Ht; [reflexivity|].
  apply andb_true_iff in Hl. destruct Hl as [L1 L2]. apply andb_true_iff in Ht. destruct Ht as [T1 T2].
  apply negb_true_iff in T1.
  destruct (pstep_inv cf tg ps p HS L1) as (tg1 & S1 & E1).
  rewrite (IH tg1 _ x S1 (rinv_step cf tg ps p Hrep HS HR L1) L2 (rdr_at_stable x _ _ _ _ Hx E1) T2).
  apply (reader_untouched_step cf tg ps p x Hrep HS HR L1 Hx T1).
Qed.
