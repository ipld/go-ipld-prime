(* Marshal / Unmarshal through the concrete DAG-JSON model (Codec/DagJson.v): the decoder [json_bdec]
   and a computed instance; C19_marshal_roundtrip_dagjson (Props/C19.v) instantiates C19_remarshal_perm
   with the codec facts of Proofs/JsonPerm.v.  The strconv float text (A1, A2) and the CID text round
   trip (CID) remain hypotheses there. *)
Require Import IP.Base.Bytes IP.DM.Value IP.Bind.GoVal IP.Bind.Bind IP.Bind.Spec.
Require Import IP.Proofs.BindRefute IP.Proofs.BindCbor.
Require Import IP.Codec.DagJson IP.Proofs.CborEnc IP.Proofs.JsonEnc IP.Proofs.JsonMain IP.Proofs.JsonPerm.
Open Scope N_scope.

Definition json_bdec parse_float cid_parse : bytes -> bres dm := json_dec parse_float cid_parse XOther.

(* the premises are satisfiable: the ordered map {String:Int} of BindCbor.v, Keys not in bytewise order *)
Example dagjson_hyps_sat : forall q n32 cid_ok,
  is_any t_msi = false /\ bindable t_msi s_msi = true /\ gv_ok q n32 t_msi s_msi g_msi = true /\
  json_within cid_ok (denote LRepr t_msi g_msi).
Proof.
  intros. repeat split; try reflexivity; try (vm_compute; congruence).
Qed.

(* the round trip really reorders: text {"a":2,"b":1}; the fresh value has Keys [a; b] and the same entries *)
Example dagjson_roundtrip_reorders :
  let b := json_enc (fun _ => []) (fun c => c) (denote LRepr t_msi g_msi) in
  b = [123; 34; 97; 34; 58; 50; 44; 34; 98; 34; 58; 49; 125] /\
  unmarshal pinned (fun x => x) (json_bdec (fun _ => None) (fun _ => None)) t_msi s_msi b
  = Ok (GStruct [GSlice [GString [97]; GString [98]]; GGoMap [(GString [97], GInt 2); (GString [98], GInt 1)]]).
Proof. split; vm_compute; reflexivity. Qed.
