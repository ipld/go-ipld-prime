(* Proofs/LinkCbor.v — the codec laws of Link/LinkSpec.v for the dag-cbor codec, discharged against
   the concrete model coq/Codec/Cbor.v by citing C02's theorems (Proofs/CborEnc.v: closed form of the
   encoder; Proofs/CborDec.v: independence of map entry order, decode (encode v) = sorted v). *)
Require Import IP.Base.Bytes IP.DM.Value IP.Codec.Cid IP.Codec.Cbor IP.Gen.FromGo.
Require Import IP.Link.LinkSys IP.Link.LinkSpec.
Require Import IP.Proofs.BytesFacts IP.Proofs.CborEnc IP.Proofs.CborDec.
From Coq Require Import ZifyN ZifyNat ZifyBool.
Open Scope N_scope.

Lemma dagcbor_enc rt v : c_enc (dagcbor_codec rt) v = Some [encb SortRFC7049 v].
Proof.
  unfold dagcbor_codec, cbor_family_codec. cbn [c_enc].
  now rewrite enc_ok by reflexivity.
Qed.

Lemma dagcbor_order_insensitive rt : order_insensitive perm_eq (dagcbor_codec rt) keys_nodup.
Proof.
  intros v1 v2 D1 _ P. rewrite !dagcbor_enc. do 2 f_equal.
  apply encb_perm_invariant; [discriminate|assumption|assumption].
Qed.

Definition dagcbor_dom (v : dm) : Prop :=
  rt_ok v /\ (Z.of_nat (dm_depth v) <= go_defaultMaxDepth)%Z /\ (cost v <= go_defaultAllocationBudget)%Z.

Lemma dagcbor_roundtrips rt : roundtrips (dagcbor_codec rt) dagcbor_dom (sort_maps rfc_ltb).
Proof.
  intros v chunks (Hok & Hd & Hc). rewrite dagcbor_enc. intros E; inversion E; subst chunks. clear E.
  cbn [concat]. rewrite app_nil_r.
  unfold dagcbor_codec, cbor_family_codec. cbn [c_dec].
  rewrite (decode_encode SortRFC7049 (cbor_dopts true rt) v); auto.
  rewrite sortv_rfc.
  replace (lenN (encb SortRFC7049 v) - lenN (@nil N)) with (lenN (encb SortRFC7049 v))
    by (unfold lenN; cbn [length]; lia).
  reflexivity.
Qed.

Lemma default_registry_dagcbor rt dj j : default_registry rt dj j 113 = Some (dagcbor_codec rt).
Proof. reflexivity. Qed.

(* the premises are satisfiable *)
Example dagcbor_perm_hyp_sat :
  let v1 := DMap [([98], DInt 1); ([97], DInt 2)] in
  let v2 := DMap [([97], DInt 2); ([98], DInt 1)] in
  keys_nodup v1 /\ keys_nodup v2 /\ perm_eq v1 v2 /\ dagcbor_dom v1.
Proof.
  cbv zeta. split; [|split; [|split]].
  - cbn. split; [|auto]. repeat constructor; cbn; intuition discriminate.
  - cbn. split; [|auto]. repeat constructor; cbn; intuition discriminate.
  - eapply pe_map with (m2 := [([98], DInt 1); ([97], DInt 2)]).
    + repeat constructor.
    + apply Permutation.perm_swap.
  - unfold dagcbor_dom. split; [|split].
    + cbn. unfold two63, two63z, two64z, str_cap, lenN; cbn. repeat split; try lia.
      repeat constructor; cbn; intuition discriminate.
    + cbn. unfold go_defaultMaxDepth. lia.
    + vm_compute. discriminate.
Qed.
