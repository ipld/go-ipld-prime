(* Proofs/CborHead.v — CBOR heads: the encoder's [head], the decoder's argument reader [dec_arg] and the
   SPEC's head reader [rd_head] (Codec/CborSpec.v), all described by one table of argument widths. *)
Require Import IP.Base.Bytes IP.Codec.Cbor IP.Codec.CborSpec IP.Proofs.BytesFacts.
From Coq Require Import ZifyN ZifyNat ZifyBool.
Open Scope N_scope.

(* additional-information value, width of the argument in bytes, least argument that needs this width;
   the greatest argument of width w is 256^w - 1, which is the next row's least minus one *)
Inductive arg_row : N -> nat -> N -> Prop :=
| row1 : arg_row 24 1 24
| row2 : arg_row 25 2 256
| row4 : arg_row 26 4 65536
| row8 : arg_row 27 8 4294967296.

Lemma dec_arg_inv strict ai r a r' : dec_arg strict ai r = Some (a, r') ->
  (ai < 24 /\ a = ai /\ r' = r) \/
  exists w lo x, arg_row ai w lo /\ r = x ++ r' /\ length x = w /\ a = unbe x 0 /\ (strict = true -> lo <= a).
Proof.
  unfold dec_arg. destruct (N.ltb_spec ai 24); [intros E; inversion E; subst; auto|].
  intros E. right.
  assert (G : forall w lo, arg_row ai w lo ->
            match take (N.of_nat w) r with
            | Some (x, r0) => let v := unbe x 0 in if strict && (v <? lo) then None else Some (v, r0)
            | None => None end = Some (a, r') ->
            exists w lo x, arg_row ai w lo /\ r = x ++ r' /\ length x = w /\ a = unbe x 0 /\ (strict = true -> lo <= a)).
  { intros w lo Hrow. destruct (take (N.of_nat w) r) as [[x r0]|] eqn:Et; [|discriminate]. cbv zeta.
    destruct (strict && (unbe x 0 <? lo)) eqn:Es; [discriminate|]. intros E'; inversion E'; subst.
    apply take_some in Et as [-> Hl]. exists w, lo, x. repeat split; auto; [unfold lenN in Hl; lia|].
    intros ->. cbn [andb] in Es. lia. }
  destruct (N.eqb_spec ai 24) as [->|]; [exact (G _ _ row1 E)|].
  destruct (N.eqb_spec ai 25) as [->|]; [exact (G _ _ row2 E)|].
  destruct (N.eqb_spec ai 26) as [->|]; [exact (G _ _ row4 E)|].
  destruct (N.eqb_spec ai 27) as [->|]; [exact (G _ _ row8 E)|discriminate].
Qed.

Lemma dec_arg_row strict ai w lo x r' : arg_row ai w lo -> length x = w ->
  lo <= unbe x 0 -> dec_arg strict ai (x ++ r') = Some (unbe x 0, r').
Proof.
  intros Hrow Hl Hlo. unfold dec_arg. pose proof (take_app x r') as Ht. unfold lenN in Ht. rewrite Hl in Ht.
  assert (strict && (unbe x 0 <? lo) = false) as Hs by (destruct (N.ltb_spec (unbe x 0) lo); [lia|apply andb_false_r]).
  destruct Hrow; cbn [N.ltb N.eqb N.compare Pos.compare Pos.compare_cont Pos.eqb]; cbn [N.of_nat Pos.of_succ_nat Pos.succ] in Ht;
    rewrite Ht; cbv zeta; rewrite Hs; reflexivity.
Qed.

Lemma head_small mj a : a < 24 -> head mj a = [mj * 32 + a].
Proof. intros H. unfold head. destruct (N.ltb_spec a 24); [reflexivity|lia]. Qed.

Lemma head_row mj a ai w lo : arg_row ai w lo -> lo <= a < 256 ^ N.of_nat w -> head mj a = (mj * 32 + ai) :: be w a.
Proof.
  intros Hrow. unfold head.
  destruct Hrow; cbn [N.of_nat Pos.of_succ_nat Pos.succ]; intros H;
    [change (256 ^ 1) with 256 in H|change (256 ^ 2) with 65536 in H|change (256 ^ 4) with 4294967296 in H|
     change (256 ^ 8) with 18446744073709551616 in H];
    destruct (N.ltb_spec a 24); try lia; destruct (N.ltb_spec a 256); try lia; try reflexivity;
    destruct (N.ltb_spec a 65536); try lia; try reflexivity;
    destruct (N.ltb_spec a 4294967296); try lia; reflexivity.
Qed.

Lemma row_ai ai w lo : arg_row ai w lo -> 24 <= ai < 28.
Proof. destruct 1; lia. Qed.

Lemma dec_arg_rest strict ai r a r' : dec_arg strict ai r = Some (a, r') -> (length r' <= length r)%nat.
Proof.
  intros H. apply dec_arg_inv in H as [(_ & _ & ->)|(w & lo & x & _ & -> & _)]; [lia|rewrite app_length; lia].
Qed.

Lemma dec_arg_wf strict ai r a r' : bytes_wf r -> dec_arg strict ai r = Some (a, r') -> a < two64 /\ bytes_wf r'.
Proof.
  intros Hw H. apply dec_arg_inv in H as [(H & -> & ->)|(w & lo & x & Hrow & -> & Hl & -> & _)].
  - split; [unfold two64; lia|assumption].
  - apply Forall_app in Hw as [Hx Hr]. pose proof (unbe_bound x 0 Hx) as Hb. rewrite Hl in Hb.
    assert (256 ^ N.of_nat w <= two64) by (destruct Hrow; cbn; unfold two64; lia). split; [lia|assumption].
Qed.

Lemma rd_head_dec_arg strict b r :
  rd_head strict (b :: r) =
  match dec_arg strict (b mod 32) r with Some (a, r') => Some (b / 32, a, r') | None => None end.
Proof.
  cbn [rd_head]. unfold dec_arg.
  destruct (b mod 32 <? 24); [reflexivity|].
  destruct (b mod 32 =? 24); [destruct (take 1 r) as [[x r']|]; [|reflexivity]; destruct (strict && _); reflexivity|].
  destruct (b mod 32 =? 25); [destruct (take 2 r) as [[x r']|]; [|reflexivity]; destruct (strict && _); reflexivity|].
  destruct (b mod 32 =? 26); [destruct (take 4 r) as [[x r']|]; [|reflexivity]; destruct (strict && _); reflexivity|].
  destruct (b mod 32 =? 27); [destruct (take 8 r) as [[x r']|]; [|reflexivity]; destruct (strict && _); reflexivity|].
  reflexivity.
Qed.

Lemma rd_head_inv strict bs mj a r : rd_head strict bs = Some (mj, a, r) ->
  exists b t, bs = b :: t /\ mj = b / 32 /\ dec_arg strict (b mod 32) t = Some (a, r).
Proof.
  destruct bs as [|b t]; [discriminate|]. rewrite rd_head_dec_arg.
  destruct (dec_arg strict (b mod 32) t) as [[a' r']|] eqn:Ea; [|discriminate].
  intros E; inversion E; subst. eauto.
Qed.

Lemma rd_head_rest strict bs mj a r : rd_head strict bs = Some (mj, a, r) -> (length r < length bs)%nat.
Proof. intros H. apply rd_head_inv in H as (b & t & -> & _ & Ea). apply dec_arg_rest in Ea. cbn [length]. lia. Qed.

Lemma first_byte_split b : b = b / 32 * 32 + b mod 32.
Proof. lia. Qed.

Lemma major_lt7 b : b / 32 < 7 <-> b < 224.
Proof. lia. Qed.

(* refmt's decodeNegInt computes the argument plus one in uint64 *)
Lemma wrap_succ a : a < two64 -> (a + 1) mod two64 = if a =? two64 - 1 then 0 else a + 1.
Proof.
  unfold two64. intros Ha. destruct (N.eqb_spec a (18446744073709551616 - 1)) as [->|Hne]; [reflexivity|].
  apply N.mod_small. lia.
Qed.

Lemma rd_head_wf strict bs mj a r : bytes_wf bs -> rd_head strict bs = Some (mj, a, r) -> a < two64 /\ mj < 8 /\ bytes_wf r.
Proof.
  intros Hw H. apply rd_head_inv in H as (b & t & -> & -> & Ea). inversion Hw as [|? ? Hb Ht]; subst.
  destruct (dec_arg_wf _ _ _ _ _ Ht Ea). repeat split; auto; lia.
Qed.

Lemma rd_head_of_head strict mj a r : a < two64 -> rd_head strict (head mj a ++ r) = Some (mj, a, r).
Proof.
  intros Ha. unfold two64 in Ha. destruct (N.lt_ge_cases a 24) as [Hs|].
  { rewrite head_small by assumption. cbn [app]. rewrite rd_head_dec_arg. destruct (digit_split 32 mj a ltac:(lia)) as [-> ->].
    unfold dec_arg. destruct (N.ltb_spec a 24); [reflexivity|lia]. }
  assert (G : forall ai w lo, arg_row ai w lo -> lo <= a < 256 ^ N.of_nat w -> rd_head strict (head mj a ++ r) = Some (mj, a, r)).
  { intros ai w lo Hrow Hb. pose proof (row_ai _ _ _ Hrow). rewrite (head_row mj a ai w lo Hrow Hb). cbn [app].
    rewrite rd_head_dec_arg. destruct (digit_split 32 mj ai ltac:(lia)) as [-> ->].
    pose proof (unbe_be w a 0 ltac:(lia)) as Hu. cbn [N.mul N.add] in Hu.
    rewrite (dec_arg_row strict ai w lo _ r Hrow (be_length w a)) by lia. now rewrite Hu. }
  destruct (N.lt_ge_cases a 256); [apply (G _ _ _ row1); cbn; lia|].
  destruct (N.lt_ge_cases a 65536); [apply (G _ _ _ row2); cbn; lia|].
  destruct (N.lt_ge_cases a 4294967296); [apply (G _ _ _ row4); cbn; lia|].
  apply (G _ _ _ row8); cbn; lia.
Qed.
