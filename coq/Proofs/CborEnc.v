(* Proofs/CborEnc.v — facts about the encoder model: a pure closed form [encb], the length law
   (EncodedLength = produced length), and what independence of map insertion order is stated with ([perm_eq],
   [keys_nodup]; the theorem itself, [encb_perm_invariant], is in Proofs/CborDec.v, beside the sorted form). *)
Require Import IP.Base.Bytes IP.DM.Value IP.Codec.Cid IP.Codec.Cbor IP.Gen.FromGo IP.Proofs.BytesFacts IP.Proofs.GoLeaf.
From Coq Require Import ZifyN ZifyNat ZifyBool Permutation Sorted.
Open Scope N_scope.

Definition enc_entry (body : bytes * bytes) : bytes := enc_str (fst body) ++ snd body.

Fixpoint encb (m : sortmode) (v : dm) : bytes :=
  match v with
  | DNull => [246]
  | DBool false => [244]
  | DBool true => [245]
  | DInt z => enc_int z
  | DFloat f => 251 :: be 8 f
  | DString s => enc_str s
  | DBytes s => head 2 (lenN s) ++ s
  | DLink c => enc_link c
  | DList l => head 4 (lenN l) ++ concat (map (encb m) l)
  | DMap es =>
      head 5 (lenN es) ++
      concat (map enc_entry (sort_entries m (map (fun kv => (fst kv, encb m (snd kv))) es)))
  end.

Lemma enc_ok o v : e_allow_links o = true -> enc o v = Ok (encb (e_sort o) v).
Proof.
  intros Hl. induction v as [| b | z | f | s | s | c | l IH | es IH] using dm_ind2; cbn [enc encb]; try reflexivity.
  - destruct b; reflexivity.
  - now rewrite Hl.
  - assert (E : (fix go (l : list dm) : res eerr bytes :=
                   match l with
                   | [] => Ok []
                   | x :: r => do a <- enc o x; do b <- go r; Ok (a ++ b)
                   end) l = Ok (concat (map (encb (e_sort o)) l))).
    { induction IH as [|x r Hx _ IHr]; [reflexivity|]. cbn [map concat]. rewrite Hx, IHr. reflexivity. }
    rewrite E. reflexivity.
  - assert (E : (fix go (m : list (bytes * dm)) : res eerr (list (bytes * bytes)) :=
                   match m with
                   | [] => Ok []
                   | (k, x) :: r => do a <- enc o x; do b <- go r; Ok ((k, a) :: b)
                   end) es = Ok (map (fun kv => (fst kv, encb (e_sort o) (snd kv))) es)).
    { induction IH as [|[k x] r Hx _ IHr]; [reflexivity|]. cbn [map fst snd] in *. rewrite Hx, IHr. reflexivity. }
    rewrite E. reflexivity.
Qed.

Lemma enc_nolinks_err o c : e_allow_links o = false -> enc o (DLink c) = Err EELink.
Proof. intros H. cbn. now rewrite H. Qed.

Lemma sort_entries_map_snd {A B} m (g : A -> B) (l : list (bytes * A)) :
  sort_entries m (map (fun e => (fst e, g (snd e))) l) = map (fun e => (fst e, g (snd e))) (sort_entries m l).
Proof. destruct m; cbn; [reflexivity| |]; apply sort_map_snd. Qed.

Lemma encb_map m es :
  encb m (DMap es) =
  head 5 (lenN es) ++ concat (map (fun kv => enc_str (fst kv) ++ encb m (snd kv)) (sort_entries m es)).
Proof.
  cbn [encb]. f_equal. rewrite sort_entries_map_snd, map_map. reflexivity.
Qed.

Lemma head_length mj a : length (head mj a) =
  if a <? 24 then 1%nat else if a <? 256 then 2%nat else if a <? 65536 then 3%nat
  else if a <? 4294967296 then 5%nat else 9%nat.
Proof.
  unfold head.
  destruct (a <? 24); [reflexivity|]. destruct (a <? 256); [reflexivity|].
  destruct (a <? 65536); [cbn [length]; now rewrite be_length|].
  destruct (a <? 4294967296); cbn [length]; now rewrite be_length.
Qed.

Lemma uint_length_head mj a : uint_length a = Z.of_nat (length (head mj a)).
Proof.
  rewrite head_length. unfold uint_length. rewrite uint_length_spec by lia.
  change 24%Z with (Z.of_N 24). change 256%Z with (Z.of_N 256). change 65536%Z with (Z.of_N 65536).
  change 4294967296%Z with (Z.of_N 4294967296). rewrite !N2Z_ltb.
  destruct (a <? 24); [reflexivity|]. destruct (a <? 256); [reflexivity|].
  destruct (a <? 65536); [reflexivity|]. now destruct (a <? 4294967296).
Qed.

(* ints must be in the range a node can hold: [-2^63, 2^64) *)
Fixpoint int_ok (v : dm) : Prop :=
  match v with
  | DInt z => (- two63z <= z < two64z)%Z
  | DList l => (fix all (l : list dm) := match l with [] => True | x :: r => int_ok x /\ all r end) l
  | DMap m => (fix all (m : list (bytes * dm)) := match m with [] => True | (_, x) :: r => int_ok x /\ all r end) m
  | _ => True
  end.

Lemma int_ok_list l : int_ok (DList l) <-> Forall int_ok l.
Proof. apply all_Forall. Qed.
Lemma int_ok_map m : int_ok (DMap m) <-> Forall (fun kv => int_ok (snd kv)) m.
Proof. apply (all_snd_Forall int_ok). Qed.

Lemma length_concat_perm (l1 l2 : list bytes) : Permutation l1 l2 -> length (concat l1) = length (concat l2).
Proof. induction 1; cbn [concat]; rewrite ?app_length; lia. Qed.

Lemma sort_entries_perm {V} m (l : list (bytes * V)) : Permutation l (sort_entries m l).
Proof. destruct m; cbn; [reflexivity| |]; apply sort_perm. Qed.

(* the range of the ints plays no part: an argument of 2^32 or more gets a 9-byte head whatever it is *)
Lemma enc_len_any m v : enc_len true v = Ok (Z.of_nat (length (encb m v))).
Proof.
  induction v as [| b | z | f | s | s | c | l IH | es IH] using dm_ind2; cbn [enc_len encb].
  - reflexivity.
  - destruct b; reflexivity.
  - unfold enc_int, two63z.
    destruct (Z.leb_spec 9223372036854775808 z).
    + destruct (Z.leb_spec 0 z); [|lia]. now rewrite (uint_length_head 0).
    + destruct (Z.ltb_spec z 0); destruct (Z.leb_spec 0 z); try lia.
      * rewrite (uint_length_head 1). replace (- z - 1)%Z with (-1 - z)%Z by lia. reflexivity.
      * now rewrite (uint_length_head 0).
  - cbn [length]. now rewrite be_length.
  - unfold enc_str. rewrite app_length, (uint_length_head 3). unfold lenN. f_equal. lia.
  - rewrite app_length, (uint_length_head 2). unfold lenN. f_equal. lia.
  - unfold enc_link. rewrite !app_length.
    replace (Z.to_N (Z.of_N (lenN c) + 1)) with (lenN c + 1) by lia.
    rewrite (uint_length_head 2). change (length (head 6 go_linkTag)) with 2%nat.
    unfold lenN. cbn [length]. f_equal. lia.
  - assert (G : forall acc, (fix go (l : list dm) (acc : Z) : res lerr Z :=
                   match l with
                   | [] => Ok acc
                   | x :: r => do a <- enc_len true x; go r (acc + a)%Z
                   end) l acc = Ok (acc + Z.of_nat (length (concat (map (encb m) l))))%Z).
    { induction IH as [|x r Hx _ IHr]; intros acc; cbn [map concat].
      - cbn. f_equal. lia.
      - rewrite Hx. cbn [bind]. rewrite IHr, app_length. f_equal. lia. }
    rewrite G, app_length, (uint_length_head 4). f_equal. lia.
  - assert (G : forall acc, (fix go (m0 : list (bytes * dm)) (acc : Z) : res lerr Z :=
                   match m0 with
                   | [] => Ok acc
                   | (k, x) :: r =>
                       let kl := (uint_length (lenN k) + Z.of_N (lenN k))%Z in
                       do a <- enc_len true x; go r (acc + kl + a)%Z
                   end) es acc =
               Ok (acc + Z.of_nat (length (concat (map enc_entry (map (fun kv => (fst kv, encb m (snd kv))) es)))))%Z).
    { induction IH as [|[k x] r Hx _ IHr]; intros acc; cbn [map concat fst snd] in *.
      - cbn. f_equal. lia.
      - rewrite Hx. cbn [bind]. rewrite IHr, (uint_length_head 3). f_equal.
        change (enc_entry (k, encb m x)) with ((head 3 (lenN k) ++ k) ++ encb m x).
        unfold lenN. rewrite !app_length. lia. }
    rewrite G, app_length, (uint_length_head 5), Nat2Z.inj_add. do 3 f_equal.
    apply length_concat_perm, Permutation_map, sort_entries_perm.
Qed.

Definition mode_ltb (m : sortmode) : bytes -> bytes -> bool :=
  match m with SortLexical => bytes_ltb | _ => rfc_ltb end.

Inductive perm_eq : dm -> dm -> Prop :=
| pe_refl v : perm_eq v v
| pe_list l1 l2 : Forall2 perm_eq l1 l2 -> perm_eq (DList l1) (DList l2)
| pe_map m1 m2 m2' :
    Forall2 (fun a b => fst a = fst b /\ perm_eq (snd a) (snd b)) m1 m2 ->
    Permutation m2 m2' -> perm_eq (DMap m1) (DMap m2').

Fixpoint keys_nodup (v : dm) : Prop :=
  match v with
  | DList l => (fix all (l : list dm) := match l with [] => True | x :: r => keys_nodup x /\ all r end) l
  | DMap m => NoDup (map fst m) /\
              (fix all (m : list (bytes * dm)) := match m with [] => True | (_, x) :: r => keys_nodup x /\ all r end) m
  | _ => True
  end.

Lemma keys_nodup_list l : keys_nodup (DList l) <-> Forall keys_nodup l.
Proof. apply all_Forall. Qed.
Lemma keys_nodup_map m : keys_nodup (DMap m) <-> NoDup (map fst m) /\ Forall (fun kv => keys_nodup (snd kv)) m.
Proof. cbn [keys_nodup]. now rewrite (all_snd_Forall keys_nodup). Qed.

(* how the well-formedness predicates of the codecs and of the typed layers (rt_ok, json_safe, uniq, dm_wf) reach
   [keys_nodup] *)
Lemma keys_nodup_intro (P : dm -> Prop) :
  (forall l, P (DList l) -> Forall P l) ->
  (forall m, P (DMap m) -> NoDup (map fst m) /\ Forall (fun kv => P (snd kv)) m) ->
  forall v, P v -> keys_nodup v.
Proof.
  intros HL HM. induction v as [| | | | | | |l IH|m IH] using dm_ind2; intros H; try exact I.
  - apply keys_nodup_list. apply HL in H. rewrite Forall_forall in *. auto.
  - apply keys_nodup_map. apply HM in H as [ND H]. split; [exact ND|]. rewrite Forall_forall in *. auto.
Qed.

Lemma sort_entries_perm_invariant {V} m (l1 l2 : list (bytes * V)) :
  m <> SortNone -> NoDup (map fst l1) -> Permutation l1 l2 -> sort_entries m l1 = sort_entries m l2.
Proof.
  intros Hm Hnd Hp. destruct m; [congruence| |]; cbn [sort_entries].
  - apply sort_perm_invariant; [apply bytes_ltb_irrefl|apply bytes_ltb_trans|apply bytes_ltb_total|assumption|assumption].
  - apply sort_perm_invariant; [apply rfc_ltb_irrefl|apply rfc_ltb_trans|apply rfc_ltb_total|assumption|assumption].
Qed.
