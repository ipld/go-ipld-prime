(* The program logic over the ownership invariant: Hoare triples, and the weakest precondition [wp] in
   which every basicnode operation is specified and verified, head of the program by head, with one rule
   per kind of store.  Each store rule covers one store and re-establishes [Inv], so a panic half way
   through an operation leaves a state that satisfies it as well; one rule covers two consecutive stores
   that no panic separates: HeapOps.wp_shortcut (`*na.w = *v2; na.state = finished`, between which the
   invariant does not hold), which the scalar assignments of HeapPrims.v use as well.  The rule for the store
   that finishes a node (HeapOps.wp_freeze_hdr, over [step_freeze] here) and the one for allocating an assembler
   with its struct (HeapOps.wp_new_struct_asm) stand in HeapOps.v as well, next to the operations that use them. *)
Require Import IP.Base.Bytes IP.DM.Value IP.Heap.GoMem IP.Heap.BasicHeap IP.Proofs.HeapMem IP.Proofs.HeapLogic.
From Coq Require Import List Arith Bool Lia.
Import ListNotations.
Local Open Scope nat_scope.

Definition exec {A} (ar : nat) (p : mprog A) (h : mheap) : outcome A * mheap :=
  let '(o, h', _) := run ar p h in (o, h').

Lemma exec_ret : forall A ar (a : A) h, exec ar (Ret a) h = (Done a, h).
Proof. reflexivity. Qed.
Lemma exec_crash : forall A ar h, exec ar (@Crash val A) h = (Crashed, h).
Proof. reflexivity. Qed.
Lemma exec_rd : forall A ar a (k : mcell -> mprog A) h,
  exec ar (Rd a k) h = match hget h a with Some c => exec ar (k c) h | None => (Crashed, h) end.
Proof.
  intros; unfold exec; cbn. destruct (hget h a); [|reflexivity].
  destruct (run ar (k c) h) as [[o h'] l]; reflexivity.
Qed.
Lemma exec_wr : forall A ar a c (k : mprog A) h,
  exec ar (Wr a c k) h = match hget h a with Some _ => exec ar k (hset h a c) | None => (Crashed, h) end.
Proof.
  intros; unfold exec; cbn. destruct (hget h a); [|reflexivity].
  destruct (run ar k (hset h a c)) as [[o h'] l]; reflexivity.
Qed.
Lemma exec_new : forall A ar c (k : addr -> mprog A) h,
  exec ar (New c k) h = let '(h1, a) := halloc ar h c in exec ar (k a) h1.
Proof.
  intros; unfold exec; cbn. destruct (halloc ar h c) as [h1 a].
  destruct (run ar (k a) h1) as [[o h'] l]; reflexivity.
Qed.
Lemma exec_bind : forall A B ar (p : mprog A) (f : A -> mprog B) h,
  exec ar (pbind p f) h = match exec ar p h with (Done a, h1) => exec ar (f a) h1 | (Crashed, h1) => (Crashed, h1) end.
Proof.
  intros; unfold exec. rewrite run_bind. destruct (run ar p h) as [[[a|] h1] l1]; [|reflexivity].
  destruct (run ar (f a) h1) as [[o h2] l2]; reflexivity.
Qed.

Lemma hget_hset : forall (h : mheap) a c a',
  hget (hset h a c) a' = if addr_eqb a a' then (match hget h a with Some _ => Some c | None => None end) else hget h a'.
Proof.
  intros. destruct (addr_eqb a a') eqn:E.
  - apply addr_eqb_eq in E; subst a'. destruct (hget h a) eqn:G.
    + eapply hget_hset_same; eauto.
    + apply hget_none. apply hgetv_hset_none. apply hget_none. assumption.
  - apply addr_eqb_neq in E. apply hget_hset_other; assumption.
Qed.

Definition assertion := tags -> mheap -> Prop.
Definition stable (P : assertion) : Prop := forall tg h tg' h', P tg h -> Ext tg h tg' h' -> P tg' h'.

(* the state a run may leave: the invariant holds again, under a tagging that extends the one before *)
Definition Step (tg : tags) (h : mheap) (tg' : tags) (h' : mheap) : Prop := Inv tg' h' /\ Ext tg h tg' h'.

Definition triple {A} (P : assertion) (p : mprog A) (Q : A -> assertion) : Prop :=
  forall tg h ar o h', Inv tg h -> P tg h -> exec ar p h = (o, h') ->
    exists tg', Step tg h tg' h' /\ match o with Done a => Q a tg' h' | Crashed => True end.

Lemma step_refl : forall tg h, Inv tg h -> Step tg h tg h.
Proof. intros; split; [assumption | apply Ext_refl]. Qed.

Lemma step_trans : forall tg h tg1 h1 tg2 h2, Step tg h tg1 h1 -> Step tg1 h1 tg2 h2 -> Step tg h tg2 h2.
Proof. intros * [_ E1] [I2 E2]. split; [assumption | eapply Ext_trans; eauto]. Qed.

(* The rules below consume the head of the program and leave the same goal for the rest of it, from the
   state the head has reached; an operation's specification is a lemma of the same form
   ([pre -> wp op post tg h]: a triple, by [triple_wp]), applied where the operation is called. *)
Definition wp {A} (p : mprog A) (Q : A -> assertion) (tg : tags) (h : mheap) : Prop :=
  Inv tg h -> forall ar o h', exec ar p h = (o, h') ->
    exists tg', Step tg h tg' h' /\ match o with Done a => Q a tg' h' | Crashed => True end.

Lemma triple_wp : forall A (P : assertion) (p : mprog A) (Q : A -> assertion),
  triple P p Q <-> forall tg h, P tg h -> wp p Q tg h.
Proof. split; intros T tg h; [intros HP HI ar o h' He | intros ar o h' HI HP He]; eapply T; eauto. Qed.

Lemma exec_wfree : forall A (p : mprog A) ar h, wfree p -> exec ar p h = (fst (exec ar p h), h).
Proof.
  intros A p ar h W. unfold exec. destruct (run ar p h) as [[o h'] l] eqn:R.
  destruct (wfree_run _ _ _ W _ _ _ _ _ R) as [-> _]. reflexivity.
Qed.

Section Rules.
  Context {A : Type} (Q : A -> assertion) (tg : tags) (h : mheap).

  Lemma wp_inv : forall (p : mprog A), (Inv tg h -> wp p Q tg h) -> wp p Q tg h.
  Proof. intros p H HI. exact (H HI HI). Qed.

  Lemma wp_ret : forall a, Q a tg h -> wp (Ret a) Q tg h.
  Proof. intros a HQ HI ar o h' He. inversion He; subst. exists tg. split; [apply step_refl|]; assumption. Qed.

  Lemma wp_crash : wp Crash Q tg h.
  Proof. intros HI ar o h' He. inversion He; subst. exists tg. split; [apply step_refl; assumption | exact I]. Qed.

  (* `if !b { panic(..) }` *)
  Lemma wp_unless : forall (b : bool) (p : mprog A), (b = true -> wp p Q tg h) -> wp (if negb b then Crash else p) Q tg h.
  Proof. intros [] p Hp; [exact (Hp eq_refl) | apply wp_crash]. Qed.

  Lemma wp_rd : forall a (k : mcell -> mprog A),
    (forall c, hget h a = Some c -> wp (k c) Q tg h) -> wp (Rd a k) Q tg h.
  Proof.
    intros a k Hk HI ar o h' He. rewrite exec_rd in He. destruct (hget h a) as [c|] eqn:G; [exact (Hk c eq_refl HI ar o h' He)|].
    exact (wp_crash HI ar o h' He).
  Qed.

  Lemma wp_rd_at : forall a c (k : mcell -> mprog A), hget h a = Some c -> wp (k c) Q tg h -> wp (Rd a k) Q tg h.
  Proof. intros a c k G Hk. apply wp_rd. intros c' G'. rewrite G in G'. inversion G'; subst. exact Hk. Qed.

  Lemma wp_rdv : forall a (k : val -> mprog A),
    (forall v, hget h a = Some (CPtr v) -> wp (k v) Q tg h) -> wp (rdv a k) Q tg h.
  Proof. intros a k Hk. apply wp_rd. intros [| |v| |] G; auto using wp_crash. Qed.

  Lemma wp_rdv_at : forall a v (k : val -> mprog A), hget h a = Some (CPtr v) -> wp (k v) Q tg h -> wp (rdv a k) Q tg h.
  Proof. intros a v k G Hk. exact (wp_rd_at a _ _ G Hk). Qed.

  Lemma wp_wr : forall a c c0 (k : mprog A) tg1,
    hget h a = Some c0 -> Step tg h tg1 (hset h a c) -> wp k Q tg1 (hset h a c) -> wp (Wr a c k) Q tg h.
  Proof.
    intros * G S Hk HI ar o h' He. rewrite exec_wr, G in He.
    destruct (Hk (proj1 S) ar o h' He) as (tg2 & S2 & HQ). exists tg2. split; [eapply step_trans; eauto | exact HQ].
  Qed.

  Lemma wp_wr_some : forall a c (k : mprog A),
    (forall c0, hget h a = Some c0 -> wp (Wr a c k) Q tg h) -> wp (Wr a c k) Q tg h.
  Proof.
    intros a c k Hk HI ar o h' He. destruct (hget h a) as [c0|] eqn:G; [exact (Hk c0 eq_refl HI ar o h' He)|].
    rewrite exec_wr, G in He. exact (wp_crash HI ar o h' He).
  Qed.

  Lemma wp_new : forall c t (k : addr -> mprog A),
    (forall ar x h1, halloc ar h c = (h1, x) -> Step tg h (set_tag tg x t) h1) ->
    (forall x h1, hget h x = None -> hget h1 x = Some c ->
       (forall y cy, hget h y = Some cy -> hget h1 y = Some cy) -> wp (k x) Q (set_tag tg x t) h1) ->
    wp (New c k) Q tg h.
  Proof.
    intros * HS Hk HI ar o h' He. rewrite exec_new in He. destruct (halloc ar h c) as [h1 x] eqn:Ha.
    destruct (hget_halloc_new _ _ _ _ _ _ Ha) as [N1 O1]. pose proof (HS _ _ _ Ha) as S.
    destruct (Hk x h1 O1 N1 (fun y cy => hget_halloc_mono _ _ _ _ _ _ _ _ Ha) (proj1 S) ar o h' He) as (tg2 & S2 & HQ).
    exists tg2. split; [eapply step_trans; eauto | exact HQ].
  Qed.

  Lemma wp_bind : forall B (p : mprog B) (f : B -> mprog A) (Q1 : B -> assertion),
    wp p Q1 tg h -> (forall b tg1 h1, Step tg h tg1 h1 -> Q1 b tg1 h1 -> wp (f b) Q tg1 h1) -> wp (pbind p f) Q tg h.
  Proof.
    intros * Hp Hf HI ar o h' He. rewrite exec_bind in He. destruct (exec ar p h) as [[b|] h1] eqn:E1;
      destruct (Hp HI _ _ _ E1) as (tg1 & S1 & Q1b).
    - destruct (Hf b tg1 h1 S1 Q1b (proj1 S1) ar o h' He) as (tg2 & S2 & HQ).
      exists tg2. split; [eapply step_trans; eauto | exact HQ].
    - inversion He; subst. exists tg1. auto.
  Qed.

  Lemma wp_wfree_bind : forall B (p : mprog B) (f : B -> mprog A), wfree p ->
    (forall b, wp (f b) Q tg h) -> wp (pbind p f) Q tg h.
  Proof. induction 1; cbn; intros Hf; [apply Hf | apply wp_rd; auto | apply wp_crash]. Qed.
End Rules.

Lemma triple_conseq : forall A (P P' : assertion) (p : mprog A) (Q Q' : A -> assertion),
  triple P p Q -> (forall tg h, Inv tg h -> P' tg h -> P tg h) -> (forall a tg h, Inv tg h -> Q a tg h -> Q' a tg h) -> triple P' p Q'.
Proof.
  intros * T HP HQ tg h ar o h' HI HP' He.
  destruct (T tg h ar o h' HI (HP _ _ HI HP') He) as [tg' [[I' E'] Ho]].
  exists tg'. split; [split; assumption|]. destruct o; auto.
Qed.

Lemma triple_rd : forall A (P : assertion) a (k : mcell -> mprog A) (Q : A -> assertion),
  (forall c, triple (fun tg h => P tg h /\ hget h a = Some c) (k c) Q) -> triple P (Rd a k) Q.
Proof. intros * T. apply triple_wp. intros tg h HP. apply wp_rd. intros c G. eapply triple_wp; [apply T | split; assumption]. Qed.

Lemma triple_false : forall A (p : mprog A) (Q : A -> assertion), triple (fun _ _ => False) p Q.
Proof. intros * tg h ar o h' _ []. Qed.

Lemma triple_new : forall A (P : assertion) c (k : addr -> mprog A) (P1 : addr -> assertion) (Q : A -> assertion),
  (forall tg h ar h1 x, Inv tg h -> P tg h -> halloc ar h c = (h1, x) ->
     exists tg', Step tg h tg' h1 /\ P1 x tg' h1) ->
  (forall x, triple (P1 x) (k x) Q) -> triple P (New c k) Q.
Proof.
  intros * HS T tg h ar o h' HI HP He. rewrite exec_new in He. destruct (halloc ar h c) as [h1 x] eqn:G.
  destruct (HS tg h ar h1 x HI HP G) as [tg1 [[I1 X1] HP1]].
  destruct (T x tg1 h1 ar o h' I1 HP1 He) as [tg2 [[I2 X2] Ho]].
  exists tg2. split; [split; [assumption | eapply Ext_trans; eauto] | assumption].
Qed.

Ltac neq := let E := fresh in intro E; subst; congruence.
Ltac shapes c0 c := destruct c0 as [?|?|[]|?|?]; destruct c as [?|?|[]|?|?]; try contradiction.

Lemma step_new : forall tg h ar c h1 x t,
  Inv tg h -> halloc ar h c = (h1, x) ->
  (forall tg1, tg1 = set_tag tg x t -> Ext tg h tg1 h1 -> hget h1 x = Some c -> cell_ok_at tg1 h1 x) ->
  Step tg h (set_tag tg x t) h1.
Proof.
  intros * HI Ha Hok.
  destruct (hget_halloc_new _ _ _ _ _ _ Ha) as [Hnew Hold].
  assert (Tx : tg x = TFree) by (eapply inv_free; eauto).
  apply inv_frame with (W := [x]); auto.
  - intros a Hn. assert (a <> x) by (intros ->; apply Hn; left; reflexivity).
    rewrite set_tag_other by assumption. split; [reflexivity|]. eapply hgetv_halloc_old; eauto.
  - intros a [<-|[]] Fa. congruence.
  - intros y b [<-|[]] _ Ty. congruence.
  - intros HE a [<-|[]]. apply Hok; auto.
Qed.

Definition data_for (t : tag) (tg : tags) (h : mheap) (c : mcell) : Prop :=
  match t with TFrozen => frozen_ok tg h c | TOwned _ => data_ok tg h c | _ => False end.

Lemma wp_new_data : forall A (Q : A -> assertion) tg h c t (k : addr -> mprog A), data_for t tg h c ->
  (forall x h1, hget h x = None -> hget h1 x = Some c ->
     (forall y cy, hget h y = Some cy -> hget h1 y = Some cy) -> wp (k x) Q (set_tag tg x t) h1) ->
  wp (New c k) Q tg h.
Proof.
  intros * Hc Hk. apply wp_inv; intros HI. eapply wp_new; [|exact Hk]. intros ar x h1 Ha.
  eapply step_new; eauto. intros tg1 -> HE Hx.
  unfold cell_ok_at. rewrite set_tag_same. destruct t; try contradiction; exists c; (split; [assumption|]).
  - eapply frozen_ok_ext; eauto using cell_eqv_refl.
  - eapply data_ok_ext; eauto.
Qed.

Lemma step_write : forall tg h x c0 c,
  Inv tg h -> hget h x = Some c0 ->
  (tg x = TFrozen -> cell_eqv c0 c /\ exists r, c0 = CRdr r) ->
  (Ext tg h tg (hset h x c) -> cell_ok_at tg (hset h x c) x) ->
  (forall b, tg x = TOwned b -> keeps_owned tg h tg (hset h x c) b x) ->
  Step tg h tg (hset h x c).
Proof.
  intros * HI Hx Hf Hok Hk.
  apply inv_frame with (W := [x]); auto.
  - intros a Hn. assert (x <> a) by (intros ->; apply Hn; left; reflexivity).
    split; [reflexivity|]. apply hgetv_hset_other; assumption.
  - intros a [<-|[]] Fa. split; [assumption|]. destruct (Hf Fa) as [E R].
    apply hget_some in Hx. destruct Hx as [v Hx]. rewrite Hx. erewrite hgetv_hset_same by eauto.
    split; [assumption | right; assumption].
  - intros y b [<-|[]] _ Ty. auto.
  - intros HE a [<-|[]]. auto.
Qed.

Lemma keeps_owned_shape : forall tg h x c0 c b,
  tg x = TOwned b -> hget h x = Some c0 ->
  match c0, c with
  | CArr _, CArr _ | CMap _, CMap _ | CPtr (VScalar _), CPtr (VScalar _) => True
  | CPtr (VMapHdr _ _), CPtr (VMapHdr t g) =>
      slice_ok tg (hset h x c) (TOwned b) t /\ gomap_ok tg (hset h x c) (TOwned b) g
  | CPtr (VListHdr _), CPtr (VListHdr t) => slice_ok tg (hset h x c) (TOwned b) t
  | _, _ => False
  end ->
  keeps_owned tg h tg (hset h x c) b x.
Proof.
  intros * Tx Hx Hs. split; [assumption|]. rewrite Hx, (hget_hset_same _ _ _ c _ Hx).
  shapes c0 c; eauto; destruct Hs; eauto 8.
Qed.

Lemma wp_wr_data : forall A (Q : A -> assertion) tg h x b c0 c (k : mprog A),
  tg x = TOwned b -> hget h x = Some c0 ->
  match c0, c with
  | CArr _, CArr l => Forall (slot_ok tg h) l
  | CMap _, CMap es => Forall (fun kv => slot_ok tg h (snd kv)) es
  | CPtr (VScalar _), CPtr (VScalar _) => True
  | _, _ => False
  end ->
  (Step tg h tg (hset h x c) -> wp k Q tg (hset h x c)) -> wp (Wr x c k) Q tg h.
Proof.
  intros * Tx Hx Hc Hk. apply wp_inv; intros HI.
  assert (S : Step tg h tg (hset h x c)); [|eapply wp_wr; eauto].
  eapply step_write; eauto.
  - intros F; congruence.
  - intros HE. unfold cell_ok_at. rewrite Tx. exists c. split.
    + exact (hget_hset_same _ _ _ _ _ Hx).
    + shapes c0 c; cbn; try exact I; revert Hc; apply Forall_impl; intros; eapply slot_ok_ext; eauto.
  - intros b' Tx'. eapply keeps_owned_shape; eauto.
    shapes c0 c; auto.
Qed.

Lemma slice_ok_hset_ptr : forall tg h x v0 v own s, hget h x = Some (CPtr v0) ->
  slice_ok tg h own s -> slice_ok tg (hset h x (CPtr v)) own s.
Proof.
  unfold slice_ok; intros * Hx. destruct (s_arr s) as [a|]; [|auto]. intros [Ta [l Hl]]. split; [assumption|].
  exists l. rewrite hget_hset. destruct (addr_eqb x a) eqn:E; [|assumption].
  apply addr_eqb_eq in E; subst. congruence.
Qed.
Lemma gomap_ok_hset_ptr : forall tg h x v0 v own g, hget h x = Some (CPtr v0) ->
  gomap_ok tg h own g -> gomap_ok tg (hset h x (CPtr v)) own g.
Proof.
  unfold gomap_ok; intros * Hx. destruct g as [a|]; [|auto]. intros [Ta [l Hl]]. split; [assumption|].
  exists l. rewrite hget_hset. destruct (addr_eqb x a) eqn:E; [|assumption].
  apply addr_eqb_eq in E; subst. congruence.
Qed.

Lemma wp_wr_hdr : forall A (Q : A -> assertion) tg h s b c0 c (k : mprog A),
  tg s = TOwned b -> hget h s = Some c0 ->
  match c0, c with
  | CPtr (VMapHdr _ _), CPtr (VMapHdr t g) => slice_ok tg h (TOwned b) t /\ gomap_ok tg h (TOwned b) g
  | CPtr (VListHdr _), CPtr (VListHdr t) => slice_ok tg h (TOwned b) t
  | _, _ => False
  end ->
  (Step tg h tg (hset h s c) -> wp k Q tg (hset h s c)) -> wp (Wr s c k) Q tg h.
Proof.
  intros * Ts Hs Hc Hk. apply wp_inv; intros HI.
  assert (S : Step tg h tg (hset h s c)); [|eapply wp_wr; eauto].
  eapply step_write; eauto.
  - intros F; congruence.
  - intros HE. unfold cell_ok_at. rewrite Ts. exists c. split; [eapply hget_hset_same; eauto|].
    shapes c0 c; exact I.
  - intros b' Tx'. assert (b' = b) by congruence. subst b'.
    eapply keeps_owned_shape; eauto.
    shapes c0 c; [destruct Hc; split|]; eauto using slice_ok_hset_ptr, gomap_ok_hset_ptr.
Qed.

(* an assembler's well-formedness does not look at assembler cells, so [v] is as well-formed after the
   store as before *)
Lemma wp_wr_asm : forall A (Q : A -> assertion) tg h a c0 v (k : mprog A),
  tg a = TAsm -> hget h a = Some c0 -> asm_ok tg h a v ->
  (Step tg h tg (hset h a (CPtr v)) -> wp k Q tg (hset h a (CPtr v))) -> wp (wrv a v k) Q tg h.
Proof.
  intros * Ta Ha Hok Hk. apply wp_inv; intros HI.
  assert (S : Step tg h tg (hset h a (CPtr v))); [|eapply wp_wr; eauto].
  eapply step_write; eauto.
  - intros F; congruence.
  - intros HE. unfold cell_ok_at. rewrite Ta. exists v. split.
    + exact (hget_hset_same _ _ _ _ _ Ha).
    + eapply asm_ok_keep; eauto. intros y Ty. apply keeps_owned_untouched; [assumption | reflexivity|].
      apply hget_hset_other. neq.
  - intros b Tx. congruence.
Qed.

(* move a reader: the one kind of store a finished node sees *)
Lemma wp_wr_rdr : forall A (Q : A -> assertion) tg h x r r' (k : mprog A),
  tg x = TFrozen -> hget h x = Some (CRdr r) -> rdr_eqv r r' ->
  (Step tg h tg (hset h x (CRdr r')) -> wp k Q tg (hset h x (CRdr r'))) -> wp (Wr x (CRdr r') k) Q tg h.
Proof.
  intros * Tx Hx Hr Hk. apply wp_inv; intros HI.
  assert (S : Step tg h tg (hset h x (CRdr r'))); [|eapply wp_wr; eauto].
  apply (step_write tg h x (CRdr r) (CRdr r') HI Hx).
  - intros _. split; [exact Hr | eauto].
  - intros HE. unfold cell_ok_at. rewrite Tx. exists (CRdr r'). split.
    + exact (hget_hset_same _ _ _ _ _ Hx).
    + eapply frozen_ok_ext; eauto using inv_frozen_at.
  - intros b T. congruence.
Qed.

(* the store that finishes a node: the assembler a is rewritten and the cells xs it owned become frozen;
   what is left to show is that they are well formed as frozen cells and a as an assembler *)
Lemma step_freeze : forall tg h h' a v xs,
  Inv tg h -> tg a = TAsm -> (forall x, In x xs -> tg x = TOwned a) ->
  (forall x, x <> a -> ~ In x xs -> hgetv h' x = hgetv h x) ->
  hget h' a = Some (CPtr v) ->
  (Ext tg h (set_tags tg xs TFrozen) h' ->
     (forall x, In x xs -> exists c, hget h' x = Some c /\ frozen_ok (set_tags tg xs TFrozen) h' c) /\
     asm_ok (set_tags tg xs TFrozen) h' a v) ->
  Step tg h (set_tags tg xs TFrozen) h'.
Proof.
  intros * HI Ta Hxs Hh Ha Hok.
  apply inv_frame with (W := a :: xs); auto.
  - intros y Hn. assert (y <> a) by (intros ->; apply Hn; left; reflexivity).
    assert (~ In y xs) by (intros F; apply Hn; right; assumption).
    rewrite set_tags_out by assumption. auto.
  - intros y [<-|Hy] Fy; [|apply Hxs in Hy]; congruence.
  - intros y b [<-|Hy] Hb Ty; [congruence|]. apply Hxs in Hy. rewrite Hy in Ty. inversion Ty; subst b.
    exfalso. apply Hb. left; reflexivity.
  - intros HE. destruct (Hok HE) as [Hfz Hasm]. intros y [<-|Hy]; unfold cell_ok_at.
    + rewrite set_tags_out by (intros F; apply Hxs in F; congruence). rewrite Ta. eauto.
    + rewrite set_tags_in by assumption. auto.
Qed.
