(* Proofs/NodeBuild.v — every annotated legal script (Node/Protocol.v) runs on the model of the
   basicnode assemblers with exactly the annotated per-call results and builds a well-formed node
   whose abstract value is the value the script denotes.  C01_build_read and the C12 theorems are
   corollaries. *)
Require Import IP.Base.Bytes IP.DM.Value IP.Node.Basic IP.Node.Protocol IP.Proofs.BytesFacts.
Open Scope N_scope.

Lemma assoc_app : forall V k (l r : list (bytes * V)),
  assoc k (l ++ r) = match assoc k l with Some v => Some v | None => assoc k r end.
Proof.
  induction l as [|[k' v] l]; simpl; intros; auto. destruct (bytes_eqb k k'); auto.
Qed.

Lemma mem_key_assoc : forall V k (l : list (bytes * V)),
  mem_key k l = match assoc k l with Some _ => true | None => false end.
Proof. induction l as [|[k' v] l]; simpl; auto. destruct (bytes_eqb k k'); auto. Qed.

Definition pre (tr : list sres) (r : list sres * option state) : list sres * option state :=
  (tr ++ fst r, snd r).

Lemma pre_pre : forall a b r, pre a (pre b r) = pre (a ++ b) r.
Proof. intros. unfold pre. simpl. rewrite app_assoc. reflexivity. Qed.

Lemma run_tol_app : forall q ops s more,
  run_tol q s (ops ++ more) =
  match run_tol q s ops with
  | (tr, Some s') => pre tr (run_tol q s' more)
  | (tr, None) => (tr, None)
  end.
Proof.
  induction ops; intros; simpl.
  - destruct (run_tol q s more). reflexivity.
  - destruct (step q s a) eqn:E; auto; rewrite IHops;
      destruct (run_tol q s0 ops) as [tr [s'|]]; auto;
      unfold pre; simpl; destruct (run_tol q s' more); reflexivity.
Qed.

Definition runs (q : quirks) (s : state) (a : list ann) (s' : state) : Prop :=
  run_tol q s (map fst a) = (map snd a, Some s').

Lemma runs_nil : forall q s, runs q s [] s.
Proof. reflexivity. Qed.

Lemma runs_ok : forall q s o s1 a s',
  step q s o = OOk s1 -> runs q s1 a s' -> runs q s (ok o :: a) s'.
Proof. unfold runs. intros q s o s1 a s' H R. simpl. rewrite H, R. reflexivity. Qed.

Lemma runs_err : forall q s o e s1 a s',
  step q s o = OErr e s1 -> runs q s1 a s' -> runs q s ((o, SErr e) :: a) s'.
Proof. unfold runs. intros q s o e s1 a s' H R. simpl. rewrite H, R. reflexivity. Qed.

Lemma runs_app : forall q s a s1 b s',
  runs q s a s1 -> runs q s1 b s' -> runs q s (a ++ b) s'.
Proof.
  unfold runs. intros q s a s1 b s' Ha Hb. rewrite !map_app, run_tol_app, Ha, Hb. reflexivity.
Qed.

(* the form the roll-back theorems are stated in *)
Lemma runs_more : forall q s a s', runs q s a s' ->
  forall more, run_tol q s (map fst a ++ more) = pre (map snd a) (run_tol q s' more).
Proof. intros q s a s' H more. rewrite run_tol_app, H. reflexivity. Qed.

Lemma runs_tries : forall q s (P : ann -> Prop),
  (forall o c, P (o, c) -> exists e, c = SErr e /\ step q s o = OErr e s) ->
  forall tries, Forall P tries -> runs q s tries s.
Proof.
  intros q s P HP. induction 1 as [|[o c] tries Ha _ IH]; [apply runs_nil|].
  destruct (HP o c Ha) as (e & -> & Hs). apply (runs_err q s o e s); auto.
Qed.

Lemma runs_steps : forall q ops s s', runs q s (map ok ops) s' -> steps q s ops = OOk s'.
Proof.
  unfold runs. induction ops; simpl; intros s s' H.
  - inversion H; auto.
  - destruct (step q s a); try discriminate.
    + destruct (run_tol q s0 (map fst (map ok ops))) eqn:R. inversion H; subst. apply IHops. rewrite R. reflexivity.
    + destruct (run_tol q s0 (map fst (map ok ops))). discriminate.
Qed.

Definition accepts_any (f : frame) : Prop :=
  match f with
  | FRoot PAny | FMap _ _ (MaMidValue _) | FList _ LaMidValue => True
  | _ => False
  end.

(* [accepts_any] of the top frame, or a root of any prototype: where [deliver] hands a node on *)
Definition receives (stk : list frame) : Prop :=
  match stk with
  | FRoot _ :: _ | FMap _ _ (MaMidValue _) :: _ | FList _ LaMidValue :: _ => True
  | _ => False
  end.

Definition deliver_st (stk : list frame) (n : node) : state :=
  match stk with
  | FRoot p :: _ => SDone p n
  | FMap t m (MaMidValue k) :: r => SOpen (FMap (t ++ [(k, n)]) ((k, n) :: m) MaInitial :: r)
  | FList x LaMidValue :: r => SOpen (FList (x ++ [n]) LaInitial :: r)
  | _ => SOpen stk
  end.

Lemma deliver_receives : forall stk n, receives stk -> deliver stk n = OOk (deliver_st stk n).
Proof.
  intros [|[p|t m [| |k|k]|x []] r] n H; simpl in *; try contradiction; reflexivity.
Qed.

Lemma accepts_receives : forall top rest, accepts_any top -> receives (top :: rest).
Proof. intros [[]|t m []|x []] rest H; simpl in *; auto. Qed.

(* NodeAssembler calls *)
Definition is_node_op (o : aop) : bool :=
  match o with AssembleKey | AssembleValue | AssembleEntry _ | Finish => false | _ => true end.

Lemma step_value : forall q top rest o,
  accepts_any top -> is_node_op o = true ->
  step q (SOpen (top :: rest)) o = value_op (top :: rest) o.
Proof.
  intros q [[]|t m []|x []] rest o H Ho; simpl in H; try contradiction;
    destruct o; simpl in Ho; try discriminate; reflexivity.
Qed.

Lemma value_scalar : forall stk o n,
  scalar_of o = Some n -> value_op stk o = deliver stk n.
Proof. intros stk o n H. destruct o; simpl in H; inversion H; subst; reflexivity. Qed.

(* running [a] from [s] hands a well-formed node of value [v] to the assembler waiting at [stk] *)
Definition yields (q : quirks) (s : state) (a : list ann) (stk : list frame) (v : dm) : Prop :=
  exists n, runs q s a (deliver_st stk n) /\ abs n = v /\ wf n.

Lemma yields_one : forall q s o stk n v,
  step q s o = OOk (deliver_st stk n) -> abs n = v -> wf n -> yields q s [ok o] stk v.
Proof.
  intros q s o stk n v H Hn Hw. exists n. split; auto. apply (runs_ok q s o _ [] _ H), runs_nil.
Qed.

Lemma yields_app : forall q s a s1 b stk v,
  runs q s a s1 -> yields q s1 b stk v -> yields q s (a ++ b) stk v.
Proof.
  intros q s a s1 b stk v Ha (n & Hb & Hn). exists n. split; auto. apply (runs_app q s a s1); auto.
Qed.

Lemma yields_ok : forall q s o s1 a stk v,
  step q s o = OOk s1 -> yields q s1 a stk v -> yields q s (ok o :: a) stk v.
Proof.
  intros q s o s1 a stk v H (n & Ha & Hn). exists n. split; auto. apply (runs_ok q s o s1); auto.
Qed.

Lemma single_value : forall q top rest o n v,
  accepts_any top -> is_node_op o = true -> value_op (top :: rest) o = deliver (top :: rest) n ->
  abs n = v -> wf n -> yields q (SOpen (top :: rest)) [ok o] (top :: rest) v.
Proof.
  intros q top rest o n v Ha Ho Hv. apply yields_one.
  rewrite step_value, Hv by auto. apply deliver_receives, accepts_receives, Ha.
Qed.

Theorem key_bad_kind : forall q t m r o c,
  KeyTry (o, c) ->
  exists e, c = SErr e /\ step q (SOpen (FMap t m MaMidKey :: r)) o = OErr e (SOpen (FMap t m MaMidKey :: r)).
Proof.
  intros q t m r o c H. inversion H; subst.
  - exists EWrongKind. split; auto. destruct o; simpl in H1; try discriminate; reflexivity.
  - exists EOther. split; auto. simpl. rewrite H1. reflexivity.
Qed.

Lemma key_give_step : forall q t m r k g,
  KeyGive k g ->
  step q (SOpen (FMap t m MaMidKey :: r)) g =
  if mem_key k m then OErr ERepeatedKey (SOpen (FMap t m MaInitial :: r))
  else OOk (SOpen (FMap t m (MaExpectValue k) :: r)).
Proof. intros q t m r k g H. inversion H; subst; simpl; try rewrite H0; reflexivity. Qed.

Lemma dup_call_noop : forall q t m r k rej,
  DupCall k rej -> mem_key k m = true ->
  runs q (SOpen (FMap t m MaInitial :: r)) rej (SOpen (FMap t m MaInitial :: r)).
Proof.
  intros q t m r k rej Hd Hm. inversion Hd as [|tries g Ht Hg]; subst.
  - eapply runs_err; [|apply runs_nil]. simpl. rewrite Hm. reflexivity.
  - eapply runs_ok; [reflexivity|]. eapply runs_app.
    + apply (runs_tries q _ KeyTry (key_bad_kind q t m r)), Ht.
    + eapply runs_err; [|apply runs_nil]. rewrite (key_give_step q t m r k g Hg), Hm. reflexivity.
Qed.

Definition abs_entry (kv : bytes * node) : bytes * dm := (fst kv, abs (snd kv)).

(* the invariant of a plainMap__Assembler between two entries.  ks: keys accepted so far (newest
   first); t, m: its table and its lookup map (w.t, w.m) *)
Definition minv (ks : list bytes) (t m : list (bytes * node)) : Prop :=
  map fst t = rev ks /\ NoDup ks /\ (forall k, assoc k m = assoc k t) /\
  Forall (fun kv => wf (snd kv)) t.

Lemma minv_nil : minv [] [] [].
Proof. repeat split; simpl; auto. constructor. Qed.

Lemma minv_mem : forall ks t m k, minv ks t m -> (mem_key k m = true <-> In k ks).
Proof.
  intros ks t m k (Hk & _ & Ha & _).
  rewrite mem_key_assoc, Ha, <- mem_key_assoc, mem_key_In, Hk, <- in_rev. reflexivity.
Qed.

Lemma minv_mem_false : forall ks t m k, minv ks t m -> ~ In k ks -> mem_key k m = false.
Proof.
  intros. destruct (mem_key k m) eqn:E; auto. apply (minv_mem _ _ _ k H) in E. contradiction.
Qed.

Lemma minv_put : forall ks t m k n,
  minv ks t m -> ~ In k ks -> wf n -> minv (k :: ks) (t ++ [(k, n)]) ((k, n) :: m).
Proof.
  intros ks t m k n Hinv Hin Hwf. pose proof (minv_mem_false _ _ _ _ Hinv Hin) as Hm.
  rewrite mem_key_assoc in Hm. destruct Hinv as (Hk & Hn & Ha & Hw). repeat split.
  - rewrite map_app. simpl. rewrite Hk. reflexivity.
  - constructor; auto.
  - intros k0. simpl. rewrite assoc_app, <- Ha. simpl. destruct (bytes_eqb_spec k0 k) as [->|_].
    + destruct (assoc k m); [discriminate|reflexivity].
    + destruct (assoc k0 m); reflexivity.
  - apply Forall_app. split; auto.
Qed.

Lemma minv_wf : forall ks t m, minv ks t m -> wf (NMap t m).
Proof.
  intros ks t m (Hk & Hn & Ha & Hw). constructor; auto.
  rewrite Hk. apply NoDup_rev. auto.
Qed.

Definition builds (v : dm) : Prop :=
  forall aops, AScript v aops ->
  forall q top rest, accepts_any top -> yields q (SOpen (top :: rest)) aops (top :: rest) v.

Lemma list_body : forall l body,
  ListBody AScript l body -> Forall builds l ->
  forall q x stk, receives stk -> Forall wf x ->
  yields q (SOpen (FList x LaInitial :: stk)) body stk (DList (map abs x ++ l)).
Proof.
  induction 1; intros HP q x stk Hr Hx.
  - apply (yields_one q _ Finish stk (NList x)); [|simpl; rewrite app_nil_r; reflexivity|constructor; exact Hx].
    simpl. apply deliver_receives, Hr.
  - inversion HP as [|v0 rest0 Hv Hrest]; subst.
    destruct (Hv s H q (FList x LaMidValue) stk I) as (n & Hrun & <- & Hw).
    eapply yields_ok; [reflexivity|]. eapply yields_app; [exact Hrun|].
    specialize (IHListBody Hrest q (x ++ [n]) stk Hr). rewrite map_app, <- app_assoc in IHListBody.
    apply IHListBody, Forall_app. auto.
Qed.

Lemma map_body : forall ks rest body,
  MapBody AScript ks rest body -> Forall (fun kv => builds (snd kv)) rest ->
  forall q t m stk, minv ks t m -> receives stk ->
  yields q (SOpen (FMap t m MaInitial :: stk)) body stk (DMap (map abs_entry t ++ rest)).
Proof.
  induction 1; intros HP q t m stk Hinv Hr.
  - apply (yields_one q _ Finish stk (NMap t m)); [|simpl; rewrite app_nil_r; reflexivity|apply (minv_wf _ _ _ Hinv)].
    simpl. apply deliver_receives, Hr.
  - inversion HP as [|kv0 rest0 Hv Hrest]; subst. simpl in Hv.
    destruct (Hv s H0 q (FMap t m (MaMidValue k)) stk I) as (n & Hrun & <- & Hw).
    specialize (IHMapBody Hrest q _ _ stk (minv_put _ _ _ _ _ Hinv H Hw) Hr).
    rewrite map_app, <- app_assoc in IHMapBody.
    eapply yields_ok; [|eapply yields_app; [exact Hrun|exact IHMapBody]].
    simpl. rewrite (minv_mem_false _ _ _ _ Hinv H). reflexivity.
  - inversion HP as [|kv0 rest0 Hv Hrest]; subst. simpl in Hv.
    destruct (Hv s H2 q (FMap t m (MaMidValue k)) stk I) as (n & Hrun & <- & Hw).
    specialize (IHMapBody Hrest q _ _ stk (minv_put _ _ _ _ _ Hinv H Hw) Hr).
    rewrite map_app, <- app_assoc in IHMapBody.
    eapply yields_ok; [reflexivity|]. eapply yields_app.
    { apply (runs_tries q _ KeyTry (key_bad_kind q t m stk)), H0. }
    eapply yields_ok; [rewrite (key_give_step q t m stk k g H1), (minv_mem_false _ _ _ _ Hinv H); reflexivity|].
    eapply yields_ok; [reflexivity|]. eapply yields_app; [exact Hrun|exact IHMapBody].
  - apply (yields_app q _ [(AssembleEntry k, SErr ERepeatedKey)] (SOpen (FMap t m MaInitial :: stk))); auto.
    apply (dup_call_noop q t m stk k); [constructor|]. apply (minv_mem _ _ _ k Hinv), H.
  - change (ok AssembleKey :: tries ++ (g, SErr ERepeatedKey) :: body)
      with ((ok AssembleKey :: tries) ++ [(g, SErr ERepeatedKey)] ++ body).
    rewrite app_assoc. apply (yields_app q _ _ (SOpen (FMap t m MaInitial :: stk))); auto.
    apply (dup_call_noop q t m stk k); [constructor; auto|]. apply (minv_mem _ _ _ k Hinv), H.
Qed.

Theorem value_runs : forall v, builds v.
Proof.
  induction v using dm_ind2; intros aops HS q top rest Hacc.
  (* a script for v is a direct assignment, AssignNode of a node with that value, or, for lists and
     maps, Begin + body.  The first two are one call that delivers the node ([single_value]; the node
     is read off the call).  What remains are the two bodies, by [list_body] / [map_body] over the
     children's hypotheses. *)
  all: inversion HS; subst.
  all: try (eapply single_value; [exact Hacc|reflexivity|reflexivity|auto|first [assumption|constructor]]).
  - eapply yields_ok; [rewrite step_value; auto; reflexivity|].
    apply (list_body l body H1 H q [] (top :: rest) (accepts_receives _ _ Hacc)). constructor.
  - eapply yields_ok; [rewrite step_value; auto; reflexivity|].
    apply (map_body [] m body H1 H q [] [] (top :: rest) minv_nil (accepts_receives _ _ Hacc)).
Qed.

(* [builds] with the rest of the run spelled out (cf. [runs_more]); NodeRoot and the C12 theorems use
   [value_runs] and [runs_more] themselves *)
Definition VP (v : dm) : Prop :=
  forall aops, AScript v aops ->
  forall q top rest more, accepts_any top ->
  exists n, abs n = v /\ wf n /\
    run_tol q (SOpen (top :: rest)) (map fst aops ++ more) =
    pre (map snd aops) (run_tol q (deliver_st (top :: rest) n) more).

Theorem value_script : forall v, VP v.
Proof.
  intros v aops HS q top rest more Hacc.
  destruct (value_runs v aops HS q top rest Hacc) as (n & Hrun & Hn & Hw).
  exists n. split; [|split]; auto. apply runs_more, Hrun.
Qed.

Lemma node_value : forall n, wf n -> VP (abs n) -> True.
Proof. auto. Qed.
