(* Proofs/GoSort.v — the map-key comparison closures that codec/dagcbor/marshal.go (marshalMap) and
   codec/dagjson/marshal.go (Marshal) hand to sort.Slice, as translated from the current Go source by
   gotrans (Gen/FromGo.v), ARE the key orders the codec models sort by (Base/Bytes.v bytes_ltb, rfc_ltb).
   Re-checked against the source on every run: a comparator edited in the Go code no longer proves. *)
Require Import IP.Base.Bytes IP.Proofs.BytesFacts.
Require IP.Base.GoSem IP.Gen.FromGo.
From Coq Require Import Lia.

Lemma str_ltb_bytes a b : GoSem.str_ltb a b = bytes_ltb a b.
Proof.
  revert b; induction a as [|x a IH]; intros [|y b]; cbn [GoSem.str_ltb bytes_ltb]; try reflexivity.
  all: try (rewrite IH; reflexivity).
Qed.

Lemma str_eqb_bytes a b : GoSem.str_eqb a b = bytes_eqb a b.
Proof.
  revert b; induction a as [|x a IH]; intros [|y b]; cbn [GoSem.str_eqb bytes_eqb]; try reflexivity.
  all: try (rewrite IH; reflexivity).
Qed.

Lemma rfc_less_generic a b :
  (let '(li, lj) := (GoSem.len64 a, GoSem.len64 b) in
   if Z.eqb li lj then GoSem.str_ltb a b else Z.ltb li lj) = rfc_ltb a b.
Proof.
  unfold rfc_ltb, GoSem.len64. rewrite len_cmp_compare, str_ltb_bytes.
  destruct (Nat.compare_spec (length a) (length b)) as [E|L|G].
  - rewrite E, Z.eqb_refl. reflexivity.
  - destruct (Z.eqb_spec (Z.of_nat (length a)) (Z.of_nat (length b))); [lia|].
    destruct (Z.ltb_spec (Z.of_nat (length a)) (Z.of_nat (length b))); [reflexivity|lia].
  - destruct (Z.eqb_spec (Z.of_nat (length a)) (Z.of_nat (length b))); [lia|].
    destruct (Z.ltb_spec (Z.of_nat (length a)) (Z.of_nat (length b))); [lia|reflexivity].
Qed.

Theorem cbor_less_rfc7049_is_model a b : FromGo.go_cbor_less_rfc7049 a b = rfc_ltb a b.
Proof. exact (rfc_less_generic a b). Qed.
Theorem cbor_less_lexical_is_model a b : FromGo.go_cbor_less_lexical a b = bytes_ltb a b.
Proof. exact (str_ltb_bytes a b). Qed.
Theorem json_less_rfc7049_is_model a b : FromGo.go_json_less_rfc7049 a b = rfc_ltb a b.
Proof. exact (rfc_less_generic a b). Qed.
Theorem json_less_lexical_is_model a b : FromGo.go_json_less_lexical a b = bytes_ltb a b.
Proof. exact (str_ltb_bytes a b). Qed.
