(* Proofs/XformSeg.v — an int-stored path segment (datamodel.PathSegmentOfInt i, i >= 0) and the
   string-stored segment with its decimal rendering are the same thing to the model: the list index
   the model parses out of the rendering is i again (PathSegment.Index() returns i for the former). *)
Require Import IP.Base.Bytes IP.DM.Value IP.Xform.Transform.
Require IP.Proofs.Decimal.
Open Scope Z_scope.

(* this model's FormatInt is [Decimal.digits10] by conversion, and its digit parser accumulates
   [Decimal.dval] read in Z *)
Lemma digits_dval : forall s a, Forall Decimal.digit s -> digits s (Z.of_N a) = Some (Z.of_N (Decimal.dval s a)).
Proof.
  induction s as [|c r IH]; intros a H; [reflexivity|]. inversion H as [|? ? [H1 H2] Hr]; subst.
  cbn [digits Decimal.dval]. unfold digit. apply N.leb_le in H1, H2. rewrite H1, H2. cbn [andb].
  rewrite <- (IH _ Hr). f_equal. lia.
Qed.

Lemma parse_int_nosign d tl : (48 <= d)%N -> parse_int (d :: tl) = parse_body 1 (d :: tl).
Proof.
  intro H. unfold parse_int.
  destruct d as [|p]; [reflexivity|].
  (* the signs 43 and 45 have six binary digits: after six case splits the match on d has reduced, to the
     unsigned branch everywhere but at 43 and 45, which 48 <= d excludes *)
  do 6 (destruct p as [p|p|]; try reflexivity); lia.
Qed.

Theorem parse_int_dec i : 0 <= i < two63z -> parse_int (dec_of_Z i) = Some i.
Proof.
  intros [H0 H1].
  (* dec_of_Z renders with fuel 20, which digits10_spec 19 shows enough below 10^20; an int64 has 19 digits at most *)
  assert (Hb : (Z.to_N i < 10 ^ 20)%N) by (unfold two63z in H1; change (10 ^ 20)%N with 100000000000000000000%N; lia).
  destruct (Decimal.digits10_spec 19 _ [] Hb) as (d & D & E & Hd & HD & _ & _ & V).
  change (dec_of_Z i) with (Decimal.digits10 20 (Z.to_N i) []). rewrite E, app_nil_r, parse_int_nosign by lia.
  assert (Hds : Forall Decimal.digit ((48 + d)%N :: D)) by (constructor; [unfold Decimal.digit; lia | exact HD]).
  unfold parse_body. rewrite (digits_dval _ 0 Hds : digits _ 0 = _), V.
  rewrite Z.mul_1_l, Z2N.id by exact H0. unfold in_int64.
  assert (E1 : (- two63z <=? i) = true) by (apply Z.leb_le; unfold two63z; lia).
  assert (E2 : (i <? two63z) = true) by (apply Z.ltb_lt; lia).
  now rewrite E1, E2.
Qed.

Corollary xseg_int_is_index i : 0 <= i < two63z -> list_seg (xseg_string (SegI i)) = LIdx i.
Proof.
  intro H. unfold xseg_string, list_seg.
  assert (E : (i <? 0) = false) by (apply Z.ltb_ge; lia). rewrite E.
  now rewrite parse_int_dec.
Qed.
