(* What compile (the Parse* functions) returns is a closed declared selector. *)
Require Import IP.Base.Bytes IP.DM.Value IP.Base.GoSem IP.Trav.Selector IP.Proofs.TravSel IP.Proofs.TravSlice IP.Proofs.TravDenote.
From Coq Require Import Lia.
Open Scope Z_scope.

Lemma cbind_ok {A B} (r : cr A) (f : A -> cr B) x :
  cbind r f = COk x -> exists a, r = COk a /\ f a = COk x.
Proof. destruct r; cbn; try discriminate. eauto. Qed.

Ltac inv_cbind H :=
  repeat (let a := fresh "a" in let E := fresh "E" in
          apply cbind_ok in H; destruct H as (a & E & H)).

Lemma as_int_in64 v z : as_int v = Some z -> in64 z.
Proof.
  destruct v; try discriminate. cbn. unfold int64_lim, in64, two63.
  destruct (Z.leb_spec (-9223372036854775808) z0); destruct (Z.ltb_spec z0 9223372036854775808); cbn;
    intros E; inversion E; subst; lia.
Qed.

Lemma fields_wf b (rec : dm -> cr (sel * bool)) :
  (forall x se, rec x = COk se -> srcw b (fst se)) ->
  forall l r, compile_fields rec l = COk r -> Forall (fun kv => srcw b (snd kv)) (fst r).
Proof.
  intros Hrec. induction l as [|[fk x] t IH]; intros r H.
  - inversion H; subst. constructor.
  - cbn [compile_fields] in H. inv_cbind H. inversion H; subst. cbn. constructor; [cbn; eauto|eauto].
Qed.

Lemma members_wf b (rec : dm -> cr (sel * bool)) :
  (forall x se, rec x = COk se -> srcw b (fst se)) ->
  forall l r, compile_members rec l = COk r -> Forall (srcw b) (fst r).
Proof.
  intros Hrec. induction l as [|x t IH]; intros r H.
  - inversion H; subst. constructor.
  - cbn [compile_members] in H. inv_cbind H. inversion H; subst. cbn. constructor; eauto.
Qed.

Lemma compile_f_wf : forall fuel inrec v se, compile_f fuel inrec v = COk se -> srcw inrec (fst se).
Proof.
  induction fuel as [|f IH]; intros inrec v se H; [discriminate|].
  destruct v; try discriminate. destruct m as [|[k body] [|? ?]]; try discriminate. cbn [compile_f] in H.
  destruct (bytes_eqb k k_fields).
  { inv_cbind H. inversion H; subst. cbn. constructor. eapply fields_wf; [|eassumption]. intros; eapply IH; eauto. }
  destruct (bytes_eqb k k_all).
  { inv_cbind H. inversion H; subst. cbn. constructor. eapply IH; eauto. }
  destruct (bytes_eqb k k_index).
  { inv_cbind H. inversion H; subst. cbn. constructor. eapply IH; eauto. }
  destruct (bytes_eqb k k_range).
  { inv_cbind H. destruct (_ <=? _) in H; [discriminate|]. inv_cbind H. inversion H; subst. cbn.
    constructor. eapply IH; eauto. }
  destruct (bytes_eqb k k_union).
  { destruct body; try discriminate. inv_cbind H. inversion H; subst. cbn. constructor.
    eapply members_wf; [|eassumption]. intros; eapply IH; eauto. }
  destruct (bytes_eqb k k_rec).
  { inv_cbind H. destruct (negb _) in H; [discriminate|].
    destruct (assoc k_stop _) in H.
    - inv_cbind H. inversion H; subst. cbn. constructor. eapply IH; eauto.
    - inversion H; subst. cbn. constructor. eapply IH; eauto. }
  destruct (bytes_eqb k k_edge).
  { inv_cbind H. destruct inrec; [|discriminate]. inversion H; subst. constructor. }
  destruct (bytes_eqb k k_interp); [discriminate|].
  destruct (bytes_eqb k k_matcher); [|discriminate].
  inv_cbind H. inversion H; subst. cbn.
  unfold parse_matcher in *. destruct body; try discriminate.
  destruct (assoc k_subset m) as [sv|]; [|inversion E; subst; constructor; exact I].
  destruct sv; try discriminate.
  destruct (assoc k_from m0) as [fv|]; [|discriminate].
  destruct (as_int fv) as [fromN|] eqn:Ef; [|discriminate].
  destruct (assoc k_to m0) as [tv|]; [|discriminate].
  destruct (as_int tv) as [toN|] eqn:Et; [|discriminate].
  destruct ((0 <=? toN) && (toN <? fromN))%bool; [discriminate|].
  inversion E; subst. constructor. split; eapply as_int_in64; eassumption.
Qed.

Theorem compile_wf v s : compile v = COk s -> srcw false s.
Proof.
  unfold compile. intros H. apply cbind_ok in H. destruct H as (se & E & H). inversion H; subst.
  eapply compile_f_wf; eauto.
Qed.
