(* Proofs/JsonTok.v — the refmt tokenizer model run on the text of a JSON syntax tree yields
   exactly the tree's token sequence (with the stack discipline of Decoder.Step). *)
Require Import IP.Base.Bytes IP.DM.Value IP.Codec.Utf8 IP.Codec.Base64 IP.Codec.DagJson.
Require Import IP.Proofs.BytesFacts IP.Proofs.JsonUtf8 IP.Proofs.JsonString IP.Proofs.JsonInt.
From Coq Require Import ZifyN ZifyNat ZifyBool.
Open Scope N_scope.

(* JSON syntax trees: what Marshal asks the encoder to write *)
Inductive js :=
| JNull | JBool (b : bool) | JNum (t : bytes) (k : tok) | JStr (s : bytes)
| JArr (l : list js) | JObj (m : list (bytes * js)).

Section js_ind2.
  Variable P : js -> Prop.
  Hypothesis Hn : P JNull.
  Hypothesis Hb : forall b, P (JBool b).
  Hypothesis Hnum : forall t k, P (JNum t k).
  Hypothesis Hs : forall s, P (JStr s).
  Hypothesis Hl : forall l, Forall P l -> P (JArr l).
  Hypothesis Hm : forall m, Forall (fun kv => P (snd kv)) m -> P (JObj m).
  Fixpoint js_ind2 (x : js) : P x :=
    match x with
    | JNull => Hn | JBool b => Hb b | JNum t k => Hnum t k | JStr s => Hs s
    | JArr l => Hl l ((fix go (l : list js) : Forall P l :=
        match l with [] => Forall_nil _ | y :: r => Forall_cons _ (js_ind2 y) (go r) end) l)
    | JObj m => Hm m ((fix go (m : list (bytes * js)) : Forall (fun kv => P (snd kv)) m :=
        match m with [] => Forall_nil _ | kv :: r => Forall_cons _ (js_ind2 (snd kv)) (go r) end) m)
    end.
End js_ind2.

Definition entry_text (jt : js -> bytes) (kv : bytes * js) : bytes := emit_string (fst kv) ++ 58 :: jt (snd kv).

Fixpoint jtext (x : js) : bytes :=
  match x with
  | JNull => [110; 117; 108; 108]
  | JBool true => [116; 114; 117; 101]
  | JBool false => [102; 97; 108; 115; 101]
  | JNum t _ => t
  | JStr s => emit_string s
  | JArr l => 91 :: join_comma (map jtext l) ++ [93]
  | JObj m => 123 :: join_comma (map (entry_text jtext) m) ++ [125]
  end.

Fixpoint jtoks (x : js) : list tok :=
  match x with
  | JNull => [TNull]
  | JBool b => [TBool b]
  | JNum _ k => [k]
  | JStr s => [TString s]
  | JArr l => TArrOpen :: flat_map jtoks l ++ [TArrClose]
  | JObj m => TMapOpen :: flat_map (fun kv => TString (fst kv) :: jtoks (snd kv)) m ++ [TMapClose]
  end.

Section Tok.
  Variable parse_float : bytes -> option N.

  Definition num_ok (t : bytes) (k : tok) : Prop :=
    exists mb r, t = mb :: r /\ (mb = 45 \/ digit_c mb) /\
      (forall rest, delim_ok rest -> num_scan (num_start mb) (r ++ rest) = (r, rest)) /\
      num_token parse_float t = Ok k.

  Fixpoint js_ok (x : js) : Prop :=
    match x with
    | JNum t k => num_ok t k
    | JStr s => str_ok s
    | JArr l => (fix go (l : list js) : Prop := match l with [] => True | y :: r => js_ok y /\ go r end) l
    | JObj m => (fix go (m : list (bytes * js)) : Prop :=
                   match m with [] => True | kv :: r => str_ok (fst kv) /\ js_ok (snd kv) /\ go r end) m
    | _ => True
    end.

  Lemma js_ok_arr l : js_ok (JArr l) <-> Forall js_ok l.
  Proof. apply all_Forall. Qed.

  Lemma js_ok_obj m : js_ok (JObj m) <-> Forall (fun kv => str_ok (fst kv) /\ js_ok (snd kv)) m.
  Proof.
    cbn [js_ok]. induction m as [|y r IH]; [split; auto|]. split.
    - intros (H1 & H2 & H3). constructor; [split; assumption|now apply IH].
    - intros H. inversion H as [|? ? [H1 H2] H3]; subst. repeat split; try assumption. now apply IH.
  Qed.

  Inductive Yields : tstate -> bytes -> list tok -> tstate -> bytes -> Prop :=
  | Y_nil ts bs : Yields ts bs [] ts bs
  | Y_cons ts bs k ts1 bs1 L ts2 bs2 :
      tstep parse_float ts bs = Ok (k, ts1, bs1) -> Yields ts1 bs1 L ts2 bs2 -> Yields ts bs (k :: L) ts2 bs2.

  Lemma Yields_app ts bs L1 ts1 bs1 L2 ts2 bs2 :
    Yields ts bs L1 ts1 bs1 -> Yields ts1 bs1 L2 ts2 bs2 -> Yields ts bs (L1 ++ L2) ts2 bs2.
  Proof. induction 1; intros; cbn [app]; [assumption|econstructor; eauto]. Qed.

  Lemma Yields_one ts bs k ts1 bs1 : tstep parse_float ts bs = Ok (k, ts1, bs1) -> Yields ts bs [k] ts1 bs1.
  Proof. intros. econstructor; [eassumption|constructor]. Qed.

  Definition st (S : list frame) (F : frame) : tstate := {| ts_stk := S; ts_frm := F |}.

  Inductive ctx := CMap | CArr (some : bool).
  Definition ctx_frm (c : ctx) : frame := match c with CMap => (PMapVal, false) | CArr s => (PArr, s) end.
  Definition ctx_pre (c : ctx) : bytes := match c with CArr true => [44] | _ => [] end.
  Definition ctx_after (c : ctx) : frame := match c with CMap => (PMapKey, true) | CArr _ => (PArr, true) end.

  Definition head_ok (mb : N) : Prop := is_ws mb = false /\ mb <> 93.

  Lemma tstep_ctx c S mb r : head_ok mb ->
    tstep parse_float (st S (ctx_frm c)) (ctx_pre c ++ mb :: r)
    = match accept_kv parse_float (st S (ctx_after c)) mb r with
      | Ok (k, ts', r', _) => Ok (k, ts', r')
      | Err e => Err e
      end.
  Proof.
    intros (Hw & H93). apply N.eqb_neq in H93. unfold tstep.
    destruct c as [|[|]]; cbn [ctx_pre ctx_frm ctx_after app skip_ws st ts_frm is_ws N.eqb Pos.eqb orb];
      now rewrite Hw, ?H93.
  Qed.

  Lemma tstep_top mb r : is_ws mb = false ->
    tstep parse_float ts_init (mb :: r)
    = match accept_kv parse_float ts_init mb r with Ok x => Ok (finish_step x) | Err e => Err e end.
  Proof. intros Hw. unfold tstep. cbn [skip_ws]. now rewrite Hw. Qed.

  Lemma accept_string ts s rest : str_ok s ->
    accept_kv parse_float ts 34 (emit_body (length s) s ++ 34 :: rest) = Ok (TString s, ts, rest, true).
  Proof. intros Hs. unfold accept_kv. cbn [N.eqb Pos.eqb]. now rewrite string_roundtrip. Qed.

  Lemma accept_number ts mb r : mb = 45 \/ digit_c mb ->
    accept_kv parse_float ts mb r =
    let '(t, r') := num_scan (num_start mb) r in
    match num_token parse_float (mb :: t) with Ok k => Ok (k, ts, r', true) | Err e => Err e end.
  Proof.
    unfold digit_c, accept_kv, is_digit. intros H.
    replace (mb =? 123) with false by lia. replace (mb =? 91) with false by lia.
    replace (mb =? 110) with false by lia. replace (mb =? 34) with false by lia.
    replace (mb =? 102) with false by lia. replace (mb =? 116) with false by lia.
    now replace ((mb =? 45) || (48 <=? mb) && (mb <=? 57)) with true by lia.
  Qed.

  Lemma number_head_ok mb : mb = 45 \/ digit_c mb -> head_ok mb.
  Proof. unfold digit_c, head_ok, is_ws. lia. Qed.

  Definition is_scalar (x : js) : Prop := match x with JArr _ | JObj _ => False | _ => True end.

  Lemma accept_scalar x ts rest : is_scalar x -> js_ok x -> delim_ok rest ->
    exists mb r k, jtext x ++ rest = mb :: r /\ head_ok mb /\ jtoks x = [k] /\
                   accept_kv parse_float ts mb r = Ok (k, ts, rest, true).
  Proof.
    intros Sc Ok Dl. destruct x as [|b|t k|s|l|m]; try contradiction.
    - exists 110, ([117; 108; 108] ++ rest), TNull. repeat split; try (intro; discriminate).
    - destruct b.
      + exists 116, ([114; 117; 101] ++ rest), (TBool true). repeat split; try (intro; discriminate).
      + exists 102, ([97; 108; 115; 101] ++ rest), (TBool false). repeat split; try (intro; discriminate).
    - destruct Ok as (mb & r & -> & Hmb & Hscan & Htok).
      exists mb, (r ++ rest), k. split; [reflexivity|]. split; [now apply number_head_ok|]. split; [reflexivity|].
      now rewrite accept_number, (Hscan rest Dl), Htok.
    - exists 34, (emit_body (length s) s ++ 34 :: rest), (TString s). cbn [jtext jtoks].
      split; [unfold emit_string; cbn [app]; now rewrite <- app_assoc|].
      split; [repeat split; intro; discriminate|]. split; [reflexivity|now apply accept_string].
  Qed.

  (* Decoder.Step pops the frame of a closed composite unless it is the outermost one *)
  Lemma tstep_arr_close F S b rest :
    tstep parse_float (st (F :: S) (PArr, b)) (93 :: rest)
    = Ok (TArrClose, match S with [] => st [F] (PArr, b) | _ => st S F end, rest).
  Proof. destruct S, b; reflexivity. Qed.

  Lemma tstep_map_close F S b rest :
    tstep parse_float (st (F :: S) (PMapKey, b)) (125 :: rest)
    = Ok (TMapClose, match S with [] => st [F] (PMapKey, b) | _ => st S F end, rest).
  Proof. destruct S, b; reflexivity. Qed.

  Lemma tstep_key S some k Z : str_ok k ->
    tstep parse_float (st S (PMapKey, some)) ((if some then [44] else []) ++ emit_string k ++ 58 :: Z)
    = Ok (TString k, st S (PMapVal, false), Z).
  Proof.
    intros Hk. pose proof (accept_string (st S (PMapKey, true)) k (58 :: Z) Hk) as A.
    unfold emit_string. cbn [app]. rewrite <- app_assoc. cbn [app].
    unfold tstep, st in *.
    destruct some; cbn [app skip_ws is_ws N.eqb Pos.eqb orb ts_frm]; unfold set_frm; cbn [ts_stk]; now rewrite A.
  Qed.

  Lemma join_comma_cons2 (x y : bytes) l : join_comma (x :: y :: l) = x ++ 44 :: join_comma (y :: l).
  Proof. reflexivity. Qed.

  Definition InCtx (x : js) : Prop :=
    forall c S rest, S <> [] -> delim_ok rest ->
      Yields (st S (ctx_frm c)) (ctx_pre c ++ jtext x ++ rest) (jtoks x) (st S (ctx_after c)) rest.

  Definition Item {A} (text : A -> bytes) (toks : A -> list tok) (ph : phase) (S : list frame) (a : A) : Prop :=
    forall some rest, delim_ok rest ->
      Yields (st S (ph, some)) ((if some then [44] else []) ++ text a ++ rest) (toks a) (st S (ph, true)) rest.

  Lemma items_yield {A} (text : A -> bytes) (toks : A -> list tok) ph cl S : cl = 93 \/ cl = 125 ->
    forall l, Forall (Item text toks ph S) l -> l <> [] -> forall some rest,
    Yields (st S (ph, some)) ((if some then [44] else []) ++ join_comma (map text l) ++ cl :: rest)
           (flat_map toks l) (st S (ph, true)) (cl :: rest).
  Proof.
    intros Hcl. induction 1 as [|a l Ha _ IH]; intros NE some rest; [congruence|].
    destruct l as [|b l'].
    - cbn [map join_comma flat_map]. rewrite app_nil_r. apply Ha. cbn. tauto.
    - cbn [map]. rewrite join_comma_cons2. cbn [flat_map]. rewrite <- app_assoc.
      eapply Yields_app; [apply Ha; cbn; auto|]. apply (IH ltac:(discriminate) true).
  Qed.

  Lemma body_yield {A} (text : A -> bytes) (toks : A -> list tok) ph cl S : cl = 93 \/ cl = 125 ->
    forall l, Forall (Item text toks ph S) l -> forall rest,
    Yields (st S (ph, false)) (join_comma (map text l) ++ cl :: rest) (flat_map toks l)
           (st S (ph, match l with [] => false | _ => true end)) (cl :: rest).
  Proof.
    intros Hcl l H rest. destruct l as [|a l]; [constructor|].
    apply (items_yield text toks ph cl S Hcl _ H ltac:(discriminate) false).
  Qed.

  Definition entry_toks (kv : bytes * js) : list tok := TString (fst kv) :: jtoks (snd kv).

  Lemma arr_items S l : S <> [] -> Forall InCtx l -> Forall (Item jtext jtoks PArr S) l.
  Proof.
    intros HS. apply Forall_impl. intros y H some rest Dl. destruct some; exact (H (CArr _) S rest HS Dl).
  Qed.

  Lemma obj_items S m : S <> [] -> Forall (fun kv => str_ok (fst kv) /\ InCtx (snd kv)) m ->
    Forall (Item (entry_text jtext) entry_toks PMapKey S) m.
  Proof.
    intros HS. apply Forall_impl. intros kv [Hk Hv] some rest Dl.
    unfold entry_text, entry_toks. rewrite <- app_assoc. cbn [app].
    econstructor; [now apply tstep_key|exact (Hv CMap S rest HS Dl)].
  Qed.

  Lemma scalar_in_ctx x : is_scalar x -> js_ok x -> InCtx x.
  Proof.
    intros Sc Ok c S rest HS Dl.
    destruct (accept_scalar x (st S (ctx_after c)) rest Sc Ok Dl) as (mb & r & k & E & Hh & Tk & A).
    rewrite E, Tk. apply Yields_one. rewrite tstep_ctx by assumption. now rewrite A.
  Qed.

  Theorem tok_value x : js_ok x -> InCtx x.
  Proof.
    induction x as [| | | |l IH|m IH] using js_ind2; intros Ok.
    1-4: apply scalar_in_ctx; [exact I|assumption].
    - assert (Hl : Forall InCtx l).
      { apply js_ok_arr in Ok. rewrite Forall_forall in *. auto. }
      intros c S rest HS Dl. cbn [jtext jtoks]. cbn [app]. rewrite <- app_assoc. cbn [app].
      econstructor.
      + rewrite (tstep_ctx c S 91) by (repeat split; intro; discriminate). reflexivity.
      + eapply Yields_app.
        * apply (body_yield jtext jtoks PArr 93 (ctx_after c :: S)); [auto|]. apply arr_items; [discriminate|exact Hl].
        * apply Yields_one. rewrite tstep_arr_close. destruct S; [contradiction|reflexivity].
    - assert (Hm : Forall (fun kv => str_ok (fst kv) /\ InCtx (snd kv)) m).
      { apply js_ok_obj in Ok. rewrite Forall_forall in *. intros kv Hkv. destruct (Ok kv Hkv). auto. }
      intros c S rest HS Dl. cbn [jtext jtoks]. cbn [app]. rewrite <- app_assoc. cbn [app].
      econstructor.
      + rewrite (tstep_ctx c S 123) by (repeat split; intro; discriminate). reflexivity.
      + eapply Yields_app.
        * apply (body_yield (entry_text jtext) entry_toks PMapKey 125 (ctx_after c :: S)); [auto|].
          apply obj_items; [discriminate|exact Hm].
        * apply Yields_one. rewrite tstep_map_close. destruct S; [contradiction|reflexivity].
  Qed.
End Tok.

Section TokTop.
  Variable parse_float : bytes -> option N.

  (* at the top the frame of a closed composite is not popped: the outermost value is not an instance of tok_value *)
  Theorem tok_top x rest : js_ok parse_float x -> delim_ok rest ->
    exists ts', Yields parse_float ts_init (jtext x ++ rest) (jtoks x) ts' rest.
  Proof.
    intros Ok Dl. destruct x as [|b|t k|s|l|m].
    1-4: match goal with |- context[jtext ?x] =>
           destruct (accept_scalar parse_float x ts_init rest I Ok Dl) as (mb & r & k' & E & (Hw & _) & Tk & A);
           exists ts_init; rewrite E, Tk; apply Yields_one; rewrite tstep_top by assumption; now rewrite A end.
    - assert (Hl : Forall (InCtx parse_float) l).
      { apply js_ok_arr in Ok. eapply Forall_impl; [|exact Ok]. intros y. apply tok_value. }
      eexists. cbn [jtext jtoks app]. rewrite <- app_assoc. econstructor; [reflexivity|]. eapply Yields_app.
      + apply (body_yield parse_float jtext jtoks PArr 93 [(PValue, false)]); [auto|].
        apply arr_items; [discriminate|exact Hl].
      + apply Yields_one. apply tstep_arr_close.
    - assert (Hm : Forall (fun kv => str_ok (fst kv) /\ InCtx parse_float (snd kv)) m).
      { apply js_ok_obj in Ok. eapply Forall_impl; [|exact Ok]. intros kv [Hk Hv]. split; [assumption|]. now apply tok_value. }
      eexists. cbn [jtext jtoks app]. rewrite <- app_assoc. econstructor; [reflexivity|]. eapply Yields_app.
      + apply (body_yield parse_float (entry_text jtext) entry_toks PMapKey 125 [(PValue, false)]); [auto|].
        apply obj_items; [discriminate|exact Hm].
      + apply Yields_one. apply tstep_map_close.
  Qed.
End TokTop.
