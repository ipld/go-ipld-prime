(* Every basicnode operation of Heap/BasicHeap.v preserves the ownership invariant and respects frozen
   cells (one lemma [pre -> wp op post tg h] per operation; most need no precondition).  The few
   preconditions are exactly what [legal] demands: Begin* only on an unfinished assembler, Assign only
   on a scalar builder that is not done and Build only on one that is (HeapPrims.v), node and slice
   arguments that the library handed out. *)
Require Import IP.Base.Bytes IP.DM.Value IP.Gen.FromGo IP.Heap.GoMem IP.Heap.BasicHeap.
Require Import IP.Proofs.BytesFacts IP.Proofs.HeapMem IP.Proofs.HeapLogic IP.Proofs.HeapSteps IP.Proofs.HeapFro.
From Coq Require Import List Arith Bool Lia ZArith.
Import ListNotations.
Local Open Scope nat_scope.

Lemma Forall_upd : forall A (P : A -> Prop) n l x, Forall P l -> P x -> Forall P (upd n l x).
Proof.
  induction n; destruct l; cbn; intros x HF Hx; auto; inversion HF; subst; constructor; auto.
Qed.

Lemma Forall_repeat : forall A (P : A -> Prop) x n, P x -> Forall P (repeat x n).
Proof. induction n; cbn; intros; constructor; auto. Qed.

Lemma Forall_map_set : forall (P : val -> Prop) es k v,
  Forall (fun kv => P (snd kv)) es -> P v -> Forall (fun kv : bytes * val => P (snd kv)) (map_set es k v).
Proof.
  induction es as [|[k' v'] es IH]; cbn; intros k v HF Hv.
  - constructor; auto.
  - inversion HF; subst. destruct (bytes_eqb k k'); constructor; auto.
Qed.

Lemma Forall_map_get : forall (P : val -> Prop) es k v,
  Forall (fun kv : bytes * val => P (snd kv)) es -> map_get es k = Some v -> P v.
Proof.
  induction es as [|[k' v'] es IH]; cbn; intros k v HF Hg; [discriminate|].
  inversion HF; subst. destruct (bytes_eqb k k'); [inversion Hg; subst; assumption | eauto].
Qed.

Lemma mst_eqb_eq : forall a b, mst_eqb a b = true <-> a = b.
Proof. split; [destruct a, b; (reflexivity || discriminate) | intros ->; destruct b; reflexivity]. Qed.
Lemma lst_eqb_eq : forall a b, lst_eqb a b = true <-> a = b.
Proof. split; [destruct a, b; (reflexivity || discriminate) | intros ->; destruct b; reflexivity]. Qed.

Lemma val_masm_asm : forall v m, val_masm v = Some m -> is_asm_val v.
Proof. destruct v; cbn; intros; try discriminate; exact I. Qed.
Lemma val_lasm_asm : forall v l, val_lasm v = Some l -> is_asm_val v.
Proof. destruct v; cbn; intros; try discriminate; exact I. Qed.

Lemma asm_masm_ok : forall tg h a v m, asm_ok tg h a v -> val_masm v = Some m -> masm_ok tg h a m.
Proof. destruct v; cbn; intros m0 H E; inversion E; subst; tauto. Qed.
Lemma asm_lasm_ok : forall tg h a v l, asm_ok tg h a v -> val_lasm v = Some l -> lasm_ok tg h a l.
Proof. destruct v; cbn; intros l0 H E; inversion E; subst; tauto. Qed.

Lemma asm_with_masm : forall tg h a v m m', asm_ok tg h a v -> val_masm v = Some m -> masm_ok tg h a m' ->
  m_w m' = m_w m -> asm_ok tg h a (val_with_masm v m').
Proof. destruct v; cbn; intros m0 m' H E Hm Hw; inversion E; subst; try tauto. rewrite Hw. tauto. Qed.
Lemma asm_with_lasm : forall tg h a v l l', asm_ok tg h a v -> val_lasm v = Some l -> lasm_ok tg h a l' ->
  l_w l' = l_w l -> asm_ok tg h a (val_with_lasm v l').
Proof. destruct v; cbn; intros l0 l' H E Hm Hw; inversion E; subst; try tauto. rewrite Hw. tauto. Qed.

(* Finish: the assembler had a struct, so an anyBuilder's other half has none and says nothing about the state *)
Lemma asm_finish_m : forall tg h a v m s tg' h' t g, asm_ok tg h a v -> val_masm v = Some m ->
  m_w m = Some s -> m_st m = MInitial -> Ext tg h tg' h' -> tg' s = TFrozen -> hget h' s = Some (CPtr (VMapHdr t g)) ->
  asm_ok tg' h' a (val_with_masm v (set_mst m MFinished)).
Proof.
  intros * H E Ws St HE Tf Gs.
  assert (Hm : masm_ok tg' h' a (set_mst m MFinished)).
  { destruct (asm_masm_ok _ _ _ _ _ H E) as (Hka & Hva & _). unfold masm_ok; cbn. rewrite Ws.
    split; [intros F; apply Hka in F; congruence|]. split; [intros F; apply Hva in F; congruence | eauto]. }
  destruct v; inversion E; subst; auto.
  destruct H as (_ & (Hl & _) & Hs & [Hd|Hd] & Hk); [congruence|].
  split; [assumption|]. split; [unfold lasm_ok; rewrite Hd; auto|]. split; [eapply fref_ext; eauto|].
  split; [auto|]. intros Ek. destruct (Hk Ek). congruence.
Qed.
Lemma asm_finish_l : forall tg h a v l s tg' h' x, asm_ok tg h a v -> val_lasm v = Some l ->
  l_w l = Some s -> l_st l = LInitial -> Ext tg h tg' h' -> tg' s = TFrozen -> hget h' s = Some (CPtr (VListHdr x)) ->
  asm_ok tg' h' a (val_with_lasm v {| l_w := l_w l; l_va := l_va l; l_st := LFinished |}).
Proof.
  intros * H E Ws St HE Tf Gs.
  assert (Hl : lasm_ok tg' h' a {| l_w := l_w l; l_va := l_va l; l_st := LFinished |}).
  { destruct (asm_lasm_ok _ _ _ _ _ H E) as (Hva & _). unfold lasm_ok; cbn. rewrite Ws.
    split; [intros F; apply Hva in F; congruence | eauto]. }
  destruct v; inversion E; subst; auto.
  destruct H as ((Hka & Hva & _) & _ & Hs & [Hd|Hd] & Hk); [|congruence].
  split; [unfold masm_ok; rewrite Hd; auto|]. split; [assumption|]. split; [eapply fref_ext; eauto|].
  split; [auto|]. intros Ek. destruct (Hk Ek). congruence.
Qed.

(* what append leaves behind: no cell that existed is retagged, arrays stay arrays, every other cell keeps
   its content; so slices and maps that were well formed still are (quiet_slice, quiet_gomap) *)
Definition quiet (tg : tags) (h : mheap) (tg' : tags) (h' : mheap) : Prop :=
  (forall x, tg x <> TFree -> tg' x = tg x) /\
  (forall x c, hget h x = Some c -> (forall l, c <> CArr l) -> hget h' x = Some c) /\
  (forall x l, hget h x = Some (CArr l) -> exists l', hget h' x = Some (CArr l')).

Lemma quiet_slice : forall tg h tg' h' own s, quiet tg h tg' h' -> own <> TFree ->
  slice_ok tg h own s -> slice_ok tg' h' own s.
Proof.
  unfold slice_ok; intros * (Q1 & Q2 & Q3) Ho. destruct (s_arr s) as [a|]; [|auto].
  intros [Ta [l Hl]]. split; [rewrite Q1; congruence | eauto].
Qed.
Lemma quiet_gomap : forall tg h tg' h' own g, quiet tg h tg' h' -> own <> TFree ->
  gomap_ok tg h own g -> gomap_ok tg' h' own g.
Proof.
  unfold gomap_ok; intros * (Q1 & Q2 & Q3) Ho. destruct g as [a|]; [|auto].
  intros [Ta [l Hl]]. split; [rewrite Q1; congruence |]. exists l. apply Q2; [assumption | discriminate].
Qed.

Definition tt_post {A} : A -> assertion := fun _ _ _ => True.

Lemma wp_asm_done : forall tg h a v0 v (x : pout),
  hget h a = Some (CPtr v0) -> is_asm_val v0 -> asm_ok tg h a v -> wp (wrv a v (Ret x)) tt_post tg h.
Proof.
  intros * Ga Hv Hok. apply wp_inv; intros HI.
  eapply wp_wr_asm; [exact (proj1 (inv_asm _ _ _ _ HI Ga Hv)) | exact Ga | exact Hok | intros; apply wp_ret; exact I].
Qed.

Lemma wp_append1 : forall tg h gr zero s v b,
  slice_ok tg h (TOwned b) s -> slot_ok tg h zero -> slot_ok tg h v ->
  wp (append1 gr zero s v) (fun s' tg' h' => quiet tg h tg' h' /\ slice_ok tg' h' (TOwned b) s') tg h.
Proof.
  intros * Hs Hz Hv. apply wp_inv; intros HI. unfold append1. unfold slice_ok in Hs.
  assert (Hnew : forall l (f : addr -> slice), Forall (slot_ok tg h) l -> (forall x, s_arr (f x) = Some x) ->
            wp (New (CArr l) (fun x => Ret (f x)))
               (fun s' tg' h' => quiet tg h tg' h' /\ slice_ok tg' h' (TOwned b) s') tg h).
  { intros l f Dc Hf. apply (wp_new_data _ _ _ _ _ (TOwned b)); [exact Dc|]. intros x h1 O1 N1 Hm.
    apply wp_ret. split; [split; [|split]|].
    - intros y Hy. apply set_tag_other. intros ->. apply Hy. eapply inv_free; eauto.
    - intros y cy Hy _. auto.
    - intros y l0 Hy. eauto.
    - unfold slice_ok. rewrite Hf, set_tag_same. eauto. }
  destruct (s_arr s) as [ta|] eqn:At.
  - destruct Hs as [Tta [l Gl]].
    pose proof (inv_owned _ _ _ _ _ HI Tta Gl) as Dc. cbn in Dc.
    destruct (s_len s <? s_cap s); apply (wp_rd_at _ _ _ _ _ _ Gl).
    + eapply wp_wr_data; [exact Tta | exact Gl | apply Forall_upd; assumption | intros S1].
      apply wp_ret. split; [split; [auto | split]|].
      * intros x c Hx Hn. rewrite hget_hset_other; [assumption|]. intros ->. rewrite Gl in Hx. inversion Hx; subst. eapply Hn; reflexivity.
      * intros x l0 Hx. destruct (addr_dec ta x) as [<-|Hn]; [erewrite hget_hset_same by eauto | rewrite hget_hset_other by assumption]; eauto.
      * unfold slice_ok; cbn. split; [assumption|]. eexists. eapply hget_hset_same; eauto.
    + apply Hnew; [|reflexivity].
      apply Forall_app. split; [apply Forall_firstn, Forall_skipn; assumption|].
      constructor; [assumption | apply Forall_repeat; assumption].
  - apply Hnew; [|reflexivity].
    constructor; [assumption | apply Forall_repeat; assumption].
Qed.

Lemma wfree_gomap_has : forall g k, wfree (gomap_has g k).
Proof. intros [ga|] k; cbn; repeat constructor. intros []; constructor. Qed.

Lemma wp_rd_asm : forall S (get : val -> option S) (ok : tags -> mheap -> addr -> S -> Prop),
  (forall v s, get v = Some s -> is_asm_val v) ->
  (forall tg h a v s, asm_ok tg h a v -> get v = Some s -> ok tg h a s) ->
  forall A (Q : A -> assertion) tg h a (k : val -> S -> mprog A),
  (forall v s, hget h a = Some (CPtr v) -> get v = Some s -> tg a = TAsm -> asm_ok tg h a v -> ok tg h a s ->
     wp (k v s) Q tg h) ->
  wp (rdv a (fun v => match get v with Some s => k v s | None => Crash end)) Q tg h.
Proof.
  intros * Hasm Hok * Hk. apply wp_inv; intros HI. apply wp_rdv. intros v Ga.
  destruct (get v) as [s|] eqn:Vs; [|apply wp_crash].
  destruct (inv_asm _ _ _ _ HI Ga (Hasm _ _ Vs)) as [Ta Hv]. eauto.
Qed.
Definition wp_rd_masm := wp_rd_asm masm val_masm masm_ok val_masm_asm asm_masm_ok.
Definition wp_rd_lasm := wp_rd_asm lasm val_lasm lasm_ok val_lasm_asm asm_lasm_ok.

Lemma masm_unfinished : forall tg h a m s, masm_ok tg h a m -> m_w m = Some s -> m_st m <> MFinished ->
  tg s = TOwned a /\ exists t g, hget h s = Some (CPtr (VMapHdr t g)) /\ slice_ok tg h (TOwned a) t /\ gomap_ok tg h (TOwned a) g.
Proof.
  unfold masm_ok; intros * (_ & _ & Hw) Ws Hn. rewrite Ws in Hw. destruct (m_st m); try assumption. congruence.
Qed.
Lemma lasm_unfinished : forall tg h a l s, lasm_ok tg h a l -> l_w l = Some s -> l_st l <> LFinished ->
  tg s = TOwned a /\ exists x, hget h s = Some (CPtr (VListHdr x)) /\ slice_ok tg h (TOwned a) x.
Proof.
  unfold lasm_ok; intros * (_ & Hw) Ws Hn. rewrite Ws in Hw. destruct (l_st l); try assumption. congruence.
Qed.

Lemma masm_ok_unfinished : forall tg h a m s t g,
  (m_ka m = true -> m_st m = MMidKey) -> (m_va m = true -> m_st m = MMidValue) ->
  m_w m = Some s -> m_st m <> MFinished -> tg s = TOwned a -> hget h s = Some (CPtr (VMapHdr t g)) ->
  slice_ok tg h (TOwned a) t -> gomap_ok tg h (TOwned a) g -> masm_ok tg h a m.
Proof.
  unfold masm_ok; intros * Hka Hva Ws Hn Ts Gs Hsl Hgm. rewrite Ws. split; [assumption|]. split; [assumption|].
  destruct (m_st m); try congruence; eauto 7.
Qed.
Lemma lasm_ok_unfinished : forall tg h a l s x,
  (l_va l = true -> l_st l = LMidValue) ->
  l_w l = Some s -> l_st l <> LFinished -> tg s = TOwned a -> hget h s = Some (CPtr (VListHdr x)) ->
  slice_ok tg h (TOwned a) x -> lasm_ok tg h a l.
Proof.
  unfold lasm_ok; intros * Hva Ws Hn Ts Gs Hsl. rewrite Ws. split; [assumption|].
  destruct (l_st l); try congruence; eauto.
Qed.

Lemma masm_reflag : forall tg h a m m', masm_ok tg h a m -> m_w m' = m_w m ->
  m_st m <> MFinished -> m_st m' <> MFinished ->
  (m_ka m' = true -> m_st m' = MMidKey) -> (m_va m' = true -> m_st m' = MMidValue) -> masm_ok tg h a m'.
Proof.
  unfold masm_ok; intros * (_ & _ & H) -> N N' F1 F2. split; [assumption|]. split; [assumption|].
  destruct (m_w m); [|exact I]. destruct (m_st m), (m_st m'); congruence || exact H.
Qed.
Lemma lasm_reflag : forall tg h a l l', lasm_ok tg h a l -> l_w l' = l_w l ->
  l_st l <> LFinished -> l_st l' <> LFinished -> (l_va l' = true -> l_st l' = LMidValue) -> lasm_ok tg h a l'.
Proof.
  unfold lasm_ok; intros * (_ & H) -> N N' F. split; [assumption|].
  destruct (l_w l); [|exact I]. destruct (l_st l), (l_st l'); congruence || exact H.
Qed.

(* The last store of most assembler calls gives the assembler in cell a other flags.  What the invariant
   says of the assembler is read off the state the call has reached, whatever it stored on the way. *)
Lemma wp_masm_reflag : forall tg h a v m m' (x : pout), hget h a = Some (CPtr v) -> val_masm v = Some m ->
  m_w m' = m_w m -> m_st m <> MFinished -> m_st m' <> MFinished ->
  (m_ka m' = true -> m_st m' = MMidKey) -> (m_va m' = true -> m_st m' = MMidValue) ->
  wp (wrv a (val_with_masm v m') (Ret x)) tt_post tg h.
Proof.
  intros * Ga Vm Ew N N' F1 F2. apply wp_inv; intros HI. pose proof (val_masm_asm _ _ Vm) as Hv.
  destruct (inv_asm _ _ _ _ HI Ga Hv) as [_ Hok].
  eapply wp_asm_done; eauto. eapply asm_with_masm; eauto. eapply masm_reflag; eauto using asm_masm_ok.
Qed.
Lemma wp_lasm_reflag : forall tg h a v l l' (x : pout), hget h a = Some (CPtr v) -> val_lasm v = Some l ->
  l_w l' = l_w l -> l_st l <> LFinished -> l_st l' <> LFinished -> (l_va l' = true -> l_st l' = LMidValue) ->
  wp (wrv a (val_with_lasm v l') (Ret x)) tt_post tg h.
Proof.
  intros * Ga Vm Ew N N' F. apply wp_inv; intros HI. pose proof (val_lasm_asm _ _ Vm) as Hv.
  destruct (inv_asm _ _ _ _ HI Ga Hv) as [_ Hok].
  eapply wp_asm_done; eauto. eapply asm_with_lasm; eauto. eapply lasm_reflag; eauto using asm_lasm_ok.
Qed.

(* plainMap{m, t} and plainList{x} as one shape: a list header is a map header without a Go map *)
Definition hdr_of (fl : flavor) (t : slice) (g : option addr) : val :=
  match fl with FlMap => VMapHdr t g | FlList => VListHdr t end.

(* `w.t = append(w.t, e)` (or w.x) on the struct s of the unfinished assembler a *)
Lemma wp_append_hdr : forall A (Q : A -> assertion) tg h fl gr zero t e g s a (k : mprog A),
  tg s = TOwned a -> hget h s = Some (CPtr (hdr_of fl t g)) ->
  slice_ok tg h (TOwned a) t -> gomap_ok tg h (TOwned a) g -> slot_ok tg h zero -> slot_ok tg h e ->
  (forall tg1 h1, (forall y c, hget h y = Some c -> y <> s -> (forall l, c <> CArr l) -> hget h1 y = Some c) ->
     wp k Q tg1 h1) ->
  wp (let* t' := append1 gr zero t e in wrv s (hdr_of fl t' g) k) Q tg h.
Proof.
  intros * Ts Gs Hsl Hgm Hz Hv Hk.
  eapply wp_bind; [exact (wp_append1 _ _ _ _ _ _ _ Hsl Hz Hv)|].
  intros t1 tg1 h1 _ [Q1 Hs1]. pose proof Q1 as (Qt & Qc & Qa).
  eapply wp_wr_hdr; [rewrite Qt; [exact Ts | congruence] | apply Qc; [exact Gs | discriminate] | |intros _].
  - destruct fl; cbn; auto. split; [assumption|]. eapply quiet_gomap; eauto. discriminate.
  - apply Hk. intros y c Gy Ny Nc. rewrite hget_hset_other by auto. auto.
Qed.

Lemma wp_map_assemble_entry : forall cf a k tg h, wp (map_assemble_entry cf a k) tt_post tg h.
Proof.
  intros cf a k tg h. unfold map_assemble_entry.
  apply wp_rd_masm. intros v m Ga Vm Ta Hok Hm.
  apply wp_unless; intros St. apply mst_eqb_eq in St.
  destruct (m_w m) as [s|] eqn:Ws; [|apply wp_crash].
  destruct (masm_unfinished _ _ _ _ _ Hm Ws ltac:(congruence)) as [Ts (t & g & Gs & Hsl & Hgm)].
  apply (wp_rdv_at _ _ _ _ _ _ Gs). apply wp_wfree_bind; [apply wfree_gomap_has|]. intros [|]; [apply wp_ret; exact I|].
  eapply (wp_append_hdr _ _ _ _ FlMap); eauto; try exact I. intros tg1 h1 Qc.
  eapply wp_masm_reflag; [apply Qc; [exact Ga | neq | discriminate] | exact Vm | ..]; cbn; try congruence.
  destruct Hm as (Hka & _). intros E; apply Hka in E; congruence.
Qed.

Lemma wp_map_assemble_key : forall a tg h, wp (map_assemble_key a) tt_post tg h.
Proof.
  intros a tg h. unfold map_assemble_key.
  apply wp_rd_masm. intros v m Ga Vm Ta Hok (Hka & Hva & _).
  apply wp_unless; intros St. apply mst_eqb_eq in St.
  eapply wp_masm_reflag; eauto; cbn; try congruence. intros E; apply Hva in E; congruence.
Qed.

Lemma wp_map_assemble_value : forall a tg h, wp (map_assemble_value a) tt_post tg h.
Proof.
  intros a tg h. unfold map_assemble_value.
  apply wp_rd_masm. intros v m Ga Vm Ta Hok (Hka & Hva & _).
  apply wp_unless; intros St. apply mst_eqb_eq in St.
  eapply wp_masm_reflag; eauto; cbn; try congruence. intros E; apply Hka in E; congruence.
Qed.

(* The assembler a is rewritten and, in the same step, its struct s, the backing array and the Go map
   become frozen: from here on they are a finished node. *)
Lemma wp_freeze_hdr : forall A (Q : A -> assertion) tg h fl a c0 v' s t g (k : mprog A),
  tg a = TAsm -> hget h a = Some c0 ->
  tg s = TOwned a -> hget h s = Some (CPtr (hdr_of fl t g)) ->
  slice_ok tg h (TOwned a) t -> gomap_ok tg h (TOwned a) g ->
  (forall tg' h', Ext tg h tg' h' -> tg' s = TFrozen -> hget h' s = Some (CPtr (hdr_of fl t g)) -> asm_ok tg' h' a v') ->
  (forall tg', tg' s = TFrozen -> hget (hset h a (CPtr v')) s = Some (CPtr (hdr_of fl t g)) ->
     wp k Q tg' (hset h a (CPtr v'))) ->
  wp (wrv a v' k) Q tg h.
Proof.
  intros * Ta Ga Ts Gs Hsl Hgm Hasm Hk. apply wp_inv; intros HI.
  set (xs := s :: (match s_arr t with Some x => [x] | None => [] end) ++ (match g with Some x => [x] | None => [] end)).
  assert (Hxs : forall x, In x xs -> tg x = TOwned a).
  { intros x [<-|Hx]; [assumption|]. apply in_app_or in Hx. destruct Hx as [Hx|Hx].
    - unfold slice_ok in Hsl. destruct (s_arr t); [|contradiction]. destruct Hx as [<-|[]]. tauto.
    - unfold gomap_ok in Hgm. destruct g; [|contradiction]. destruct Hx as [<-|[]]. tauto. }
  assert (Hsa : s <> a) by neq.
  assert (Gs' : hget (hset h a (CPtr v')) s = Some (CPtr (hdr_of fl t g))) by (rewrite hget_hset_other; auto).
  assert (Hin : forall x, In x xs -> set_tags tg xs TFrozen x = TFrozen) by (intros; apply set_tags_in; assumption).
  assert (S : Step tg h (set_tags tg xs TFrozen) (hset h a (CPtr v')));
    [|eapply wp_wr; [exact Ga | exact S | apply Hk; [apply Hin; left; reflexivity | exact Gs']]].
  assert (Hh : forall x, x <> a -> hget (hset h a (CPtr v')) x = hget h x) by (intros; apply hget_hset_other; auto).
  apply (step_freeze tg h _ a v'); auto.
  { intros x Hx _. apply hgetv_hset_other. auto. }
  { eapply hget_hset_same; eauto. }
  intros HE.
  assert (Hsl' : slice_ok (set_tags tg xs TFrozen) (hset h a (CPtr v')) TFrozen t).
  { unfold slice_ok in *. destruct (s_arr t) as [ta|] eqn:At; [|exact I]. destruct Hsl as [Tta [l Gl]].
    split; [apply Hin; right; apply in_or_app; left; left; reflexivity|].
    exists l. rewrite Hh; [assumption | neq]. }
  assert (Hgm' : gomap_ok (set_tags tg xs TFrozen) (hset h a (CPtr v')) TFrozen g).
  { unfold gomap_ok in *. destruct g as [ga|]; [|exact I]. destruct Hgm as [Tga [l Gl]].
    split; [apply Hin; right; apply in_or_app; right; left; reflexivity|].
    exists l. rewrite Hh; [assumption | neq]. }
  split; [|apply Hasm; auto; apply Hin; left; reflexivity].
  (* the array and the map are frozen with the content the invariant knew of *)
  assert (Hdata : forall x c, tg x = TOwned a -> hget h x = Some c -> (forall v, c <> CPtr v) ->
            exists c', hget (hset h a (CPtr v')) x = Some c' /\ frozen_ok (set_tags tg xs TFrozen) (hset h a (CPtr v')) c').
  { intros x c Tx Gx Hc. exists c. split; [rewrite Hh; [assumption | neq]|].
    pose proof (inv_owned _ _ _ _ _ HI Tx Gx) as Dc.
    destruct c; cbn in *; try contradiction; try (exfalso; eapply Hc; reflexivity);
      revert Dc; apply Forall_impl; intros; eapply slot_ok_ext; eauto. }
  intros x [<-|Hx].
  - exists (CPtr (hdr_of fl t g)). split; [assumption|]. destruct fl; cbn; auto.
  - apply in_app_or in Hx. destruct Hx as [Hx|Hx].
    + unfold slice_ok in Hsl. destruct (s_arr t) as [ta|]; [|contradiction]. destruct Hx as [<-|[]].
      destruct Hsl as [Tta [l Gl]]. eapply Hdata; eauto. discriminate.
    + unfold gomap_ok in Hgm. destruct g as [ga|]; [|contradiction]. destruct Hx as [<-|[]].
      destruct Hgm as [Tga [l Gl]]. eapply Hdata; eauto. discriminate.
Qed.

Lemma wp_map_finish_top : forall a tg h, wp (map_finish_top a) tt_post tg h.
Proof.
  intros a tg h. unfold map_finish_top.
  apply wp_rd_masm. intros v m Ga Vm Ta Hok Hm.
  apply wp_unless; intros St. apply mst_eqb_eq in St.
  pose proof Hm as (Hka & Hva & _).
  destruct (m_w m) as [s|] eqn:Ws.
  - destruct (masm_unfinished _ _ _ _ _ Hm Ws ltac:(congruence)) as [Ts (t & g & Gs & Hsl & Hgm)].
    eapply (wp_freeze_hdr _ _ _ _ FlMap); eauto; [|intros; apply wp_ret; exact I].
    intros tg' h2 HE Tf Gs2. eapply asm_finish_m; eauto.
  - eapply wp_asm_done; eauto using val_masm_asm. apply (asm_with_masm _ _ _ _ m _ Hok Vm); [|reflexivity].
    unfold masm_ok; cbn. split; [intros E; apply Hka in E; congruence|].
    split; [intros E; apply Hva in E; congruence|]. rewrite Ws. exact I.
Qed.

(* BeginMap needs an assembler that is not finished (what [legal] demands): a finished one no longer owns its struct *)
Lemma wp_map_begin : forall tg h a hint v0 m0, hget h a = Some (CPtr v0) -> val_masm v0 = Some m0 -> m_st m0 <> MFinished ->
  wp (map_begin a hint) tt_post tg h.
Proof.
  intros tg h a hint v0 m0 G0 V0 N0. unfold map_begin.
  apply wp_rd_masm. intros v m Ga Vm Ta Hok Hm.
  destruct (m_w m) as [s|] eqn:Ws; [|apply wp_crash].
  destruct (masm_unfinished _ _ _ _ _ Hm Ws ltac:(congruence)) as [Ts (t0 & g0 & Gs & _)].
  unfold make_slice. cbn [pbind].
  apply (wp_new_data _ _ _ _ _ (TOwned a)); [cbn; apply Forall_repeat; exact I|]. intros x h1 O1 N1 M1. pose proof (M1 _ _ Gs) as Gs1.
  apply (wp_new_data _ _ _ _ _ (TOwned a)); [constructor|]. intros y h2 O2 N2 M2.
  eapply wp_wr_hdr; [rewrite !set_tag_other by neq; exact Ts | exact (M2 _ _ Gs1) | | intros; apply wp_ret; exact I].
  cbn. split.
  - unfold slice_ok; cbn. split; [rewrite set_tag_other by neq; apply set_tag_same | eauto].
  - unfold gomap_ok. split; [apply set_tag_same | eauto].
Qed.

Lemma wp_key_assign_string : forall cf a k tg h, wp (key_assign_string cf a k) tt_post tg h.
Proof.
  intros cf a k tg h. unfold key_assign_string.
  apply wp_rd_masm. intros v m Ga Vm Ta Hok Hm.
  apply wp_unless; intros Ka.
  destruct (m_w m) as [s|] eqn:Ws; [|apply wp_crash].
  pose proof Hm as (Hka & Hva & _). pose proof (Hka Ka) as St.
  destruct (masm_unfinished _ _ _ _ _ Hm Ws ltac:(congruence)) as [Ts (t & g & Gs & Hsl & Hgm)].
  apply (wp_rdv_at _ _ _ _ _ _ Gs). apply wp_wfree_bind; [apply wfree_gomap_has|]. intros [|].
  - (* repeated key: back to 'initial' *)
    eapply wp_masm_reflag; eauto; cbn; try congruence. intros E; apply Hva in E; congruence.
  - eapply (wp_append_hdr _ _ _ _ FlMap); eauto; try exact I. intros tg1 h1 Qc.
    eapply wp_masm_reflag; [apply Qc; [exact Ga | neq | discriminate] | exact Vm | ..]; cbn; try congruence.
    intros E; apply Hva in E; congruence.
Qed.

Definition a_fref (r : nref) : assertion := fun tg h => fref tg h r.
Lemma a_fref_stable : forall r, stable (a_fref r).
Proof. intros r tg h tg' h' H HE. eapply fref_ext; eauto. Qed.

Lemma wp_va_assign_m : forall a r tg h, fref tg h r -> wp (va_assign_m a r) tt_post tg h.
Proof.
  intros a r tg h HP. unfold va_assign_m. apply wp_inv; intros HI.
  apply wp_rd_masm. intros v m Ga Vm Ta Hok Hm.
  apply wp_unless; intros Va.
  destruct (m_w m) as [s|] eqn:Ws; [|apply wp_crash].
  pose proof Hm as (Hka & Hva & _). pose proof (Hva Va) as St.
  destruct (masm_unfinished _ _ _ _ _ Hm Ws ltac:(congruence)) as [Ts (t & g & Gs & Hsl & Hgm)].
  apply (wp_rdv_at _ _ _ _ _ _ Gs). unfold slice_ok in Hsl.
  destruct (s_arr t) as [ta|] eqn:At; [|apply wp_crash]. destruct Hsl as [Tta [sl Gt]].
  destruct (s_len t) as [|n] eqn:Lt; [apply wp_crash|].
  apply (wp_rd_at _ _ _ _ _ _ Gt).
  destruct (nth_error sl (s_off t + n)) as [[]|] eqn:Nt; try apply wp_crash.
  (* t[len-1].v = v: the entry is overwritten in place *)
  eapply wp_wr_data; [exact Tta | exact Gt | |intros S1].
  { apply Forall_upd; [exact (inv_owned _ _ _ _ _ HI Tta Gt) | assumption]. }
  destruct g as [ga|]; [|apply wp_crash]. destruct Hgm as [Tga [es Ge]].
  rewrite <- (hget_hset_other _ _ ta ga (CArr (upd (s_off t + n) sl (VEntry k r)))) in Ge by neq.
  apply (wp_rd_at _ _ _ _ _ _ Ge).
  (* m[k] = v: what the map holds is well-formed in the state reached *)
  eapply wp_wr_data; [exact Tga | exact Ge | |intros S2].
  { apply Forall_map_set; [exact (inv_owned _ _ _ _ _ (proj1 S1) Tga Ge)|]. cbn. eapply fref_ext; [exact (proj2 S1) | exact HP]. }
  eapply wp_masm_reflag; [rewrite !hget_hset_other by neq; exact Ga | exact Vm | ..]; cbn; try congruence.
  intros E; apply Hka in E; congruence.
Qed.

Lemma wp_list_begin : forall tg h a hint v0 l0, hget h a = Some (CPtr v0) -> val_lasm v0 = Some l0 -> l_st l0 <> LFinished ->
  wp (list_begin a hint) tt_post tg h.
Proof.
  intros tg h a hint v0 l0 G0 V0 N0. unfold list_begin.
  apply wp_rd_lasm. intros v l Ga Vm Ta Hok Hm.
  destruct (l_w l) as [s|] eqn:Ws; [|apply wp_crash].
  destruct (lasm_unfinished _ _ _ _ _ Hm Ws ltac:(congruence)) as [Ts (x0 & Gs & _)].
  unfold make_slice. cbn [pbind].
  apply (wp_new_data _ _ _ _ _ (TOwned a)); [cbn; apply Forall_repeat; exact I|]. intros x h1 O1 N1 M1.
  eapply wp_wr_hdr; [rewrite set_tag_other by neq; exact Ts | exact (M1 _ _ Gs) | | intros; apply wp_ret; exact I].
  cbn. unfold slice_ok; cbn. split; [apply set_tag_same | eauto].
Qed.

Lemma wp_list_assemble_value : forall a tg h, wp (list_assemble_value a) tt_post tg h.
Proof.
  intros a tg h. unfold list_assemble_value.
  apply wp_rd_lasm. intros v l Ga Vm Ta Hok Hm.
  apply wp_unless; intros St. apply lst_eqb_eq in St.
  eapply wp_lasm_reflag; eauto; cbn; congruence.
Qed.

Lemma wp_va_assign_l : forall cf a r tg h, fref tg h r -> wp (va_assign_l cf a r) tt_post tg h.
Proof.
  intros cf a r tg h HP. unfold va_assign_l.
  apply wp_rd_lasm. intros v l Ga Vm Ta Hok Hm.
  apply wp_unless; intros Va.
  destruct (l_w l) as [s|] eqn:Ws; [|apply wp_crash].
  pose proof Hm as (Hva & _). pose proof (Hva Va) as St.
  destruct (lasm_unfinished _ _ _ _ _ Hm Ws ltac:(congruence)) as [Ts (x & Gs & Hsl)].
  apply (wp_rdv_at _ _ _ _ _ _ Gs).
  eapply (wp_append_hdr _ _ _ _ FlList _ _ _ _ None); eauto; try exact I; try exact HP. intros tg1 h1 Qc.
  eapply wp_lasm_reflag; [apply Qc; [exact Ga | neq | discriminate] | exact Vm | ..]; cbn; congruence.
Qed.

Lemma wp_list_finish_top : forall a tg h, wp (list_finish_top a) tt_post tg h.
Proof.
  intros a tg h. unfold list_finish_top.
  apply wp_rd_lasm. intros v l Ga Vm Ta Hok Hm.
  apply wp_unless; intros St. apply lst_eqb_eq in St.
  pose proof Hm as (Hva & _).
  destruct (l_w l) as [s|] eqn:Ws.
  - destruct (lasm_unfinished _ _ _ _ _ Hm Ws ltac:(congruence)) as [Ts (x & Gs & Hsl)].
    eapply (wp_freeze_hdr _ _ _ _ FlList _ _ _ _ _ None); eauto; [exact I | | intros; apply wp_ret; exact I].
    intros tg' h2 HE Tf Gs2. rewrite <- Ws. eapply asm_finish_l; eauto.
  - eapply wp_asm_done; eauto using val_lasm_asm. apply (asm_with_lasm _ _ _ _ l _ Hok Vm); [|cbn; congruence].
    unfold lasm_ok; cbn. split; [intros E; apply Hva in E; congruence | exact I].
Qed.

Lemma wp_va_assign : forall cf pf a r tg h, fref tg h r -> wp (va_assign cf pf a r) tt_post tg h.
Proof. intros cf [] a r; cbn; [apply wp_va_assign_m | apply wp_va_assign_l]. Qed.

Lemma wp_map_finish : forall cf a tg h, wp (map_finish cf a) tt_post tg h.
Proof.
  intros cf a tg h. unfold map_finish. apply wp_inv; intros HI.
  apply wp_rdv. intros v Ga.
  destruct v; try apply wp_map_finish_top; try apply wp_crash.
  apply wp_unless; intros St. apply mst_eqb_eq in St.
  destruct (m_w m) as [s|] eqn:Ws; [|apply wp_crash].
  destruct (inv_asm _ _ _ _ HI Ga I) as [Ta Hm]. cbn in Hm.
  destruct (masm_unfinished _ _ _ _ _ Hm Ws ltac:(congruence)) as [Ts (t & g & Gs & Hsl & Hgm)].
  pose proof Hm as (Hka & Hva & _).
  eapply (wp_freeze_hdr _ _ _ _ FlMap); eauto.
  - intros tg' h2 HE Tf Gs2. cbn. unfold masm_ok; cbn.
    split; [intros E; apply Hka in E; congruence|]. split; [intros E; apply Hva in E; congruence|]. exact I.
  - intros tg1 T1 G1. destruct p as [pa|]; [|apply wp_crash].
    apply wp_va_assign. split; eauto.
Qed.

Lemma wp_list_finish : forall cf a tg h, wp (list_finish cf a) tt_post tg h.
Proof.
  intros cf a tg h. unfold list_finish. apply wp_inv; intros HI.
  apply wp_rdv. intros v Ga.
  destruct v; try apply wp_list_finish_top; try apply wp_crash.
  apply wp_unless; intros St. apply lst_eqb_eq in St.
  destruct (l_w l) as [s|] eqn:Ws; [|apply wp_crash].
  destruct (inv_asm _ _ _ _ HI Ga I) as [Ta Hm]. cbn in Hm.
  destruct (lasm_unfinished _ _ _ _ _ Hm Ws ltac:(congruence)) as [Ts (x & Gs & Hsl)].
  pose proof Hm as (Hva & _).
  eapply (wp_freeze_hdr _ _ _ _ FlList _ _ _ _ _ None); eauto; [exact I | |].
  - intros tg' h2 HE Tf Gs2. cbn. unfold lasm_ok; cbn. split; [intros E; apply Hva in E; congruence | exact I].
  - intros tg1 T1 G1. destruct p as [pa|]; [|apply wp_crash].
    apply wp_va_assign. split; eauto.
Qed.

Lemma wfree_read_bytes : forall s, wfree (@read_bytes val s).
Proof. intros s. unfold read_bytes. destruct (s_arr s); repeat (constructor; intros). destruct c; constructor. Qed.
Lemma wfree_read_slice : forall s, wfree (@read_slice val s).
Proof. intros s. unfold read_slice. destruct (s_arr s); repeat (constructor; intros). destruct c; constructor. Qed.

Lemma wfree_rd_content : forall fuel a, wfree (@rd_content val fuel a).
Proof.
  induction fuel; cbn; intros a; [constructor|]. constructor. intros c.
  destruct c; try constructor. destruct r; [apply wfree_read_bytes | | constructor].
  apply wfree_bind; [apply IHfuel | intros; constructor].
Qed.

Lemma wfree_va_parent : forall pf pa, wfree (va_parent pf pa).
Proof.
  intros [] pa; unfold va_parent, rd_masm, rd_lasm, rdv; constructor; intros c; destruct c; try constructor.
  - destruct (val_masm v); constructor.
  - destruct (val_lasm v); constructor.
Qed.

Definition rdr_at (a : addr) : assertion := fun tg h => tg a = TFrozen /\ exists rd, hget h a = Some (CRdr rd).
Lemma rdr_at_stable : forall a, stable (rdr_at a).
Proof.
  intros a tg h tg' h' H HE. eapply rdr_ext; eauto.
Qed.

Lemma wp_rd_seek : forall a o0 tg h, rdr_at a tg h -> wp (rd_seek a o0) tt_post tg h.
Proof.
  intros a o0 tg h [Ta [rd Hr]]. unfold rd_seek.
  apply (wp_rd_at _ _ _ _ _ _ Hr). destruct rd; try apply wp_crash;
    (eapply wp_wr_rdr; eauto; [cbn; auto | intros; apply wp_ret; exact I]).
Qed.

Lemma wp_rd_seek_end : forall a tg h, rdr_at a tg h -> wp (rd_seek_end a) tt_post tg h.
Proof.
  intros a tg h [Ta [rd Hr]]. unfold rd_seek_end.
  apply (wp_rd_at _ _ _ _ _ _ Hr). destruct rd; try apply wp_crash;
    (eapply wp_wr_rdr; eauto; [cbn; auto | intros; apply wp_ret; exact I]).
Qed.

Lemma wp_rd_read : forall fuel a k tg h, rdr_at a tg h -> wp (rd_read fuel a k) tt_post tg h.
Proof.
  induction fuel; intros a k tg h HP; cbn [rd_read]; [apply wp_crash|]. apply wp_inv; intros HI.
  pose proof HP as [Ta [rd Hr]].
  apply (wp_rd_at _ _ _ _ _ _ Hr). destruct rd as [s pos | p ra base off lim | src off].
  - apply wp_wfree_bind; [apply wfree_read_bytes|]. intros data.
    eapply wp_wr_rdr; eauto; [reflexivity | intros; apply wp_ret; exact I].
  - (* a section reader re-positions its parent, reads from it, then moves itself *)
    destruct (lim <=? off); [apply wp_ret; exact I|].
    assert (Hp : rdr_at p tg h) by exact (inv_frozen_at _ _ _ _ HI Ta Hr).
    eapply wp_bind with (Q1 := tt_post).
    + destruct (off =? ra); [apply wp_ret; exact I | apply wp_rd_seek; exact Hp].
    + intros [] tg1 h1 S1 _.
      pose proof (rdr_at_stable p _ _ _ _ Hp (proj2 S1)) as Hp1.
      eapply wp_bind; [apply IHfuel; exact Hp1|].
      intros out tg2 h2 S2 _.
      pose proof (step_trans _ _ _ _ _ _ S1 S2) as S12.
      destruct (ext_rdr _ _ _ _ _ _ (proj2 S12) Ta Hr) as [r2 [Hr2 Eq2]].
      eapply wp_wr_rdr; [exact (proj1 (proj2 S12 a Ta)) | exact Hr2 | | intros; apply wp_ret; exact I].
      eapply rdr_eqv_trans; [apply rdr_eqv_sym; exact Eq2|]. cbn; auto.
  - apply wp_wfree_bind; [apply wfree_rd_content|]. intros data.
    eapply wp_wr_rdr; eauto; [reflexivity | intros; apply wp_ret; exact I].
Qed.

Lemma wp_rd_seekw : forall fuel a off wh tg h, rdr_at a tg h -> wp (rd_seekw fuel a off wh) tt_post tg h.
Proof.
  intros fuel a off wh tg h [Ta [rd Hr]]. unfold rd_seekw.
  assert (Hmv : forall r' (x : option Z) (b : bool), rdr_eqv rd r' ->
            wp (if b then Ret None else Wr a (CRdr r') (Ret x)) tt_post tg h).
  { intros r' x [] Eq; [apply wp_ret; exact I|]. eapply wp_wr_rdr; eauto. intros; apply wp_ret; exact I. }
  apply (wp_rd_at _ _ _ _ _ _ Hr). destruct rd as [s pos | p ra base o0 lim | src o0].
  - apply Hmv. reflexivity.
  - apply Hmv. cbn; auto.
  - destruct wh; try (apply Hmv; reflexivity).
    apply wp_wfree_bind; [apply wfree_rd_content|]. intros data. apply Hmv. reflexivity.
Qed.

Lemma wp_stream_read : forall cf x tg h, rdr_at x tg h -> wp (stream_read cf x) tt_post tg h.
Proof.
  intros cf x tg h HP. unfold stream_read. destruct (cf_stream_shared cf); [apply wp_rd_read; exact HP|].
  apply wp_inv; intros HI. apply fro_wp. exact (rd_content_fro tg h HI rd_fuel x HP).
Qed.

Definition ares_ok (x : ares) : assertion := fun tg h =>
  match x with
  | XNode r => fref tg h r
  | XEntries l => Forall (fun kr => fref tg h (snd kr)) l
  | XItems l => Forall (fref tg h) l
  | XBytes _ (Some sl) => bslice_ok tg h sl
  | _ => True
  end.

Lemma slot_node_of : forall tg h v, slot_ok tg h v -> fref tg h (node_of v).
Proof. destruct v; cbn; tauto. Qed.

Definition stream_acc (r : nref) (a : acc) : bool :=
  match r, a with RStream _, ABytes | RStream _, ALarge => true | _, _ => false end.

Lemma acc_wfree : forall cf r a, stream_acc r a = false -> wfree (acc_prog cf r a).
Proof.
  intros cf r a Hs. unfold acc_prog, rdv.
  destruct r; destruct a; cbn in Hs; try discriminate;
    repeat (first [ constructor | apply wfree_bind | apply wfree_read_bytes | apply wfree_read_slice | intros ]
            || match goal with |- wfree (match ?x with _ => _ end) => destruct x
                             | |- wfree (if ?x then _ else _) => destruct x end).
Qed.

Lemma ares_ok_stable : forall x, stable (ares_ok x).
Proof.
  intros x tg h tg' h' H HE. destruct x; cbn in *; auto.
  - eapply fref_ext; eauto.
  - revert H. apply Forall_impl. intros; eapply fref_ext; eauto.
  - revert H. apply Forall_impl. intros; eapply fref_ext; eauto.
  - destruct alias; [eapply bslice_ok_ext; eauto | exact I].
Qed.

(* A read of a finished node loads frozen cells only, and what it returns are finished nodes — unless it
   is a read of a streamBytes node on a tree where that moves the node's reader. *)
Lemma acc_fro : forall tg h cf r a, Inv tg h -> fref tg h r ->
  (cf_stream_shared cf = false \/ stream_acc r a = false) ->
  fro tg h (fun x => ares_ok x tg h) (acc_prog cf r a).
Proof.
  intros tg h cf r a HI Hr Hs.
  destruct r as [| |k x|sl|x|s|s|d].
  - constructor.
  - destruct a; constructor; exact I.
  - destruct Hr as [Tx [sv Gx]]. destruct a; try (constructor; exact I). cbn.
    destruct (skind_eqb k0 k); [|constructor; exact I].
    eapply fro_rd_plain; eauto; [discriminate | constructor; exact I].
  - (* plainBytes: AsBytes hands back the slice it aliases *)
    destruct a; try (constructor; exact I); cbn;
      (eapply fro_bind; [apply read_bytes_fro; exact Hr|]; intros bs _; constructor; try exact I; exact Hr).
  - destruct a; try (constructor; exact I); cbn in *; (destruct Hs as [Hs|Hs]; [|discriminate]);
      unfold stream_read; rewrite Hs;
      (eapply fro_bind; [apply rd_content_fro; [exact HI | exact Hr]|]; intros; constructor; exact I).
  - destruct Hr as [Ts (t & g & Gs)].
    destruct (inv_frozen_at _ _ _ _ HI Ts Gs) as [Hsl Hgm].
    destruct a; try (constructor; exact I); cbn; (eapply fro_rd_plain; eauto; [discriminate|]); cbv beta iota.
    + constructor; exact I.
    + destruct g as [ga|]; [|constructor; exact I]. destruct Hgm as [Tg [es Ge]].
      pose proof (inv_frozen_at _ _ _ _ HI Tg Ge) as Fc.
      eapply fro_rd_plain; eauto; [discriminate|]. constructor.
      destruct (map_get es k) eqn:Mg; [|exact I]. cbn. apply slot_node_of. eapply Forall_map_get; eauto.
    + eapply fro_bind; [apply read_slice_fro; [exact HI | exact Hsl]|]. intros l Fl. constructor.
      cbn. apply Forall_map. revert Fl. apply Forall_impl. intros v Hv. destruct v; cbn in *; tauto.
  - destruct Hr as [Ts (x & Gs)].
    pose proof (inv_frozen_at _ _ _ _ HI Ts Gs) as Hsl. cbn in Hsl.
    destruct a; try (constructor; exact I); cbn; (eapply fro_rd_plain; eauto; [discriminate|]); cbv beta iota.
    + constructor; exact I.
    + destruct ((i <? 0)%Z || (Z.of_nat (s_len x) <=? i)%Z); [constructor; exact I|].
      eapply fro_bind; [apply read_slice_fro; [exact HI | exact Hsl]|]. intros l Fl. constructor.
      destruct (nth_error l (Z.to_nat i)) eqn:Nn; [|exact I]. cbn. apply slot_node_of. eapply Forall_forall; eauto using nth_error_In.
    + eapply fro_bind; [apply read_slice_fro; [exact HI | exact Hsl]|]. intros l Fl. constructor.
      cbn. apply Forall_map. revert Fl. apply Forall_impl. intros v Hv. apply slot_node_of. assumption.
  - (* a node of another implementation: its children are such nodes *)
    destruct a; unfold acc_prog; cbv beta iota;
      repeat match goal with |- fro _ _ _ (match ?x with _ => _ end) => destruct x end;
      constructor;
      repeat match goal with
             | |- ares_ok (if ?b then _ else _) _ _ => destruct b
             | |- ares_ok (match ?x with _ => _ end) _ _ => destruct x
             end; cbn; auto;
      try (apply Forall_map; apply Forall_forall; intros; exact I).
Qed.

Lemma wp_acc_prog : forall cf r a tg h, fref tg h r -> wp (acc_prog cf r a) ares_ok tg h.
Proof.
  intros cf r a tg h HP. apply wp_inv; intros HI.
  destruct (cf_stream_shared cf) eqn:Sh; [destruct (stream_acc r a) eqn:Sa|];
    try solve [apply fro_wp; apply acc_fro; auto].
  destruct r; try discriminate; destruct a; try discriminate; cbn;
    (eapply wp_bind; [apply wp_stream_read; exact HP | intros; apply wp_ret; exact I]).
Qed.

Lemma wp_new_scalar_node : forall sv tg h, wp (new_scalar_node sv) a_fref tg h.
Proof.
  intros sv tg h. unfold new_scalar_node, newv.
  apply (wp_new_data _ _ _ _ _ TFrozen); [exact I|]. intros x h1 O1 N1 M1.
  apply wp_ret. unfold a_fref; cbn. split; [apply set_tag_same | eauto].
Qed.

Lemma wp_sval_node : forall v tg h, wp (sval_node v) a_fref tg h.
Proof.
  intros [|sv]; cbn; [|apply wp_new_scalar_node]. intros; apply wp_ret; exact I.
Qed.

Lemma halloc_addr : forall ar (h h1 : mheap) c x, halloc ar h c = (h1, x) -> x = (ar, length (nth ar h [])).
Proof. unfold halloc; intros * H; inversion H; reflexivity. Qed.

(* `w := &plainMap{}; a := &assembler{w: w}`: a fresh struct and a fresh assembler that owns it *)
Lemma wp_new_struct_asm : forall A (Q : A -> assertion) tg h c (vf : addr -> val) (k : addr -> addr -> mprog A),
  data_ok tg h c ->
  (forall s a tg2 h2, tg2 s = TOwned a -> hget h2 s = Some c -> asm_ok tg2 h2 a (vf s)) ->
  (forall s a tg2 h2, hget h2 a = Some (CPtr (vf s)) -> wp (k s a) Q tg2 h2) ->
  wp (New c (fun s => newv (vf s) (k s))) Q tg h.
Proof.
  intros * Dc Hok Hk HI ar o h' He. unfold newv in He.
  rewrite exec_new in He. destruct (halloc ar h c) as [h1 s] eqn:A1.
  rewrite exec_new in He. destruct (halloc ar h1 (CPtr (vf s))) as [h2 a] eqn:A2.
  destruct (hget_halloc_new _ _ _ _ _ _ A1) as [N1 O1]. destruct (hget_halloc_new _ _ _ _ _ _ A2) as [N2 O2].
  (* the struct is tagged as owned by the assembler that is allocated next *)
  assert (S1 : Step tg h (set_tag tg s (TOwned a)) h1).
  { eapply step_new; eauto. intros tg1 -> HE Hx. unfold cell_ok_at. rewrite set_tag_same.
    exists c. split; [assumption | eapply data_ok_ext; eauto]. }
  assert (S2 : Step (set_tag tg s (TOwned a)) h1 (set_tag (set_tag tg s (TOwned a)) a TAsm) h2).
  { eapply step_new; [exact (proj1 S1) | exact A2 |]. intros tg1 -> HE Hx.
    unfold cell_ok_at. rewrite set_tag_same. eexists. split; [eassumption|]. apply Hok.
    - rewrite set_tag_other by neq. apply set_tag_same.
    - eapply hget_halloc_mono; eauto. }
  pose proof (step_trans _ _ _ _ _ _ S1 S2) as S12.
  destruct (Hk s a _ h2 N2 (proj1 S12) ar o h' He) as (tg3 & S3 & HQ).
  exists tg3. split; [eapply step_trans; eauto | exact HQ].
Qed.

Lemma wp_val_begin_map : forall pf pa hint tg h, wp (val_begin_map pf pa hint) tt_post tg h.
Proof.
  intros pf pa hint tg h. unfold val_begin_map.
  apply wp_wfree_bind; [apply wfree_va_parent|]. intros p. unfold newv at 1.
  apply wp_new_struct_asm; [exact I | |].
  - intros s a tg2 h2 Ts Gs. cbn. eapply masm_ok_unfinished; cbn; eauto; try congruence; exact I.
  - intros s a tg2 h2 Ga. eapply wp_map_begin; [exact Ga | reflexivity | discriminate].
Qed.

Lemma wp_val_begin_list : forall pf pa hint tg h, wp (val_begin_list pf pa hint) tt_post tg h.
Proof.
  intros pf pa hint tg h. unfold val_begin_list.
  apply wp_wfree_bind; [apply wfree_va_parent|]. intros p. unfold newv at 1.
  apply wp_new_struct_asm; [exact I | |].
  - intros s a tg2 h2 Ts Gs. cbn. eapply lasm_ok_unfinished; cbn; eauto; try congruence; exact I.
  - intros s a tg2 h2 Ga. eapply wp_list_begin; [exact Ga | reflexivity | discriminate].
Qed.

(* `*na.w = *v2; na.state = finished`: the struct owned by a receives a FROZEN header and becomes
   frozen in the same step; its previous array and map (owned by a) are simply abandoned.  Between the
   two stores the invariant does not hold, and nothing can panic. *)
Lemma wp_shortcut : forall tg h a c0 s cs chdr v' (x : pout),
  tg a = TAsm -> hget h a = Some c0 -> tg s = TOwned a -> hget h s = Some cs ->
  frozen_ok tg h chdr ->
  (forall tg' h', Ext tg h tg' h' -> tg' s = TFrozen -> hget h' s = Some chdr -> asm_ok tg' h' a v') ->
  wp (Wr s chdr (wrv a v' (Ret x))) tt_post tg h.
Proof.
  intros * Ta Ga Ts Gs Fh Hasm HI ar o h' He.
  assert (Hsa : s <> a) by neq.
  unfold wrv in He. rewrite exec_wr, Gs, exec_wr, (hget_hset_other _ _ s a), Ga, exec_ret in He by assumption.
  inversion He; subst. exists (set_tags tg [s] TFrozen). split; [|exact I].
  apply (step_freeze tg h _ a v'); auto.
  - intros y [<-|[]]. assumption.
  - intros y Hya Hys. rewrite !hgetv_hset_other; auto. intros <-. apply Hys. left; reflexivity.
  - rewrite hget_hset, addr_eqb_refl. rewrite hget_hset_other by assumption. rewrite Ga. reflexivity.
  - intros HE.
    assert (Hs' : hget (hset (hset h s chdr) a (CPtr v')) s = Some chdr).
    { rewrite hget_hset_other by auto. exact (hget_hset_same _ _ _ _ _ Gs). }
    split.
    + intros y [<-|[]]. exists chdr. split; [assumption|]. eapply frozen_ok_ext; eauto using cell_eqv_refl.
    + apply Hasm; auto. apply set_tags_in. left; reflexivity.
Qed.

Lemma triple_post_tt : forall A (P : assertion) (p : mprog A) (Q : A -> assertion), triple P p Q -> triple P p tt_post.
Proof. intros * T. eapply triple_conseq; [exact T | auto | intros; exact I]. Qed.

Lemma wp_map_copy_loop : forall cf a es tg h, wp (map_copy_loop cf a es) tt_post tg h.
Proof.
  intros cf a es. induction es as [|[k d] es IH]; intros tg h; cbn [map_copy_loop].
  - apply wp_map_finish_top.
  - eapply wp_bind; [apply wp_map_assemble_key|]. intros ? tg1 h1 _ _.
    eapply wp_bind; [apply wp_key_assign_string|]. intros o tg2 h2 _ _.
    assert (Hgo : wp (let* _ := map_assemble_value a in let* _ := va_assign_m a (RForeign d) in map_copy_loop cf a es)
                     tt_post tg2 h2).
    { eapply wp_bind; [apply wp_map_assemble_value|]. intros ? tg3 h3 _ _.
      eapply wp_bind; [apply wp_va_assign_m; exact I|]. intros ? tg4 h4 _ _. apply IH. }
    destruct o; try exact Hgo. apply wp_ret; exact I.
Qed.

Lemma wp_list_copy_loop : forall cf a ds tg h, wp (list_copy_loop cf a ds) tt_post tg h.
Proof.
  intros cf a ds. induction ds as [|d ds IH]; intros tg h; cbn [list_copy_loop].
  - apply wp_list_finish_top.
  - eapply wp_bind; [apply wp_list_assemble_value|]. intros ? tg1 h1 _ _.
    eapply wp_bind; [apply wp_va_assign_l; exact I|]. intros ? tg2 h2 _ _. apply IH.
Qed.

Lemma wp_map_assign_node : forall cf a r tg h, fref tg h r -> wp (map_assign_node cf a r) tt_post tg h.
Proof.
  intros cf a r tg h HP. unfold map_assign_node. apply wp_inv; intros HI.
  apply wp_rd_masm. intros v m Ga Vm Ta Hok Hm.
  apply wp_unless; intros St. apply mst_eqb_eq in St.
  destruct r as [| | | | |s2| |d]; try apply wp_crash; try (apply wp_ret; exact I).
  - destruct (m_w m) as [s|] eqn:Ws; [|apply wp_crash].
    destruct HP as [Ts2 (t & g & Gs2)]. apply (wp_rdv_at _ _ _ _ _ _ Gs2).
    destruct (masm_unfinished _ _ _ _ _ Hm Ws ltac:(congruence)) as [Ts (t0 & g0 & Gs & _)].
    eapply wp_shortcut; [exact Ta | exact Ga | exact Ts | exact Gs | exact (inv_frozen_at _ _ _ _ HI Ts2 Gs2) |].
    intros tg' h2 HE Tf Gh. eapply asm_finish_m; eauto.
  - destruct d; try (apply wp_ret; exact I).
    destruct (cf_mapcopy_begin cf); [|apply wp_map_copy_loop].
    eapply wp_bind.
    + eapply wp_map_begin; eauto. congruence.
    + intros ? tg1 h1 S1 _. apply wp_map_copy_loop.
Qed.

Lemma wp_list_assign_node : forall cf a r tg h, fref tg h r -> wp (list_assign_node cf a r) tt_post tg h.
Proof.
  intros cf a r tg h HP. unfold list_assign_node. apply wp_inv; intros HI.
  apply wp_rd_lasm. intros v l Ga Vm Ta Hok Hm.
  apply wp_unless; intros St. apply lst_eqb_eq in St.
  destruct r as [| | | | | |s2|d]; try apply wp_crash; try (apply wp_ret; exact I).
  - destruct (l_w l) as [s|] eqn:Ws; [|apply wp_crash].
    destruct HP as [Ts2 (x & Gs2)]. apply (wp_rdv_at _ _ _ _ _ _ Gs2).
    destruct (lasm_unfinished _ _ _ _ _ Hm Ws ltac:(congruence)) as [Ts (x0 & Gs & _)].
    eapply wp_shortcut; [exact Ta | exact Ga | exact Ts | exact Gs | exact (inv_frozen_at _ _ _ _ HI Ts2 Gs2) |].
    intros tg' h2 HE Tf Gh. rewrite <- Ws. eapply asm_finish_l; eauto.
  - destruct d; try (apply wp_ret; exact I).
    apply wp_list_copy_loop.
Qed.
