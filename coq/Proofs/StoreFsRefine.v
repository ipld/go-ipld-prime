(* Proofs/StoreFsRefine.v — the file-system store refines the finite map key -> bytes, for every
   history inside the quantifier of C17 whose keys the store can hold ([storable]: with the escaping
   function applied, every non-empty key whose base32 form fits a file name). *)
Require Import IP.Base.Bytes IP.Base.GoSem IP.Gen.FromGo IP.Store.Storage IP.Store.FsStore IP.Store.FsCrash.
Require Import IP.Proofs.BytesFacts IP.Proofs.StoreBase IP.Proofs.StoreMem IP.Proofs.StoreFs IP.Proofs.StoreCrash IP.Proofs.StoreCrashTop IP.Proofs.StoreSeq
               IP.Proofs.StoreGood.
From Coq Require Import Lia List Bool Arith NArith.
Import ListNotations.

(* the model's staging names, '#' and the binary digits of a counter, are valid file names (at most 255 bytes) as
   long as fewer than 2^254 were drawn *)

Lemma pos_name_bits : forall p, (2 ^ N.of_nat (length (pos_name p)) <= 2 * N.pos p)%N.
Proof.
  induction p; simpl length.
  - rewrite Nat2N.inj_succ, N.pow_succ_r'. lia.
  - rewrite Nat2N.inj_succ, N.pow_succ_r'. lia.
  - simpl. lia.
Qed.

Lemma stage_name_ok : forall n, (n < 2 ^ 254)%N -> comp_ok (stage_name n).
Proof.
  intros n H. split.
  - apply N.leb_le. unfold stage_name, lenN, name_max. destruct n as [|p]. simpl. lia.
    simpl length. pose proof (pos_name_bits p) as B.
    destruct (le_lt_dec (length (pos_name p)) 254); try lia.
    exfalso. assert (2 ^ 255 <= 2 ^ N.of_nat (length (pos_name p)))%N.
    { apply N.pow_le_mono_r; lia. }
    lia.
  - unfold stage_name.
    assert (A : forall p, existsb (N.eqb 0) (pos_name p) = false) by (induction p; simpl; auto).
    destruct n; simpl; auto.
Qed.

Lemma pos_name_nonnil : forall p, pos_name p <> [].
Proof. destruct p; discriminate. Qed.

Lemma pos_name_inj : forall p q, pos_name p = pos_name q -> p = q.
Proof.
  induction p; destruct q; simpl; intros H; inversion H; auto;
    try (f_equal; auto); try (exfalso; eapply pos_name_nonnil; eauto; fail);
    try (exfalso; eapply pos_name_nonnil; symmetry; eauto).
Qed.

Lemma stage_name_inj : forall a b, stage_name a = stage_name b -> a = b.
Proof.
  intros [|p] [|q] H; unfold stage_name in H; inversion H as [H1]; auto.
  - destruct q; simpl in H1; inversion H1. exfalso. eapply pos_name_nonnil; eauto.
  - destruct p; simpl in H1; inversion H1. exfalso. eapply pos_name_nonnil; eauto.
  - f_equal. apply pos_name_inj. auto.
Qed.

(* the store's "not found" is ENOENT, the specification's E404 *)
Definition norm_obs (o : obs) : obs := match o with OErr ENOENT => OErr E404 | _ => o end.

Definition fs_obs (cfg : fscfg) (st : fstate) (ops : list op) : list obs :=
  map (fun r => norm_obs (fst (fst r))) (fs_run cfg st ops).

(* the operations that open, feed and commit a stream in one go (Put, PutStream+Write*+commit,
   PutVec) and the reads — as opposed to streams kept open across other operations *)
Definition atomic_op (o : op) : bool :=
  match o with OOpen | OWrite _ _ | OCommit _ _ => false | _ => true end.

Definition op_storable (cfg : fscfg) (o : op) : Prop :=
  match key_of o with Some k => exists d, storable cfg k d | None => True end.

Lemma map_upd : forall {A B} (f : A -> B) l h x, map f (upd l h x) = upd (map f l) h (f x).
Proof. induction l; intros [|h] x; simpl; auto. f_equal. apply IHl. Qed.

Section Refine.
  Variable cfg : fscfg.
  Hypothesis base_ok : path_ok (f_base cfg).
  Hypothesis enc_inj : forall k k', wfb k -> wfb k' -> enc_key cfg k = enc_key cfg k' -> k = k'.

  (* The abstraction ignores staging files.  A stream the specification has open owns one, holding what was written to
     it, and no two streams the same; the counter names not yet drawn are in use nowhere, so the staging file of a
     put or of a new stream is nobody's.  What else lies under .temp is of no concern. *)
  Record rel (st : fstate) (s : spec) : Prop := {
    r_good : good cfg (fs_fs st);
    r_hnd : fs_hnd st = map fst (s_hnd s);
    r_map : forall k d, storable cfg k d ->
              fs_lookup (fs_fs st) d = match lookup k (s_map s) with Some c => Some (File c) | None => None end;
    r_len : length (fs_str st) = length (s_str s);
    r_open : forall sid c, nth_error (s_str s) sid = Some (c, false) ->
               exists name, nth_error (fs_str st) sid = Some (Some (stage_path (f_base cfg) name)) /\ comp_ok name /\
                            fs_lookup (fs_fs st) (stage_path (f_base cfg) name) = Some (File c);
    r_uniq : forall i j sp, nth_error (fs_str st) i = Some (Some sp) -> nth_error (fs_str st) j = Some (Some sp) -> i = j;
    r_fresh : forall j, (fs_ctr st <= j)%N ->
                fs_lookup (fs_fs st) (stage_path (f_base cfg) (stage_name j)) = None /\
                forall sid, nth_error (fs_str st) sid <> Some (Some (stage_path (f_base cfg) (stage_name j)))
  }.

  Lemma rel_handle : forall st s h, rel st s -> fs_handle st h = s_handle s h.
  Proof.
    intros st s h R. unfold fs_handle, s_handle. rewrite (r_hnd _ _ R), nth_error_map.
    destruct (nth_error (s_hnd s) h) as [[c b]|]; auto.
  Qed.

  Lemma storable_path : forall k d, storable cfg k d -> path_for_key cfg k = Some d.
  Proof. intros k d [_ [[_ [_ [_ E]]] _]]. auto. Qed.

  Lemma storable_guard : forall k d, storable cfg k d -> empty_key_guard cfg k = false.
  Proof. intros k d [KN _]. unfold empty_key_guard. destruct k; try congruence. apply andb_false_r. Qed.

  Lemma rel_move : forall st s f' ctr' sp k d c,
    rel st s -> storable cfg k d -> put_consistent s k c = true -> moved cfg (fs_fs st) f' sp d c ->
    (forall sid, nth_error (fs_str st) sid <> Some (Some sp)) -> (fs_ctr st <= ctr')%N ->
    rel {| fs_fs := f'; fs_hnd := fs_hnd st; fs_ctr := ctr'; fs_str := fs_str st |} (s_put s k c).
  Proof.
    intros st s f' ctr' sp k d c R HS PC MV NS CT. constructor; simpl.
    - apply MV.
    - rewrite s_put_hnd. apply R.
    - intros k' d' HS'. destruct (bytes_eqb_spec k' k) as [->|NE].
      + assert (d' = d) as -> by (apply storable_path in HS', HS; congruence).
        rewrite (mv_dest _ _ _ _ _ _ MV), spec_put_same; auto.
      + rewrite spec_put_other by auto. rewrite (mv_keys _ _ _ _ _ _ MV k' d' HS'). { apply R; auto. }
        intros ->. apply NE. destruct HS' as [_ [K' _]], HS as [_ [K _]]. eapply keypath_inj; eauto.
    - rewrite s_put_str. apply R.
    - intros sid c' SS. rewrite s_put_str in SS. destruct (r_open _ _ R sid c' SS) as [name [FO [NO L]]].
      exists name. rewrite (mv_staging _ _ _ _ _ _ MV) by (intros X; apply (NS sid); congruence). auto.
    - apply R.
    - intros j J. destruct (r_fresh _ _ R j) as [L F]. { lia. } split; auto.
      destruct (path_eqb_spec (stage_path (f_base cfg) (stage_name j)) sp) as [->|X]. { apply MV. }
      rewrite (mv_staging _ _ _ _ _ _ MV); auto.
  Qed.

  Lemma rel_close : forall st s sid c, rel st s -> nth_error (s_str s) sid = Some (c, false) ->
    rel {| fs_fs := fs_fs st; fs_hnd := fs_hnd st; fs_ctr := fs_ctr st; fs_str := upd (fs_str st) sid None |}
        (s_set_str s (upd (s_str s) sid (c, true))).
  Proof.
    intros st s sid c R SS. constructor; simpl; try apply R.
    - rewrite !upd_length. apply R.
    - intros sid' c' SS'. destruct (Nat.eq_dec sid sid') as [<-|NE].
      + rewrite upd_nth_error_same in SS' by (eapply nth_error_lt; eauto). discriminate.
      + rewrite upd_nth_error_other in SS' by auto. rewrite upd_nth_error_other by auto. apply (r_open _ _ R sid' c' SS').
    - intros i j sp Hi Hj. apply nth_error_upd in Hi. apply nth_error_upd in Hj.
      destruct Hi as [Hi|Hi], Hj as [Hj|Hj]; try discriminate. eapply (r_uniq _ _ R); eauto.
    - intros j J. destruct (r_fresh _ _ R j J) as [L F]. split; auto.
      intros sid' X. apply nth_error_upd in X. destruct X as [X|X]; [discriminate|]. exact (F sid' X).
  Qed.

  Lemma rel_put : forall st s kind k d chunks,
    rel st s -> storable cfg k d -> (fs_ctr st < 2 ^ 254)%N ->
    put_consistent s k (concat chunks) = true ->
    norm_obs (snd (fst (fs_put cfg st kind k chunks))) = OOk /\
    rel (fst (fst (fs_put cfg st kind k chunks))) (s_put s k (concat chunks)) /\
    (fs_ctr (fst (fst (fs_put cfg st kind k chunks))) <= fs_ctr st + 1)%N.
  Proof.
    intros st s kind k d chunks R HS CT PC.
    unfold fs_put. pose proof HS as [KN _]. rewrite (storable_path k d HS).
    destruct k as [|b k0]; try congruence.
    destruct (r_fresh _ _ R (fs_ctr st)) as [FR NS]. { lia. }
    match goal with |- context [w_run ?fu ?ev ?f ?pc ?l] =>
      destruct (put_good cfg base_ok (fs_fs st) (b :: k0) d ev chunks (r_good _ _ R) HS eq_refl eq_refl)
        as [f' [lg [RUN MV]]]
    end.
    { simpl. rewrite N.add_0_r. apply stage_name_ok. auto. }
    { unfold stp. simpl. rewrite N.add_0_r. exact FR. }
    rewrite RUN. simpl. split; auto. split; [|lia].
    unfold stp in MV. simpl in MV. rewrite N.add_0_r in MV. eapply rel_move; eauto. lia.
  Qed.

  Lemma step_rel : forall st s o, rel st s -> op_ok (@Some (list N)) s o = true -> op_storable cfg o ->
    (fs_ctr st < 2 ^ 254)%N ->
    norm_obs (snd (fst (fs_step cfg st o))) = snd (spec_step (@Some (list N)) true s o) /\
    rel (fst (fst (fs_step cfg st o))) (fst (spec_step (@Some (list N)) true s o)) /\
    (fs_ctr (fst (fst (fs_step cfg st o))) <= fs_ctr st + 1)%N.
  Proof.
    intros st s o R OK ST CT.
    assert (OPEN : forall k d, storable cfg k d ->
              exists lg, fs_open cfg (fs_fs st) k =
                         Some (match lookup k (s_map s) with Some c => Ok (File c) | None => Err ENOENT end, lg)).
    { intros k d HS. unfold fs_open.
      rewrite (storable_guard k d HS), (storable_path k d HS). unfold do_sys.
      rewrite (read_result cfg base_ok (fs_fs st) k d (SOpenRd d) (r_good _ _ R) HS) by auto.
      rewrite (r_map _ _ R k d HS). destruct (lookup k (s_map s)); eauto. }
    assert (ADD : forall c b, rel (fs_add_handle st c) (s_add s c b)).
    { intros. constructor; simpl; try apply R. rewrite (r_hnd _ _ R), map_app. auto. }
    assert (SET : forall name c, fs_lookup (fs_fs st) (stage_path (f_base cfg) name) <> Some Dir ->
              let f' := fs_set (fs_fs st) (stage_path (f_base cfg) name) (File c) in
              good cfg f' /\
              (forall k d, storable cfg k d ->
                 fs_lookup f' d = match lookup k (s_map s) with Some c => Some (File c) | None => None end) /\
              fs_lookup f' (stage_path (f_base cfg) name) = Some (File c)).
    { intros name c ND f'. split; [apply good_set_stage; auto; apply R|]. split.
      - intros k d HS. unfold f'. rewrite lookup_set_other. { apply (r_map _ _ R); auto. }
        intros E. destruct HS as [_ [K _]]. eapply keypath_not_staging; eauto. exists name. auto.
      - apply lookup_set_same, stage_path_nonnil. }
    destruct o; simpl in OK, ST |- *; unfold op_storable in ST; simpl in ST.
    (* put-stream, put-vec *)
    4-5: rewrite (gather_ext (fs_handle st) (s_handle s) hs (fun h => rel_handle st s h R));
         destruct (gather (s_handle s) hs) as [cs|] eqn:G; try discriminate;
         destruct ST as [d HS]; apply (rel_put st s WVec k d cs); auto.
    (* get, get-stream, peek (= get on this store): the caller gets a copy, or nothing changes *)
    4-6: destruct ST as [d HS]; destruct (OPEN k d HS) as [lg O]; rewrite O;
         destruct (lookup k (s_map s)) as [c|]; simpl; (split; auto; split; [apply ADD || apply R|lia]).
    - split; auto. split; [apply ADD|lia].
    - rewrite (rel_handle st s h R). unfold s_handle.
      destruct (nth_error (s_hnd s) h) as [[old b]|]; try discriminate. simpl.
      split; auto. split; [|lia]. constructor; simpl; try apply R.
      rewrite (r_hnd _ _ R), map_upd. reflexivity.
    - rewrite (rel_handle st s h R). destruct (s_handle s h) as [c|] eqn:SH; try discriminate.
      destruct ST as [d HS]. pose proof (rel_put st s WPut k d [c] R HS CT) as PUT.
      simpl in PUT. rewrite app_nil_r in PUT. apply PUT; auto.
    - destruct ST as [d HS]. unfold fs_has.
      rewrite (storable_guard k d HS), (storable_path k d HS). unfold do_sys.
      rewrite (read_result cfg base_ok (fs_fs st) k d (SStat d) (r_good _ _ R) HS) by auto.
      rewrite (r_map _ _ R k d HS). destruct (lookup k (s_map s)); simpl; (split; auto; split; [apply R|lia]).
    - destruct (r_fresh _ _ R (fs_ctr st)) as [FR NS]. { lia. }
      pose proof (stage_name_ok _ CT) as NO.
      set (sp := stage_path (f_base cfg) (stage_name (fs_ctr st))) in *.
      assert (X : sys_exec (fs_fs st) (SCreat sp) = (fs_set (fs_fs st) sp (File []), Ok RVUnit)).
      { apply exec_creat_ok; auto.
        - apply stage_path_ok; auto.
        - unfold sp. rewrite dirname_stage_path.
          apply all_dirs_snoc. apply (g_base _ _ (r_good _ _ R)). apply (g_temp _ _ (r_good _ _ R)). }
      unfold do_sys. rewrite X. simpl. split; auto. split; [|lia].
      destruct (SET (stage_name (fs_ctr st)) []) as [G' [M' L']]. { fold sp. rewrite FR. discriminate. }
      constructor; simpl; auto.
      + apply R.
      + rewrite !app_length. simpl. rewrite (r_len _ _ R). auto.
      + intros sid c SS. apply nth_error_snoc in SS. destruct SS as [[LT SS]|[EQ SS]].
        * destruct (r_open _ _ R sid c SS) as [name [FO [NM L]]]. exists name.
          rewrite nth_error_app1 by (eapply nth_error_lt; eauto). rewrite lookup_set_other; auto. congruence.
        * inversion SS; subst c. exists (stage_name (fs_ctr st)).
          rewrite EQ, <- (r_len _ _ R), nth_error_snoc_new. auto.
      + intros i j sp' Hi Hj. apply nth_error_snoc in Hi. apply nth_error_snoc in Hj.
        destruct Hi as [[Li Hi]|[Ei Hi]], Hj as [[Lj Hj]|[Ej Hj]].
        * eapply (r_uniq _ _ R); eauto.
        * exfalso. apply (NS i). congruence.
        * exfalso. apply (NS j). congruence.
        * congruence.
      + intros j J. destruct (r_fresh _ _ R j) as [L F]. { lia. }
        assert (NE : sp <> stage_path (f_base cfg) (stage_name j)).
        { intros E. apply stage_path_inj, stage_name_inj in E. lia. }
        split. { rewrite lookup_set_other; auto. }
        intros sid H. apply nth_error_snoc in H. destruct H as [[_ H]|[_ H]]; [exact (F sid H)|congruence].
    - rewrite (rel_handle st s h R).
      destruct (nth_error (s_str s) sid) as [[c u]|] eqn:SS; try discriminate.
      destruct (s_handle s h) as [b|] eqn:SH; try discriminate. destruct u; try discriminate.
      destruct (r_open _ _ R sid c SS) as [name [FO [NM L]]]. rewrite FO.
      unfold do_sys. rewrite (exec_write_ok _ _ b c L). simpl. split; auto. split; [|lia].
      destruct (SET name (c ++ b)) as [G' [M' L']]. { rewrite L. discriminate. }
      constructor; simpl; auto.
      + apply R.
      + rewrite upd_length. apply R.
      + intros sid' c' SS'. destruct (Nat.eq_dec sid sid') as [<-|NE].
        * rewrite upd_nth_error_same in SS' by (eapply nth_error_lt; eauto). inversion SS'; subst c'. eauto.
        * rewrite upd_nth_error_other in SS' by auto.
          destruct (r_open _ _ R sid' c' SS') as [name' [FO' [NM' L2]]]. exists name'.
          rewrite lookup_set_other; auto. intros X. rewrite <- X in FO'. apply NE. apply (r_uniq _ _ R _ _ _ FO FO').
      + apply R.
      + intros j J. destruct (r_fresh _ _ R j J) as [L2 F]. split; auto.
        rewrite lookup_set_other; auto. congruence.
    - destruct (nth_error (s_str s) sid) as [[c u]|] eqn:SS; try discriminate.
      apply andb_true_iff in OK. destruct OK as [U PC]. destruct u; try discriminate.
      destruct (r_open _ _ R sid c SS) as [name [FO [NM L]]]. rewrite FO.
      destruct ST as [d HS]. pose proof HS as [KN _]. rewrite (storable_path k d HS).
      destruct k as [|b0 k0]; try congruence.
      match goal with |- context [w_run ?fu ?ev ?f ?pc ?l] =>
        assert (SPE : stp cfg ev = stage_path (f_base cfg) name) by (unfold stp; simpl; rewrite last_comp_stage_path; auto);
        destruct (commit_good cfg base_ok (fs_fs st) (b0 :: k0) d ev c (r_good _ _ R) HS eq_refl eq_refl)
          as [f' [lg [RUN MV]]]
      end.
      { simpl. rewrite last_comp_stage_path. auto. }
      { rewrite SPE. auto. }
      rewrite SPE in RUN, MV. rewrite RUN. simpl. split; auto. split; [|lia].
      apply (rel_move _ _ f' (fs_ctr st) _ (b0 :: k0) d c (rel_close st s sid c R SS) HS PC MV); [|simpl; lia].
      simpl. intros sid' X. destruct (nth_error_upd _ _ _ _ _ X) as [Y|Y]; [discriminate|].
      rewrite <- (r_uniq _ _ R _ _ _ FO Y), upd_nth_error_same in X by (eapply nth_error_lt; eauto). discriminate.
  Qed.

  Theorem fs_refines_from : forall ops st s, rel st s ->
    hist_ok (@Some (list N)) true s ops = true -> Forall (op_storable cfg) ops ->
    (fs_ctr st + N.of_nat (length ops) < 2 ^ 254)%N ->
    fs_obs cfg st ops = spec_run (@Some (list N)) true s ops.
  Proof.
    induction ops; intros st s R OK ST CT; simpl in *. reflexivity.
    apply andb_true_iff in OK. destruct OK as [O1 O2]. inversion ST; subst.
    destruct (step_rel st s a R O1 H1) as [E [R' C']]. lia.
    unfold fs_obs. simpl.
    destruct (fs_step cfg st a) as [[st1 ob] lg]. destruct (spec_step (@Some (list N)) true s a) as [s1 ob2].
    simpl in *. f_equal; auto. apply IHops; auto. lia.
  Qed.
End Refine.

(* C17_refines_fs: the file-system store refines the map, from the freshly initialised store *)
Theorem fs_refines : forall cfg, path_ok (f_base cfg) -> forall ops,
  (forall k k', wfb k -> wfb k' -> enc_key cfg k = enc_key cfg k' -> k = k') ->
  hist_ok (@Some (list N)) true spec_empty ops = true -> Forall (op_storable cfg) ops ->
  (N.of_nat (length ops) < 2 ^ 254)%N ->
  fs_obs cfg (fstate0 cfg) ops = spec_run (@Some (list N)) true spec_empty ops.
Proof.
  intros cfg base_ok ops EI OK ST CT. apply (fs_refines_from cfg base_ok EI); auto.
  assert (FR : forall p, (length (f_base cfg) + 1 < length p)%nat -> fs_lookup (fs_fresh cfg) p = None).
  { intros p LP. destruct (fs_lookup (fs_fresh cfg) p) eqn:X; auto. apply fs_fresh_lookup in X. lia. }
  constructor; simpl; auto.
  - apply fresh_good; auto.
  - intros k d [_ [K _]]. apply FR. rewrite (keypath_length cfg k d K). unfold keylen. destruct (f_shard cfg); simpl; lia.
  - intros sid c H. destruct sid; discriminate.
  - intros i j sp H. destruct i; discriminate.
  - intros j _. split. { apply FR. unfold stage_path. rewrite app_length. simpl. lia. }
    intros sid H. destruct sid; discriminate.
Qed.
