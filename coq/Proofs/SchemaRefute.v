(* Proofs/SchemaRefute.v — example types and values; the predicates ([accepts_nonconforming], [view_deviates],
   [engines_differ]) and the closed computations ([witness], [vwitness], [ewitness]) by which Props/C08.v, C09.v,
   C13.v show, one witness per confirmed defect, that each statement fails under the quirks [pinned] (the setting
   that stands for /repo at its snapshot 3e45851, before any fix); the witnesses that proofs use; and that the
   hypotheses of the C08/C09/C13 theorems are satisfiable.  Everything here is a closed computation ([vm_compute]). *)
Require Import IP.Base.Bytes IP.DM.Value IP.Schema.Types IP.Schema.View IP.Schema.Conform IP.Schema.Sem.
Open Scope N_scope.

Definition sa : bytes := [97].   Definition sb : bytes := [98].   Definition sc : bytes := [99].
Definition sx : bytes := [120].  Definition sq : bytes := [113].  Definition sz : bytes := [122].
Definition nInt : bytes := [73; 110; 116].            (* "Int" *)
Definition nStr : bytes := [83; 116; 114].            (* "Str" *)
Definition nAny : bytes := [65; 110; 121].            (* "Any" *)
Definition nEn : bytes := [69; 110].                  (* "En" *)
Definition nS : bytes := [83].                        (* "S" *)
Definition nAa : bytes := [65; 97].                   (* "Aa" *)
Definition nBb : bytes := [66; 98].                   (* "Bb" *)

Definition fld (n k : bytes) (o nu : bool) (t : ty) : finfo * ty :=
  ({| f_name := n; f_key := k; f_opt := o; f_nul := nu |}, t).
Definition mem (n d : bytes) (k : kind) (t : ty) : minfo * ty :=
  ({| m_name := n; m_disc := d; m_kind := k |}, t).
Definition en (n s : bytes) (i : Z) : einfo := {| e_name := n; e_str := s; e_int := i |}.

(* type S struct { a Int (rename "x"), b optional nullable String, c nullable Int, d optional String } *)
Definition tSM : ty :=
  TStruct SMap [fld sa sx false false (TInt W64); fld sb sb true true TString;
                fld sc sc false true (TInt W64); fld [100] [100] true false TString].
Definition tTU : ty :=
  TStruct STuple [fld sa sa false false (TInt W64); fld sb sb true false TString; fld sc sc true true (TInt W64)].
Definition tLP : ty :=
  TStruct SListpairs [fld sa sa true false (TInt W64); fld sb sb true false TString; fld sc sc false false (TInt W64)].
Definition tEn : ty := TEnum false [en nAa sx 1; en nBb nBb 2].
Definition tEi : ty := TEnum true [en nAa nAa 1; en nBb nBb 2].
Definition tSJ : ty := TStruct (SStringjoin [58]) [fld sa sa false false TString; fld sb sb false false tEn].
Definition tUK : ty := TUnion UKeyed [mem nInt [105] KMap (TInt W64); mem nStr [115] KMap TString].
Definition tKD : ty :=
  TUnion UKinded [mem nInt [] KInt (TInt W64); mem nStr [] KString TString; mem nS [] KMap tSM;
                  mem [76] [] KList (TList false (TInt W64))].
Definition tKE : ty := TUnion UKinded [mem nEn [] KInt tEi; mem nStr [] KString TString].
Definition tSP : ty := TUnion (UStringprefix []) [mem nStr [115; 45] KString TString; mem nEn [101; 46] KString tEn].
(* a stringprefix union with the empty delimiter, as compiled from the DSL: the generated code refuses its own prefix *)
Definition tSP2 : ty := TUnion (UStringprefix []) [mem nStr [115; 45] KString TString; mem nS [116; 45] KString TString].
Definition tMS : ty := TMap false (TInt W64).
Definition tNL : ty := TList true tKD.
Definition tI8 : ty := TStruct SMap [fld [118] [118] false false (TInt W8)].
Definition tUA : ty := TUnion UKeyed [mem nAny sa KMap TAny; mem [76] [108] KMap TLink].
(* a stringprefix union with the delimiter "::" and discriminants that are prefixes of one another
   (expressible through the schema API, not the DSL) *)
Definition tSPd : ty :=
  TUnion (UStringprefix [58; 58]) [mem nStr [115] KString TString; mem nS [115; 116] KString TString].
Definition tBig : ty :=
  TStruct SMap [fld sa sx false false tTU; fld sb sb true false (TList true tSP); fld sc sc false false tKD;
                fld sq sq false true (TMap false tSJ); fld sz sz false false tLP].

Definition vSM : tv := VStruct [MVal (VInt 1); MAbsent; MNull; MVal (VString sz)].
Definition vBig : tv :=
  VStruct [MVal (VStruct [MVal (VInt 7); MVal (VString sq); MAbsent]);
           MVal (VList [MNull; MVal (VUnion 1 (VEnum nAa))]);
           MVal (VUnion 2 vSM);
           MVal (VMap [(sb, MVal (VStruct [MVal (VString sq); MVal (VEnum nBb)]))]);
           MVal (VStruct [MAbsent; MVal (VString sq); MVal (VInt 3)])].

Example wf_examples :
  forallb wf [tSM; tTU; tLP; tEn; tEi; tSJ; tUK; tKD; tKE; tSP; tSPd; tMS; tNL; tI8; tUA; tBig] = true.
Proof. vm_compute. reflexivity. Qed.

Example has_type_examples : has_type tSM vSM = true /\ has_type tBig vBig = true.
Proof. vm_compute. auto. Qed.

Example gen_supported_examples : forallb gen_supported [tSM; tTU; tUK; tKD; tMS; tNL] = true.
Proof. vm_compute. reflexivity. Qed.

(* the theorems' conclusions, computed on the deep example (a sanity run of the whole pipeline) *)
Example big_two_routes :
  tbuild Bind qoff tBig (tdm_spec tBig vBig) = BOk vBig /\ rbuild Bind qoff tBig (repr_spec tBig vBig) = BOk vBig /\
  repr_view Bind qoff tBig vBig = ov_of_dm (repr_spec tBig vBig).
Proof. vm_compute. auto. Qed.

(* the delimited stringprefix union: "st::a:b" is member 1 with "a:b"; a discriminant without the
   delimiter, a longer unknown discriminant and a bare delimiter are refused *)
Example delimited_prefix :
  rbuild Bind qoff tSPd (DString [115; 116; 58; 58; 97; 58; 98]) = BOk (VUnion 1 (VString [97; 58; 98])) /\
  repr_spec tSPd (VUnion 1 (VString [97; 58; 98])) = DString [115; 116; 58; 58; 97; 58; 98] /\
  conforms_r tSPd (DString [115; 116; 97]) = None /\
  conforms_r tSPd (DString [115; 116; 120; 58; 58; 97]) = None /\
  conforms_r tSPd (DString [58; 58; 97]) = None /\
  conforms_r tSPd (DString [115; 58; 58]) = Some (VUnion 0 (VString [])).
Proof. vm_compute. repeat split; reflexivity. Qed.

Definition accepts_nonconforming (lvl : level) (t : ty) (d : dm) : Prop :=
  wf t = true /\ (exists v, build Bind pinned lvl t d = BOk v) /\
  (match lvl with LType => conforms_t t d | LRepr => conforms_r t d end) = None.

Ltac witness := unfold accepts_nonconforming; vm_compute; repeat split; eauto.

Lemma refuted_dup_field :
  accepts_nonconforming LRepr tSM (DMap [(sx, DInt 1); (sx, DInt 2); (sc, DInt 1)]).
Proof. witness. Qed.

Lemma refuted_int_narrow_value :
  rbuild Bind pinned tI8 (DMap [([118], DInt 300)]) = BOk (VStruct [MVal (VInt 44)]).
Proof. vm_compute. reflexivity. Qed.

Lemma refuted_listpairs_unknown_panic :
  wf tLP = true /\
  rbuild Bind pinned tLP (DList [DList [DString sc; DInt 1]; DList [DString sq; DInt 1]]) = BPanic.
Proof. vm_compute. auto. Qed.

Definition view_deviates (t : ty) (v : tv) : Prop :=
  wf t = true /\ has_type t v = true /\ repr_view Bind pinned t v <> ov_of_dm (repr_spec t v).

Ltac vwitness := unfold view_deviates; vm_compute; repeat split; auto; discriminate.

Lemma refuted_listpairs_iter_index :
  view_deviates tLP (VStruct [MAbsent; MVal (VString sq); MVal (VInt 1)]).
Proof. vwitness. Qed.

Definition engines_differ (lvl : level) (t : ty) (d : dm) : Prop :=
  wf t = true /\ gen_supported t = true /\
  ~ bres_sim (observe Bind pinned lvl t d) (observe Gen pinned lvl t d).

Ltac ewitness := unfold engines_differ; vm_compute; repeat split; auto; try (intros H; exact H); try (intros H; discriminate H).

(* bindnode accepts, the generated code rejects *)
Lemma engines_differ_dup_field : engines_differ LRepr tSM (DMap [(sx, DInt 1); (sx, DInt 2); (sc, DInt 1)]).
Proof. ewitness. Qed.
