(* Proofs/StoreCrash.v — C18: under ANY interleaving of any number of writers, cut anywhere,
   with any system call failing, every key path is absent or holds exactly a committed content. *)
Require Import IP.Base.Bytes IP.Base.GoSem IP.Gen.FromGo IP.Store.Storage IP.Store.FsStore IP.Store.FsCrash.
Require Import IP.Proofs.StoreBase.
From Coq Require Import Lia List Bool Arith.
Import ListNotations.

Definition read_only (s : sysc) : Prop :=
  match s with SStat _ | SLstat _ | SOpenRd _ | SClose _ => True | _ => False end.

Inductive eff (f : fs) : sysc -> fs -> res errno rv -> Prop :=
  | eff_none : forall s e, eff f s f (Err e)
  | eff_same : forall s v, read_only s -> eff f s f (Ok v)
  | eff_creat : forall p, p <> [] -> fs_lookup f p = None ->
      eff f (SCreat p) (fs_set f p (File [])) (Ok RVUnit)
  | eff_write : forall p c old, fs_lookup f p = Some (File old) -> p <> [] ->
      eff f (SWrite p c) (fs_set f p (File (old ++ c))) (Ok RVUnit)
  | eff_write_part : forall p c old n e, fs_lookup f p = Some (File old) -> p <> [] ->
      eff f (SWrite p c) (fs_set f p (File (old ++ firstn n c))) (Err e)
  | eff_rename : forall p q c, p <> [] -> q <> [] -> fs_lookup f p = Some (File c) ->
      eff f (SRename p q) (fs_set (fs_remove f p) q (File c)) (Ok RVUnit)
  | eff_mkdir : forall p, p <> [] -> fs_lookup f p = None ->
      eff f (SMkdir p) (fs_set f p Dir) (Ok RVUnit)
  | eff_unlink : forall p, p <> [] -> eff f (SUnlink p) (fs_remove f p) (Ok RVUnit).

(* [eff] is the coarser view the invariant proof needs: it forgets what the call found (parent
   directories) and also admits a failed write that appended a prefix of its chunk, which [sys_exec]
   never does but [fail_effect] of Store/FsCrash.v does *)
Lemma sys_eff_eff : forall f s f1 r, sys_eff f s f1 r -> eff f s f1 r.
Proof.
  destruct 1; constructor; simpl; eauto using lookup_none_nonnil, lookup_file_nonnil.
Qed.

Lemma sys_exec_eff : forall f s, eff f s (fst (sys_exec f s)) (snd (sys_exec f s)).
Proof. intros. apply sys_eff_eff, sys_exec_spec. Qed.

Lemma fail_eff : forall f s part e, eff f s (fail_effect f s part) (Err e).
Proof.
  intros f s part e. destruct s; simpl; try (constructor; fail).
  destruct (fs_lookup f p) as [[old|]|] eqn:L; simpl; try (constructor; fail).
  constructor; auto. eapply lookup_file_nonnil; eauto.
Qed.

Section Crash.
  Variable cfg : fscfg.

  Definition keylen : nat := length (f_base cfg) + shard_depth (f_shard cfg) + 1.

  (* p is the path of key k, and k is a key the store can hold without the C17 defect biting:
     its (escaped) form has no '/', '.', NUL and is not empty *)
  Definition keypath (k : key) (p : path) : Prop :=
    wfb k /\ plain (enc_key cfg k) /\ key_len_ok (enc_key cfg k) /\ path_for_key cfg k = Some p.

  Definition in_staging (p : path) : Prop := exists name, p = stage_path (f_base cfg) name.

  Lemma keypath_shape : forall k p, keypath k p ->
    exists cs, p = f_base cfg ++ cs ++ [enc_key cfg k] /\ length cs = shard_depth (f_shard cfg) /\ Forall plain cs /\
               Forall (fun c => (length c <= 3)%nat) cs.
  Proof.
    intros k p [_ [P [L E]]]. destruct (path_for_key_plain cfg k L P) as [cs [E2 R]].
    exists cs. rewrite E in E2. inversion E2. auto.
  Qed.

  Lemma keypath_length : forall k p, keypath k p -> length p = keylen.
  Proof.
    intros k p H. destruct (keypath_shape k p H) as [cs [E [L _]]]. subst p.
    rewrite !app_length. simpl. unfold keylen. lia.
  Qed.

  Lemma keypath_nonnil : forall k p, keypath k p -> p <> [].
  Proof. intros k p K ->. apply keypath_length in K. unfold keylen in K. simpl in K. lia. Qed.

  Lemma temp_not_plain : ~ plain temp_name.
  Proof. intros [_ H]. inversion H; subst. destruct H2 as [_ [X _]]. apply X. reflexivity. Qed.

  Lemma keypath_not_staging : forall k p, keypath k p -> ~ in_staging p.
  Proof.
    intros k p H [name E]. destruct (keypath_shape k p H) as [cs [E2 [L [F _]]]]. rewrite E2 in E.
    unfold stage_path in E. apply app_inv_head in E.
    destruct cs as [|c1 [|c2 cs']]; simpl in E.
    - destruct (f_shard cfg); simpl in L; discriminate.
    - inversion E. subst. inversion F. apply temp_not_plain. auto.
    - inversion E. destruct cs'; discriminate.
  Qed.

  Lemma staging_nonnil : forall p, in_staging p -> p <> [].
  Proof. intros p [name ->]. apply stage_path_nonnil. Qed.

  (* escaping applied and injective, or no escaping at all (then enc_key is the identity); only [keypath_inj] and
     [inv_atomic] use it: [step_inv], [exec_inv] do not *)
  Hypothesis enc_inj : forall k k', wfb k -> wfb k' -> enc_key cfg k = enc_key cfg k' -> k = k'.

  Lemma keypath_inj : forall k k' p, keypath k p -> keypath k' p -> k = k'.
  Proof.
    intros k k' p H H'. destruct (keypath_shape k p H) as [cs [E _]].
    destruct (keypath_shape k' p H') as [cs' [E' _]]. rewrite E in E'.
    apply app_inv_head in E'. apply app_inj_tail in E'.
    apply enc_inj; try tauto. apply H. apply H'.
  Qed.

  (* the contents that may legitimately be found under a key *)
  Variable C : key -> bytes -> Prop.

  Definition stage_of (pc : wpc) : option path :=
    match pc with
    | WCreate _ _ | WDone _ => None
    | WWrite st _ | WClose st _ | WAbort st _ | WLstatNew st _ | WLstatOld st _ | WRename st _
    | WDirDown st _ _ | WDirUp st _ _ | WExist st => Some st
    end.

  Definition env_ok (w : writer) : Prop :=
    we_base (w_env w) = f_base cfg /\
    match we_dest (w_env w) with
    | Some d => keypath (w_key w) d /\ C (w_key w) (w_content w)
    | None => True
    end.

  Definition short (p : path) : Prop := (length p < keylen)%nat.

  Lemma keypath_not_short : forall k p, keypath k p -> ~ short p.
  Proof. intros k p K S. unfold short in S. rewrite (keypath_length k p K) in S. exact (Nat.lt_irrefl _ S). Qed.

  Definition pc_ok (f : fs) (w : writer) : Prop :=
    match w_pc w with
    | WCreate _ cs => cs = w_chunks w
    | WWrite st rest => exists done, fs_lookup f st = Some (File done) /\ done ++ concat rest = w_content w
    | WClose st None => fs_lookup f st = Some (File (w_content w))
    | WLstatNew st _ | WLstatOld st _ | WRename st _ =>
        fs_lookup f st = Some (File (w_content w)) /\ we_dest (w_env w) <> None
    | WDirDown st p stack | WDirUp st p stack =>
        fs_lookup f st = Some (File (w_content w)) /\ we_dest (w_env w) <> None /\ short p /\ Forall short stack
    | WClose st (Some _) | WAbort st _ | WExist st => exists c, fs_lookup f st = Some (File c)
    | WDone _ => True
    end.

  Definition staged (w : writer) : Prop :=
    match stage_of (w_pc w) with Some st => in_staging st | None => True end.

  (* [inv_files]: a file is a staging file or lies under the path of a key, with a content allowed for that key;
     [inv_dirs]: directories are shorter than a key path ([keylen] = base, shard levels, key), so no key path is a
     directory; [inv_w]: each writer's staging file holds what its pc says; [inv_own]: no two writers share one. *)
  Record inv (f : fs) (ws : list writer) : Prop := {
    inv_files : forall p c, fs_lookup f p = Some (File c) ->
                  in_staging p \/ exists k, keypath k p /\ C k c;
    inv_dirs : forall p, fs_lookup f p = Some Dir -> short p;
    inv_w : forall i w, nth_error ws i = Some w -> env_ok w /\ pc_ok f w /\ staged w;
    inv_own : forall i j wi wj st, i <> j -> nth_error ws i = Some wi -> nth_error ws j = Some wj ->
                stage_of (w_pc wi) = Some st -> stage_of (w_pc wj) = Some st -> False
  }.

  Lemma pc_ok_has_file : forall f w st, pc_ok f w -> stage_of (w_pc w) = Some st ->
    exists c, fs_lookup f st = Some (File c).
  Proof.
    intros f w st H S. unfold pc_ok in H. destruct (w_pc w); simpl in S; inversion S; subst;
      try (destruct H as [c [H _]]; eauto; fail); try (destruct H as [H _]; eauto; fail); eauto.
    destruct after; eauto.
  Qed.

  Lemma pc_ok_ext : forall f f1 w,
    (forall st, stage_of (w_pc w) = Some st -> fs_lookup f1 st = fs_lookup f st) ->
    pc_ok f w -> pc_ok f1 w.
  Proof.
    intros f f1 w H P. unfold pc_ok in *. destruct (w_pc w); simpl in H; auto;
      try (rewrite (H _ eq_refl); auto; fail);
      try (destruct after); try (rewrite (H _ eq_refl); auto; fail);
      try (destruct P as [c P]; exists c; rewrite (H _ eq_refl); auto).
  Qed.

  Theorem inv_atomic : forall f ws, inv f ws -> forall k p, keypath k p ->
    fs_lookup f p = None \/ exists c, fs_lookup f p = Some (File c) /\ C k c.
  Proof.
    intros f ws I k p K. destruct (fs_lookup f p) as [[c|]|] eqn:L; auto.
    - right. exists c. split; auto. destruct (inv_files _ _ I p c L) as [S|[k' [K' HC]]].
      + exfalso. eapply keypath_not_staging; eauto.
      + rewrite (keypath_inj k k' p K K'). auto.
    - exfalso. exact (keypath_not_short k p K (inv_dirs _ _ I p L)).
  Qed.

  Theorem inv_staging_disjoint : forall f ws i w st, inv f ws -> nth_error ws i = Some w ->
    stage_of (w_pc w) = Some st -> forall k p, keypath k p -> st <> p.
  Proof.
    intros f ws i w st I N S k p K E. subst p.
    destruct (inv_w _ _ I i w N) as [_ [_ G]]. unfold staged in G. rewrite S in G.
    eapply keypath_not_staging; eauto.
  Qed.

  Lemma dirname_short : forall p, short p -> short (dirname p).
  Proof.
    intros p H. unfold short, dirname in *. rewrite removelast_firstn_len.
    pose proof (firstn_le_length (pred (length p)) p). lia.
  Qed.

  Lemma dirname_keypath_short : forall k p, keypath k p -> short (dirname p).
  Proof.
    intros k p K. destruct (keypath_shape k p K) as [cs [E [L _]]]. subst p.
    unfold dirname. rewrite app_assoc, removelast_last. unfold short, keylen. rewrite app_length.
    rewrite L. rewrite Nat.add_1_r. apply Nat.lt_succ_diag_r.
  Qed.

  (* [inv_files] and [inv_dirs], the half of [inv] that does not speak of writers: what [fs_set] and [fs_remove]
     have to preserve *)
  Definition tree_ok (f : fs) : Prop :=
    (forall p c, fs_lookup f p = Some (File c) -> in_staging p \/ exists k, keypath k p /\ C k c) /\
    (forall p, fs_lookup f p = Some Dir -> short p).

  Lemma inv_tree : forall f ws, inv f ws -> tree_ok f.
  Proof. intros f ws I. split. apply (inv_files _ _ I). apply (inv_dirs _ _ I). Qed.

  Lemma tree_set : forall f p n, tree_ok f -> p <> [] ->
    match n with File c => in_staging p \/ exists k, keypath k p /\ C k c | Dir => short p end ->
    tree_ok (fs_set f p n).
  Proof.
    intros f p n [TF TD] P H. split.
    - intros q c' L. apply lookup_set_inv in L; auto. destruct L as [[-> <-]|[_ L]]; eauto.
    - intros q L. apply lookup_set_inv in L; auto. destruct L as [[-> <-]|[_ L]]; eauto.
  Qed.

  Lemma tree_remove : forall f p, tree_ok f -> p <> [] -> tree_ok (fs_remove f p).
  Proof.
    intros f p [TF TD] P. split.
    - intros q c' L. apply lookup_remove_inv in L; auto. destruct L; eauto.
    - intros q L. apply lookup_remove_inv in L; auto. destruct L; eauto.
  Qed.

  Definition others_free (ws : list writer) (i : nat) (p : path) : Prop :=
    forall j wj, j <> i -> nth_error ws j = Some wj -> stage_of (w_pc wj) <> Some p.

  Lemma others_not_absent : forall f ws i st, inv f ws -> fs_lookup f st = None -> others_free ws i st.
  Proof.
    intros f ws i st I L j wj Hj Nj Sj. destruct (inv_w _ _ I j wj Nj) as [_ [Q _]].
    destruct (pc_ok_has_file f wj st Q Sj) as [c X]. congruence.
  Qed.

  (* what one system call of writer i may have made of f: f1 is again a tree of the invariant's shape, and the
     staging files of all OTHER writers are what they were *)
  Record frame (f f1 : fs) (ws : list writer) (i : nat) : Prop := {
    fr_tree : tree_ok f1;
    fr_others : forall j wj st, j <> i -> nth_error ws j = Some wj -> stage_of (w_pc wj) = Some st ->
                  fs_lookup f1 st = fs_lookup f st
  }.

  Lemma frame_set : forall f ws i p n, inv f ws -> p <> [] -> others_free ws i p ->
    match n with File c => in_staging p \/ exists k, keypath k p /\ C k c | Dir => short p end ->
    frame f (fs_set f p n) ws i.
  Proof.
    intros f ws i p n I NN O H. split.
    - apply tree_set; auto. eapply inv_tree; eauto.
    - intros j wj stj Hj Nj Sj. apply lookup_set_other. intros E. subst stj. eapply O; eauto.
  Qed.

  Lemma frame_remove_stage : forall f ws i st,
    inv f ws -> in_staging st -> others_free ws i st -> frame f (fs_remove f st) ws i.
  Proof.
    intros f ws i st I S O. split.
    - apply tree_remove. eapply inv_tree; eauto. apply staging_nonnil; auto.
    - intros j wj stj Hj Nj Sj. apply lookup_remove_other. intros E. subst stj. eapply O; eauto.
  Qed.

  Lemma frame_rename : forall f ws i w st d,
    inv f ws -> nth_error ws i = Some w -> in_staging st -> others_free ws i st ->
    we_dest (w_env w) = Some d ->
    frame f (fs_set (fs_remove f st) d (File (w_content w))) ws i.
  Proof.
    intros f ws i w st d I N S O D.
    destruct (inv_w _ _ I i w N) as [[_ E] _]. rewrite D in E. destruct E as [K HC].
    pose proof (keypath_nonnil _ _ K) as ND.
    pose proof (staging_nonnil st S) as NS.
    split.
    - apply tree_set; eauto. apply tree_remove; auto. eapply inv_tree; eauto.
    - intros j wj stj Hj Nj Sj.
      assert (stj <> d).
      { intros X. subst stj. destruct (inv_w _ _ I j wj Nj) as [_ [_ Gj]]. unfold staged in Gj. rewrite Sj in Gj.
        eapply keypath_not_staging; eauto. }
      rewrite lookup_set_other by auto. apply lookup_remove_other. intros X. subst stj. eapply O; eauto.
  Qed.

  (* The last premise is for [inv_own]: the staging file of the new pc is the one writer i had already, or one that
     no other writer has. *)
  Lemma inv_step : forall f f1 ws i w pc',
    inv f ws -> nth_error ws i = Some w -> frame f f1 ws i ->
    pc_ok f1 (set_pc w pc') ->
    (match stage_of pc' with
     | Some st => in_staging st /\ (stage_of (w_pc w) = Some st \/ others_free ws i st)
     | None => True end) ->
    inv f1 (upd ws i (set_pc w pc')).
  Proof.
    intros f f1 ws i w pc' I N F P S.
    assert (IL : (i < length ws)%nat) by (eapply nth_error_lt; eauto).
    constructor.
    - apply (fr_tree _ _ _ _ F).
    - apply (fr_tree _ _ _ _ F).
    - intros j wj Hj. destruct (Nat.eq_dec i j).
      + subst j. rewrite upd_nth_error_same in Hj by auto. inversion Hj; subst wj.
        destruct (inv_w _ _ I i w N) as [E _]. split; [exact E|]. split; [exact P|].
        unfold staged. simpl. destruct (stage_of pc'); tauto.
      + rewrite upd_nth_error_other in Hj by auto.
        destruct (inv_w _ _ I j wj Hj) as [E [Q G]]. split; auto. split; auto.
        eapply pc_ok_ext; [|exact Q]. intros st Hst. eapply fr_others; eauto.
    - assert (ME : forall b wb st, i <> b -> nth_error ws b = Some wb -> stage_of pc' = Some st ->
                     stage_of (w_pc wb) = Some st -> False).
      { intros b wb st Hb Nb Sa Sb. rewrite Sa in S. destruct S as [_ [S|S]].
        - eapply (inv_own _ _ I i b w wb st); eauto.
        - eapply S; eauto. }
      intros a b wa wb st Hab Ha Hb Sa Sb.
      destruct (Nat.eq_dec i a); destruct (Nat.eq_dec i b); try lia.
      + subst a. rewrite upd_nth_error_same in Ha by auto. inversion Ha; subst wa.
        rewrite upd_nth_error_other in Hb by auto. eapply ME; eauto.
      + subst b. rewrite upd_nth_error_same in Hb by auto. inversion Hb; subst wb.
        rewrite upd_nth_error_other in Ha by auto. eapply ME; eauto.
      + rewrite upd_nth_error_other in Ha by auto. rewrite upd_nth_error_other in Hb by auto.
        eapply (inv_own _ _ I a b); eauto.
  Qed.

  Lemma after_rename_ok : forall f1 w st second r,
    env_ok w -> fs_lookup f1 st = Some (File (w_content w)) -> we_dest (w_env w) <> None ->
    pc_ok f1 (set_pc w (after_rename (w_env w) st second r)) /\
    (stage_of (after_rename (w_env w) st second r) = None \/
     stage_of (after_rename (w_env w) st second r) = Some st).
  Proof.
    intros f1 w st second r [_ E] L D. unfold after_rename, pc_ok. destruct r as [|e]; simpl; auto.
    destruct (negb second && is_enoent e); simpl.
    - repeat split; auto.
      unfold w_dest. destruct (we_dest (w_env w)) as [d|]; try congruence.
      eapply dirname_keypath_short. apply E.
    - destruct (is_exist e); simpl; eauto.
  Qed.

  Lemma have_ret_ok : forall f1 w st r stack,
    fs_lookup f1 st = Some (File (w_content w)) -> we_dest (w_env w) <> None -> Forall short stack ->
    pc_ok f1 (set_pc w (have_ret st r stack)) /\
    (stage_of (have_ret st r stack) = None \/ stage_of (have_ret st r stack) = Some st).
  Proof.
    intros f1 w st r stack L D F. unfold have_ret, pc_ok. destruct r; simpl; auto.
    destruct stack; simpl; auto. inversion F; subst. auto 6.
  Qed.

  Lemma w_content_set_pc : forall w pc, w_content (set_pc w pc) = w_content w.
  Proof. reflexivity. Qed.

  Ltac pcok := unfold pc_ok; cbn [set_pc w_pc w_env stage_of]; rewrite ?w_content_set_pc.

  (* One case per pc of writer i, each by inversion of [eff]: the call failed or only read (the tree is f: [FR]), or
     it had its one effect ([frame_set], [frame_remove_stage], [frame_rename]).  [K] is [inv_step] for a new pc that
     keeps the staging file or has none, which is every case but the create; [MINE]: no other writer has the
     staging file of writer i, so writing, removing or renaming it is within the frame. *)
  Theorem step_inv : forall f ws i w s f1 r,
    inv f ws -> nth_error ws i = Some w -> w_next (w_env w) (w_pc w) = Some s -> eff f s f1 r ->
    inv f1 (upd ws i (set_pc w (w_step (w_env w) (w_pc w) r))).
  Proof.
    intros f ws i w s f1 r I N NX EF.
    destruct (inv_w _ _ I i w N) as [EO [PO SG]].
    pose proof EO as [EB ED].
    assert (FR : frame f f ws i) by (split; auto; eapply inv_tree; eauto).
    assert (MINE : forall st, stage_of (w_pc w) = Some st -> others_free ws i st).
    { intros st S j wj Hj Nj Sj. eapply (inv_own _ _ I i j); eauto. }
    assert (K : forall g pc', frame f g ws i -> pc_ok g (set_pc w pc') ->
                  (stage_of pc' = None \/ stage_of pc' = stage_of (w_pc w)) -> inv g (upd ws i (set_pc w pc'))).
    { intros g pc' F P S. eapply inv_step; eauto.
      destruct (stage_of pc') as [st|] eqn:E; auto.
      destruct S as [S|S]; try discriminate. unfold staged in SG. rewrite <- S in SG. auto. }
    (* os.Mkdir(p) inside haveDir, unless it reports ENOENT: both the first and the second attempt *)
    assert (MK : forall st p stack, s = SMkdir p -> stage_of (w_pc w) = Some st ->
              fs_lookup f st = Some (File (w_content w)) -> we_dest (w_env w) <> None -> short p -> Forall short stack ->
              inv f1 (upd ws i (set_pc w (have_ret st (mkdir_res (w_env w) (strip r)) stack)))).
    { intros st p stack -> ST L D SP SS. rewrite ST in K.
      inversion EF; subst.
      - destruct (have_ret_ok f1 w st (mkdir_res (w_env w) (strip (Err e))) stack L D SS). apply K; auto.
      - simpl in H. contradiction.
      - assert (L1 : fs_lookup (fs_set f p Dir) st = Some (File (w_content w))).
        { rewrite lookup_set_other; auto. intros X. subst. congruence. }
        destruct (have_ret_ok _ w st (mkdir_res (w_env w) (strip (Ok RVUnit))) stack L1 D SS).
        apply K; auto. apply frame_set; auto. eapply others_not_absent; eauto. }
    unfold pc_ok in PO. unfold staged in SG.
    destruct (w_pc w) as [tr chunks|st chunks|st after|st after|st second|st second|st second
                          |st p stack|st p stack|st|res] eqn:PC; simpl in NX, SG, K, MINE;
      try (injection NX as NX; subst s); try discriminate; cbn [w_step];
      try (specialize (MINE _ eq_refl)).
    - rewrite EB in *. subst chunks.
      assert (ST : in_staging (stage_path (f_base cfg) (we_names (w_env w) tr))) by (eexists; eauto).
      inversion EF; subst.
      + destruct e; apply K; simpl; auto; pcok; auto.
      + simpl in H. contradiction.
      + assert (O : others_free ws i (stage_path (f_base cfg) (we_names (w_env w) tr))).
        { eapply others_not_absent; eauto. }
        eapply inv_step; eauto.
        * apply frame_set; auto using staging_nonnil.
        * unfold after_create. destruct (w_chunks w) eqn:WC; pcok.
          -- rewrite lookup_set_same by auto. unfold w_content. rewrite WC. reflexivity.
          -- exists []. rewrite lookup_set_same by auto. unfold w_content. rewrite WC. auto.
        * unfold after_create. destruct (w_chunks w); simpl; auto.
    - destruct PO as [done [L CT]].
      assert (EFF : exists c, eff f (SWrite st c) f1 r /\ done ++ c ++ concat (tl chunks) = w_content w).
      { destruct chunks as [|c rest]; injection NX as NX; subst s.
        - exists []. split; auto.
        - exists c. split; auto. }
      clear NX EF. destruct EFF as [c [EF CT2]].
      inversion EF; subst.
      + destruct (we_kind (w_env w)); apply K; auto; pcok; eauto.
      + simpl in H. contradiction.
      + rewrite L in H1. inversion H1; subst old.
        destruct (tl chunks) eqn:T; apply K; auto; try (apply frame_set; auto using staging_nonnil); pcok.
        * rewrite lookup_set_same by auto. simpl in CT2. rewrite app_nil_r in CT2. rewrite CT2. auto.
        * exists (done ++ c). rewrite lookup_set_same by auto. split; auto.
          rewrite <- app_assoc. auto.
      + rewrite L in H1. inversion H1; subst old.
        destruct (we_kind (w_env w)); apply K; auto; try (apply frame_set; auto using staging_nonnil); pcok;
          try (eexists; rewrite lookup_set_same by auto; reflexivity); auto.
    - assert (FX : f1 = f) by (inversion EF; auto). subst f1.
      destruct r as [v|e]; destruct after as [e0|]; apply K; simpl; auto; pcok; auto;
        destruct (we_dest (w_env w)) eqn:D; simpl; eauto; split; auto; congruence.
    - assert (X : inv f1 (upd ws i (set_pc w (WDone (match after with
                    | Some e0 => Err e0
                    | None => match r with
                              | Ok _ => if we_empty_ok (w_env w) then Ok tt else Err EEMPTYKEY
                              | Err e => Err e end end))))).
      { inversion EF; subst.
        - apply K; auto. pcok; auto.
        - simpl in H. contradiction.
        - apply K; auto. apply frame_remove_stage; auto. pcok; auto. }
      destruct after; auto. destruct r; auto. destruct (we_empty_ok (w_env w)); auto.
    - assert (FX : f1 = f) by (inversion EF; auto). subst f1.
      destruct r as [[|[c|]]|e]; apply K; simpl; auto.
    - assert (FX : f1 = f) by (inversion EF; auto). subst f1. destruct PO as [L D].
      assert (X : forall r', inv f (upd ws i (set_pc w (after_rename (w_env w) st second r')))).
      { intros r'. destruct (after_rename_ok f w st second r' EO L D). apply K; auto. }
      destruct r; apply X.
    - destruct PO as [L D].
      inversion EF; subst.
      + destruct (after_rename_ok f1 w st second (Err e) EO L D). apply K; auto.
      + simpl in H. contradiction.
      + rewrite L in H5. inversion H5; subst c. simpl.
        unfold w_dest in *. destruct (we_dest (w_env w)) as [d|] eqn:DD; try congruence.
        apply K; auto. eapply frame_rename; eauto. pcok. auto.
    - destruct PO as [L [D [SP SS]]].
      destruct r as [v|e]; try destruct e; try (eapply MK; eauto; fail).
      (* ENOENT sends haveDir to the parent *)
      assert (FX : f1 = f) by (inversion EF; auto). subst f1.
      apply K; auto. pcok. repeat split; auto. apply dirname_short; auto.
    - destruct PO as [L [D [SP SS]]]. eapply MK; eauto.
    - inversion EF; subst.
      + apply K; auto. pcok; auto.
      + simpl in H. contradiction.
      + apply K; auto. apply frame_remove_stage; auto. pcok; auto.
  Qed.

  Lemma exec_ev_inv : forall f ws e, inv f ws -> inv (fst (exec_ev f ws e)) (snd (exec_ev f ws e)).
  Proof.
    intros f ws e I. destruct e as [i|i err part]; simpl.
    - destruct (nth_error ws i) as [w|] eqn:N; simpl; auto.
      destruct (w_next (w_env w) (w_pc w)) as [s|] eqn:NX; simpl; auto.
      pose proof (sys_exec_eff f s) as EF. destruct (sys_exec f s) as [f1 r]. simpl in *.
      eapply step_inv; eauto.
    - destruct (nth_error ws i) as [w|] eqn:N; simpl; auto.
      destruct (w_next (w_env w) (w_pc w)) as [s|] eqn:NX; simpl; auto.
      eapply step_inv; eauto. apply fail_eff.
  Qed.

  Theorem exec_inv : forall sched f ws, inv f ws -> inv (fst (exec f ws sched)) (snd (exec f ws sched)).
  Proof.
    induction sched; intros f ws I; simpl; auto.
    pose proof (exec_ev_inv f ws a I) as I1.
    destruct (exec_ev f ws a) as [f1 ws1]. simpl in I1. apply IHsched. auto.
  Qed.
End Crash.
