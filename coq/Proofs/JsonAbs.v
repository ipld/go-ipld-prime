(* Proofs/JsonAbs.v — dagjson's look-ahead window abstracted to (number of buffered tokens, logical
   token stream), and the lock-step simulation: whenever the abstract unmarshal succeeds, the model
   unmarshal (tokenizer + window) succeeds with the same value. *)
Require Import IP.Base.Bytes IP.DM.Value IP.Codec.Utf8 IP.Codec.Base64 IP.Codec.DagJson.
Require Import IP.Proofs.JsonTok.
Open Scope N_scope.

Definition astate := (nat * list tok)%type.

Definition anext (s : astate) : res jderr (tok * astate) :=
  match snd s with t :: L => Ok (t, (pred (fst s), L)) | [] => Err JDOther end.

(* tokSrc.Step behind the window's back: only sound when nothing is buffered *)
Definition anext_direct (s : astate) : res jderr (tok * astate) :=
  match fst s, snd s with
  | O, t :: L => Ok (t, (O, L))
  | _, _ => Err JDStale
  end.

Definition apeek (k : nat) (s : astate) : res jderr (tok * astate) :=
  match nth_error (snd s) (pred k) with
  | None => Err JDOther
  | Some t =>
    if Nat.ltb (fst s) k then (if Nat.eqb (fst s) (pred k) then Ok (t, (k, snd s)) else Err JDStale)
    else Ok (t, s)
  end.

(* st.shift = 0: whatever is buffered is dropped *)
Definition aclear (s : astate) : astate := (O, skipn (fst s) (snd s)).

(* one round of unmarshal, of its map loop and of its list loop, over any token source and with the
   recursive calls abstracted: what the model's [unm] and the abstract [aunm] below have in common *)
Section Step.
  Context {S : Type}.
  Variables (link bytes_ : S -> res jderr (option bytes * S)) (next nextd : S -> res jderr (tok * S)).
  Variable U : jdopts -> Z -> tok -> S -> res jderr (dm * S).
  Variable M : jdopts -> Z -> list bytes -> S -> res jderr (list (bytes * dm) * S).
  Variable L : jdopts -> Z -> S -> res jderr (list dm * S).

  Definition unm_step (o : jdopts) (depth : Z) (t : tok) (s : S) : res jderr (dm * S) :=
    match t with
    | TMapOpen =>
      if (jmax_depth o <=? depth)%Z then Err JDDepth else
      do r1 <- (if jd_links o then link s else Ok (None, s));
      match r1 with
      | (Some c, s1) => Ok (DLink c, s1)
      | (None, s1) =>
        do r2 <- (if jd_bytes o then bytes_ s1 else Ok (None, s1));
        match r2 with
        | (Some b, s2) => Ok (DBytes b, s2)
        | (None, s2) =>
          do r3 <- M o depth [] s2;
          let '(m, s3) := r3 in Ok (DMap m, s3)
        end
      end
    | TMapClose => Err JDOther
    | TArrOpen =>
      if (jmax_depth o <=? depth)%Z then Err JDDepth else
      do r <- L o depth s;
      let '(l, s') := r in Ok (DList l, s')
    | TArrClose => Err JDOther
    | TNull => Ok (DNull, s)
    | TString x => Ok (DString x, s)
    | TBool b => Ok (DBool b, s)
    | TInt z => Ok (DInt z, s)
    | TFloat x => Ok (DFloat x, s)
    end.

  Definition map_step (o : jdopts) (depth : Z) (seen : list bytes) (s : S) : res jderr (list (bytes * dm) * S) :=
    do p <- next s; let '(t, s1) := p in
    match t with
    | TMapClose => Ok ([], s1)
    | TString k =>
      if existsb (bytes_eqb k) seen then Err JDOther else
      do p2 <- next s1; let '(t2, s2) := p2 in
      do r <- U o (depth + 1) t2 s2; let '(v, s3) := r in
      do r' <- M o depth (k :: seen) s3; let '(m, s4) := r' in
      Ok ((k, v) :: m, s4)
    | _ => Err JDOther
    end.

  Definition list_step (o : jdopts) (depth : Z) (s : S) : res jderr (list dm * S) :=
    do p <- nextd s; let '(t, s1) := p in
    match t with
    | TArrClose => Ok ([], s1)
    | _ =>
      do r <- U o (depth + 1) t s1; let '(v, s2) := r in
      do r' <- L o depth s2; let '(l, s3) := r' in
      Ok (v :: l, s3)
    end.

  Definition is_arr_close (t : tok) : bool := match t with TArrClose => true | _ => false end.

  Lemma list_step_if o depth s : list_step o depth s =
    do p <- nextd s; let '(t, s1) := p in
    if is_arr_close t then Ok ([], s1) else
    do r <- U o (depth + 1) t s1; let '(v, s2) := r in
    do r' <- L o depth s2; let '(l, s3) := r' in
    Ok (v :: l, s3).
  Proof. unfold list_step. destruct (nextd s) as [[[] s1]|]; reflexivity. Qed.
End Step.

Section Abs.
  Variable parse_float : bytes -> option N.
  Variable cid_parse : bytes -> option bytes.

  Definition alink (s : astate) : res jderr (option bytes * astate) :=
    do p1 <- apeek 1 s; let '(t1, s1) := p1 in
    match t1 with
    | TString k =>
      if negb (bytes_eqb k slash) then Ok (None, s1) else
      do p2 <- apeek 2 s1; let '(t2, s2) := p2 in
      match t2 with
      | TString str =>
        do p3 <- apeek 3 s2; let '(t3, s3) := p3 in
        match t3 with
        | TMapClose =>
          match cid_parse str with
          | Some c => Ok (Some c, aclear s3)
          | None => Err JDOther
          end
        | _ => Ok (None, s3)
        end
      | _ => Ok (None, s2)
      end
    | _ => Ok (None, s1)
    end.

  Definition abytes (s : astate) : res jderr (option bytes * astate) :=
    do p1 <- apeek 1 s; let '(t1, s1) := p1 in
    match t1 with
    | TString k =>
      if negb (bytes_eqb k slash) then Ok (None, s1) else
      do p2 <- apeek 2 s1; let '(t2, s2) := p2 in
      match t2 with
      | TMapOpen =>
        do p3 <- apeek 3 s2; let '(t3, s3) := p3 in
        match t3 with
        | TString w =>
          if negb (bytes_eqb w bytes_word) then Ok (None, s3) else
          do p4 <- apeek 4 s3; let '(t4, s4) := p4 in
          match t4 with
          | TString str =>
            do p5 <- apeek 5 s4; let '(t5, s5) := p5 in
            match t5 with
            | TMapClose =>
              do p6 <- apeek 6 s5; let '(t6, s6) := p6 in
              match t6 with
              | TMapClose =>
                match b64_decode_go str with
                | Some b => Ok (Some b, aclear s6)
                | None => Err JDOther
                end
              | _ => Ok (None, s6)
              end
            | _ => Ok (None, s5)
            end
          | _ => Ok (None, s4)
          end
        | _ => Ok (None, s3)
        end
      | _ => Ok (None, s2)
      end
    | _ => Ok (None, s1)
    end.

  Fixpoint aunm (fuel : nat) (o : jdopts) (depth : Z) (t : tok) (s : astate) {struct fuel}
    : res jderr (dm * astate) :=
    match fuel with O => Err JDFuel | S f =>
    match t with
    | TMapOpen =>
      if (jmax_depth o <=? depth)%Z then Err JDDepth else
      do r1 <- (if jd_links o then alink s else Ok (None, s));
      match r1 with
      | (Some c, s1) => Ok (DLink c, s1)
      | (None, s1) =>
        do r2 <- (if jd_bytes o then abytes s1 else Ok (None, s1));
        match r2 with
        | (Some b, s2) => Ok (DBytes b, s2)
        | (None, s2) =>
          do r3 <- aunm_map f o depth [] s2;
          let '(m, s3) := r3 in Ok (DMap m, s3)
        end
      end
    | TMapClose => Err JDOther
    | TArrOpen =>
      if (jmax_depth o <=? depth)%Z then Err JDDepth else
      do r <- aunm_list f o depth s;
      let '(l, s') := r in Ok (DList l, s')
    | TArrClose => Err JDOther
    | TNull => Ok (DNull, s)
    | TString x => Ok (DString x, s)
    | TBool b => Ok (DBool b, s)
    | TInt z => Ok (DInt z, s)
    | TFloat x => Ok (DFloat x, s)
    end end
  with aunm_map (fuel : nat) (o : jdopts) (depth : Z) (seen : list bytes) (s : astate) {struct fuel}
    : res jderr (list (bytes * dm) * astate) :=
    match fuel with O => Err JDFuel | S f =>
    do p <- anext s; let '(t, s1) := p in
    match t with
    | TMapClose => Ok ([], s1)
    | TString k =>
      if existsb (bytes_eqb k) seen then Err JDOther else
      do p2 <- anext s1; let '(t2, s2) := p2 in
      do r <- aunm f o (depth + 1) t2 s2; let '(v, s3) := r in
      do r' <- aunm_map f o depth (k :: seen) s3; let '(m, s4) := r' in
      Ok ((k, v) :: m, s4)
    | _ => Err JDOther
    end end
  with aunm_list (fuel : nat) (o : jdopts) (depth : Z) (s : astate) {struct fuel}
    : res jderr (list dm * astate) :=
    match fuel with O => Err JDFuel | S f =>
    do p <- anext_direct s; let '(t, s1) := p in
    match t with
    | TArrClose => Ok ([], s1)
    | _ =>
      do r <- aunm f o (depth + 1) t s1; let '(v, s2) := r in
      do r' <- aunm_list f o depth s2; let '(l, s3) := r' in
      Ok (v :: l, s3)
    end end.

  (* unfolding equations (cbn does not refold the mutual fixpoints) *)
  Lemma unm_S f o depth t s : unm parse_float cid_parse (S f) o depth t s =
    unm_step (link_lookahead parse_float cid_parse) (bytes_lookahead parse_float)
             (unm_map parse_float cid_parse f) (unm_list parse_float cid_parse f) o depth t s.
  Proof. reflexivity. Qed.

  Lemma unm_map_S f o depth seen s : unm_map parse_float cid_parse (S f) o depth seen s =
    map_step (next parse_float) (unm parse_float cid_parse f) (unm_map parse_float cid_parse f) o depth seen s.
  Proof. reflexivity. Qed.

  Lemma unm_list_S f o depth s : unm_list parse_float cid_parse (S f) o depth s =
    list_step (next_direct parse_float) (unm parse_float cid_parse f) (unm_list parse_float cid_parse f) o depth s.
  Proof. reflexivity. Qed.

  Lemma aunm_S f o depth t s : aunm (S f) o depth t s = unm_step alink abytes (aunm_map f) (aunm_list f) o depth t s.
  Proof. reflexivity. Qed.

  Lemma aunm_map_S f o depth seen s : aunm_map (S f) o depth seen s = map_step anext (aunm f) (aunm_map f) o depth seen s.
  Proof. reflexivity. Qed.

  Lemma aunm_list_S f o depth s : aunm_list (S f) o depth s = list_step anext_direct (aunm f) (aunm_list f) o depth s.
  Proof. reflexivity. Qed.

  Variable tsE : tstate.
  Variable bsE : bytes.

  Definition Rel (ls : lsrc) (s : astate) : Prop :=
    fst s = length (lb ls) /\
    exists Ls, snd s = lb ls ++ Ls /\ Yields parse_float (lts ls) (lin ls) Ls tsE bsE.

  Definition Sim {A} (ra : res jderr (A * astate)) (rc : res jderr (A * lsrc)) : Prop :=
    forall a s', ra = Ok (a, s') -> exists ls', rc = Ok (a, ls') /\ Rel ls' s'.

  Lemma Sim_ret {A} (a : A) s ls : Rel ls s -> Sim (Ok (a, s)) (Ok (a, ls)).
  Proof. intros R a' s' E. inversion E; subst. eauto. Qed.

  Lemma Sim_err {A} e (rc : res jderr (A * lsrc)) : Sim (Err e) rc.
  Proof. intros a s' E. discriminate. Qed.

  Lemma Sim_bind {A B} ra rc (ka : A * astate -> res jderr (B * astate)) kc :
    Sim ra rc -> (forall a s ls, Rel ls s -> Sim (ka (a, s)) (kc (a, ls))) -> Sim (bind ra ka) (bind rc kc).
  Proof.
    intros H K b s' E. destruct ra as [[a s]|]; [|discriminate].
    destruct (H a s eq_refl) as (ls & -> & R). exact (K a s ls R b s' E).
  Qed.

  Lemma next_lock s ls : Rel ls s -> Sim (anext s) (next parse_float ls).
  Proof.
    destruct s as [n L]. intros (Hn & Ls & HL & Y) t s'. unfold anext. cbn [fst snd] in *.
    destruct L as [|t0 L']; [discriminate|]. intros E. inversion E; subst.
    unfold next. destruct (lb ls) as [|k b] eqn:Hb; cbn [app] in HL.
    - subst Ls. inversion Y as [|? ? ? ts1 bs1 ? ? ? St Y']; subst. unfold pull. rewrite St, Hb.
      eexists. split; [reflexivity|]. split; [reflexivity|]. exists L'. split; [reflexivity|assumption].
    - inversion HL; subst. eexists. split; [reflexivity|]. split; [reflexivity|].
      exists Ls. cbn. split; [reflexivity|assumption].
  Qed.

  Lemma next_direct_lock s ls : Rel ls s -> Sim (anext_direct s) (next_direct parse_float ls).
  Proof.
    intros R t s' E. destruct s as [[|n] [|t0 L]]; try discriminate.
    pose proof (next_lock _ ls R t s' E) as H. unfold next in H.
    destruct R as [Hn _]. destruct (lb ls); [exact H|discriminate].
  Qed.

  Lemma peek_lock k s ls : (1 <= k)%nat -> Rel ls s -> Sim (apeek k s) (peek parse_float k ls).
  Proof.
    destruct s as [n L]. intros Hk (Hn & Ls & HL & Y) t s'. unfold apeek. cbn [fst snd] in *. intros E.
    destruct (nth_error L (pred k)) as [t0|] eqn:Nth; [|discriminate].
    unfold peek. rewrite <- Hn.
    destruct (Nat.ltb_spec n k) as [Lt|Ge].
    - destruct (Nat.eqb_spec n (pred k)) as [En|]; [|discriminate]. inversion E; subst t0 s'. clear E.
      rewrite HL in Nth. rewrite <- En, Hn in Nth. rewrite nth_error_app2 in Nth by lia.
      rewrite Nat.sub_diag in Nth. destruct Ls as [|t1 Ls']; [discriminate|]. cbn in Nth. inversion Nth; subst t1.
      inversion Y as [|? ? ? ts1 bs1 ? ? ? St Y']; subst.
      unfold pull. rewrite St. cbn [bind lb lts lin].
      rewrite nth_error_app2 by lia. replace (pred k - length (lb ls))%nat with O by lia. cbn [nth_error].
      eexists. split; [reflexivity|]. split.
      + cbn [fst lb]. rewrite app_length. cbn. lia.
      + exists Ls'. cbn [snd lb lts lin]. split; [now rewrite <- app_assoc|assumption].
    - inversion E; subst t0 s'. cbn [bind].
      rewrite HL in Nth. rewrite nth_error_app1 in Nth by lia. rewrite Nth.
      eexists. split; [reflexivity|]. split; [assumption|]. exists Ls. split; assumption.
  Qed.

  Lemma clear_lock s ls : Rel ls s -> Rel (clear ls) (aclear s).
  Proof.
    destruct s as [n L]. intros (Hn & Ls & HL & Y). cbn [fst snd] in *. unfold aclear, clear. split; [reflexivity|].
    exists Ls. cbn [fst snd lb lts lin app]. split; [|assumption].
    rewrite HL, Hn. now rewrite skipn_app, skipn_all, Nat.sub_diag.
  Qed.

  Lemma link_lock s ls : Rel ls s -> Sim (alink s) (link_lookahead parse_float cid_parse ls).
  Proof.
    intros R. unfold alink, link_lookahead.
    apply Sim_bind; [apply peek_lock; [lia|assumption]|]. intros [] q1 lq1 R1; try (now apply Sim_ret).
    destruct (negb _); [now apply Sim_ret|].
    apply Sim_bind; [apply peek_lock; [lia|assumption]|]. intros [] q2 lq2 R2; try (now apply Sim_ret).
    apply Sim_bind; [apply peek_lock; [lia|assumption]|]. intros [] q3 lq3 R3; try (now apply Sim_ret).
    destruct (cid_parse _); [apply Sim_ret; now apply clear_lock|apply Sim_err].
  Qed.

  Lemma bytes_lock s ls : Rel ls s -> Sim (abytes s) (bytes_lookahead parse_float ls).
  Proof.
    intros R. unfold abytes, bytes_lookahead.
    apply Sim_bind; [apply peek_lock; [lia|assumption]|]. intros [] q1 lq1 R1; try (now apply Sim_ret).
    destruct (negb _); [now apply Sim_ret|].
    apply Sim_bind; [apply peek_lock; [lia|assumption]|]. intros [] q2 lq2 R2; try (now apply Sim_ret).
    apply Sim_bind; [apply peek_lock; [lia|assumption]|]. intros [] q3 lq3 R3; try (now apply Sim_ret).
    destruct (negb _); [now apply Sim_ret|].
    apply Sim_bind; [apply peek_lock; [lia|assumption]|]. intros [] q4 lq4 R4; try (now apply Sim_ret).
    apply Sim_bind; [apply peek_lock; [lia|assumption]|]. intros [] q5 lq5 R5; try (now apply Sim_ret).
    apply Sim_bind; [apply peek_lock; [lia|assumption]|]. intros [] q6 lq6 R6; try (now apply Sim_ret).
    destruct (b64_decode_go _); [apply Sim_ret; now apply clear_lock|apply Sim_err].
  Qed.

  Theorem unm_lock fuel :
    (forall o d t s ls, Rel ls s -> Sim (aunm fuel o d t s) (unm parse_float cid_parse fuel o d t ls)) /\
    (forall o d seen s ls, Rel ls s -> Sim (aunm_map fuel o d seen s) (unm_map parse_float cid_parse fuel o d seen ls)) /\
    (forall o d s ls, Rel ls s -> Sim (aunm_list fuel o d s) (unm_list parse_float cid_parse fuel o d ls)).
  Proof.
    induction fuel as [|f (IHu & IHm & IHl)]; [repeat split; intros; apply Sim_err|].
    repeat split.
    - intros o d t s ls R. rewrite aunm_S, unm_S. unfold unm_step.
      destruct t; try (now apply Sim_ret); try apply Sim_err.
      + destruct (jmax_depth o <=? d)%Z; [apply Sim_err|].
        apply Sim_bind; [destruct (jd_links o); [now apply link_lock|now apply Sim_ret]|].
        intros [c|] s1 ls1 R1; [now apply Sim_ret|].
        apply Sim_bind; [destruct (jd_bytes o); [now apply bytes_lock|now apply Sim_ret]|].
        intros [b|] s2 ls2 R2; [now apply Sim_ret|].
        apply Sim_bind; [now apply IHm|]. intros m s3 ls3 R3. now apply Sim_ret.
      + destruct (jmax_depth o <=? d)%Z; [apply Sim_err|].
        apply Sim_bind; [now apply IHl|]. intros l s1 ls1 R1. now apply Sim_ret.
    - intros o d seen s ls R. rewrite aunm_map_S, unm_map_S. unfold map_step.
      apply Sim_bind; [now apply next_lock|]. intros [] q1 lq1 R1; try apply Sim_err; [now apply Sim_ret|].
      destruct (existsb _ seen); [apply Sim_err|].
      apply Sim_bind; [now apply next_lock|]. intros t2 s2 ls2 R2.
      apply Sim_bind; [now apply IHu|]. intros v s3 ls3 R3.
      apply Sim_bind; [now apply IHm|]. intros m s4 ls4 R4. now apply Sim_ret.
    - intros o d s ls R. rewrite aunm_list_S, unm_list_S, !list_step_if.
      apply Sim_bind; [now apply next_direct_lock|]. intros t s1 ls1 R1.
      destruct (is_arr_close t); [now apply Sim_ret|].
      apply Sim_bind; [now apply IHu|]. intros v s2 ls2 R2.
      apply Sim_bind; [now apply IHl|]. intros l s3 ls3 R3. now apply Sim_ret.
  Qed.
End Abs.
