(* Writing is faithful: on a bindable pair, assembling a data tree into the zero Go value succeeds,
   yields a well formed Go value, and that value denotes the tree that was assembled.  It is stated
   over a relation R between the tree that fits the type and the tree that is delivered: with
   equality a fitting tree is stored exactly ([asm_denote]); with equality up to the order of map
   entries ([asm_perm], Proofs/BindMain.v) the order in which a codec delivers the entries does not
   matter. *)
Require Import IP.Base.Bytes IP.DM.Value IP.Bind.GoVal IP.Bind.Bind IP.Bind.Spec IP.Proofs.BindFacts.
From Coq Require Import Permutation ZifyN ZifyNat ZifyBool.
Open Scope N_scope.

Definition is_container (d : dm) : bool := match d with DList _ | DMap _ => true | _ => false end.

Lemma dm_null_dec : forall d : dm, {d = DNull} + {d <> DNull}.
Proof. destruct d; (left; reflexivity) || (right; discriminate). Qed.

Lemma names_nodup_NoDup : forall l, names_nodup l = true <-> NoDup l.
Proof. intros l. exact (nodup_by_NoDup bytes_eqb l bytes_eqb_eq). Qed.

Lemma mapM_exists : forall {A B C} (f : B -> bres C) (P : C -> Prop) (R : A -> C -> Prop) (l : list A) (l' : list B),
  Forall2 (fun a b => exists y, f b = Ok y /\ P y /\ R a y) l l' ->
  exists ys, mapM f l' = Ok ys /\ Forall P ys /\ Forall2 R l ys.
Proof.
  intros A B C f P R l l' H; induction H as [|a b l l' [y [Hy [Py Ry]]] _ [ys [Hys [Pys Rys]]]].
  - exists []. repeat split; constructor.
  - exists (y :: ys). simpl. rewrite Hy. simpl. rewrite Hys. simpl.
    repeat split; constructor; assumption.
Qed.

Section AsmFacts.
  Variable q : quirks.
  Variable n32 : N -> N.

  Lemma asm_nullable_irrel : forall lv t s cur nl d, d <> DNull ->
    asm q lv n32 t s cur nl d = asm q lv n32 t s cur false d.
  Proof. intros lv t s cur nl d H. destruct t; destruct d; try reflexivity; congruence. Qed.

  Lemma put_built : forall lv t s x d,
    gv_ok q n32 t (deref1 s) x = true -> denote lv t x = d ->
    ok_loc (gv_ok q n32 t) s (put s x) = true /\ denote lv t (put s x) = d.
  Proof.
    intros lv t s x d Hok Hden. destruct s; try (split; assumption).
    split; [exact Hok|]. rewrite <- Hden. exact (denote_ptr_ok _ _ lv _ _ _ Hok).
  Qed.

  (* AssignInt decides signed / unsigned by the kind of the location itself (the pointer's, on the
     pinned tree); on a bindable location that is the integer's own signedness, and a value in range
     is stored as it is *)
  Lemma asm_int_ok : forall s k z,
    loc_ok (fun _ => bindable TInt) TInt s = true -> deref1 s = SInt k -> int_ok q k z = true ->
    asm_int q s z = Ok (put s (GInt z)).
  Proof.
    intros s k z Hl Hd Hi. unfold int_ok in Hi. apply andb_prop in Hi. destruct Hi as [Hin _].
    assert (Hflag : (if q_ptr_uint q then ik_unsigned k
                     else match s with SInt k' => ik_unsigned k' | _ => false end) = ik_unsigned k).
    { destruct (loc_ok_inv _ _ Hl) as [Hb | [s1 [-> [_ [Hu _]]]]].
      - rewrite (deref1_noptr s (bindable_noptr _ _ Hb)) in Hd. subst s. destruct (q_ptr_uint q); reflexivity.
      - simpl in Hd. subst s1. simpl in Hu. rewrite Hu. destruct (q_ptr_uint q); reflexivity. }
    unfold asm_int. rewrite Hd, Hflag, Hin, andb_false_r.
    destruct (ik_unsigned k) eqn:Hu.
    - rewrite (unsigned_nonneg k z Hu Hin), (ik_narrow_in k z Hin). reflexivity.
    - pose proof (signed_below_two63 k z Hu Hin) as Hlt.
      assert ((two63z <=? z)%Z = false) as ->.
      { apply Z.leb_gt. apply Z.ltb_lt in Hlt. exact Hlt. }
      rewrite (ik_narrow_in k z Hin). reflexivity.
  Qed.

  Lemma gv_eqb_str : forall a b, gv_eqb (GString a) (GString b) = bytes_eqb a b.
  Proof. reflexivity. Qed.

  Lemma gv_eqb_str_l : forall a g, gv_eqb (GString a) g = true -> g = GString a.
  Proof.
    intros a g H. destruct g; simpl in H; try discriminate.
    apply bytes_eqb_eq in H. subst. reflexivity.
  Qed.

  Lemma get_set_same : forall k v m, gomap_get (GString k) (gomap_set (GString k) v m) = Some v.
  Proof.
    intros k v m; induction m as [|[k' v'] m IH].
    - cbn [gomap_set gomap_get]. rewrite gv_eqb_str, bytes_eqb_refl. reflexivity.
    - cbn [gomap_set]. destruct (gv_eqb (GString k) k') eqn:E; cbn [gomap_get].
      + rewrite gv_eqb_str, bytes_eqb_refl. reflexivity.
      + rewrite E. exact IH.
  Qed.

  Lemma get_set_other : forall k k0 v m, bytes_eqb k0 k = false ->
    gomap_get (GString k0) (gomap_set (GString k) v m) = gomap_get (GString k0) m.
  Proof.
    intros k k0 v m H; induction m as [|[k' v'] m IH].
    - cbn [gomap_set gomap_get]. rewrite gv_eqb_str, H. reflexivity.
    - cbn [gomap_set]. destruct (gv_eqb (GString k) k') eqn:E; cbn [gomap_get].
      + apply gv_eqb_str_l in E. subst k'. rewrite gv_eqb_str, H. reflexivity.
      + destruct (gv_eqb (GString k0) k'); [reflexivity | exact IH].
  Qed.

  Lemma gomap_set_fresh : forall k v m, gomap_get k m = None -> gomap_set k v m = m ++ [(k, v)].
  Proof.
    intros k v m; induction m as [|[k' v'] m IH]; intros H; [reflexivity|].
    cbn [gomap_get gomap_set app] in *. destruct (gv_eqb k k'); [discriminate | rewrite (IH H); reflexivity].
  Qed.

  Lemma enum_by_name_of_In : forall ms m sr ir,
    names_nodup (map (fun e : bytes * bytes * Z => fst (fst e)) ms) = true ->
    In (m, sr, ir) ms -> enum_by_name m ms = Some (sr, ir).
  Proof.
    induction ms as [|[[mn sr0] ir0] ms IH]; intros m sr ir Hnd Hin; [contradiction|].
    cbn [map fst] in Hnd. destruct (nodup_head _ _ Hnd) as [Hfresh Hnd'].
    simpl. destruct Hin as [E|Hin].
    - inversion E; subst. rewrite bytes_eqb_refl. reflexivity.
    - rewrite (Hfresh m (in_map (fun e : bytes * bytes * Z => fst (fst e)) ms (m, sr, ir) Hin)).
      apply IH; assumption.
  Qed.

  Lemma enum_by_repr_In : forall ms x m, enum_by_repr x ms = Some m -> exists ir, In (m, x, ir) ms.
  Proof.
    induction ms as [|[[mn sr] ir] ms IH]; intros x m H; [discriminate|].
    simpl in H. destruct (bytes_eqb x sr) eqn:E.
    - inversion H; subst. apply bytes_eqb_eq in E. subst. exists ir. left; reflexivity.
    - destruct (IH x m H) as [ir' Hin]. exists ir'. right; exact Hin.
  Qed.

  Lemma enum_by_int_In : forall ms z m, enum_by_int z ms = Some m -> exists sr, In (m, sr, z) ms.
  Proof.
    induction ms as [|[[mn sr] ir] ms IH]; intros z m H; [discriminate|].
    simpl in H. destruct (Z.eqb z ir) eqn:E.
    - inversion H; subst. apply Z.eqb_eq in E. subst. exists sr. left; reflexivity.
    - destruct (IH z m H) as [sr' Hin]. exists sr'. right; exact Hin.
  Qed.

  Definition go_entries (val : bytes * dm -> gv) (m : list (bytes * dm)) : list (gv * gv) :=
    map (fun kv => (GString (fst kv), val kv)) m.

  Lemma go_entries_get : forall val m, names_nodup (map fst m) = true ->
    forall kv, In kv m -> gomap_get (GString (fst kv)) (go_entries val m) = Some (val kv).
  Proof.
    intros val. induction m as [|[k v] m IH]; intros Hnd kv Hin; [contradiction|].
    cbn [map fst] in Hnd. destruct (nodup_head _ _ Hnd) as [Hfresh Hnd'].
    cbn [go_entries map gomap_get gv_eqb fst]. destruct Hin as [<-|Hin].
    - cbn [fst]. rewrite bytes_eqb_refl. reflexivity.
    - rewrite (Hfresh (fst kv) (in_map fst m kv Hin)). exact (IH Hnd' kv Hin).
  Qed.

  Lemma map_entries_run : forall (one : bytes -> dm -> bres (gv * gv)) val m keys0 vals0,
    Forall (fun kv => one (fst kv) (snd kv) = Ok (GString (fst kv), val kv)) m ->
    names_nodup (map fst m) = true ->
    (forall kv, In kv m -> gomap_get (GString (fst kv)) vals0 = None) ->
    asm_map_entries one m keys0 vals0 = Ok (keys0 ++ map GString (map fst m), vals0 ++ go_entries val m).
  Proof.
    intros one val. induction m as [|[k v] m IH]; intros keys0 vals0 HF Hnd Hfr.
    - cbn. rewrite !app_nil_r. reflexivity.
    - inversion HF as [|? ? Hone HF']; subst. cbn [fst snd] in Hone.
      cbn [map fst] in Hnd. destruct (nodup_head _ _ Hnd) as [Hfresh Hnd'].
      cbn [asm_map_entries]. rewrite Hone. cbn [bind fst snd].
      rewrite (IH _ _ HF' Hnd').
      + rewrite (gomap_set_fresh _ _ _ (Hfr (k, v) (or_introl eq_refl))).
        cbn [go_entries map fst]. rewrite <- !app_assoc. reflexivity.
      + intros kv Hin. rewrite get_set_other by exact (Hfresh (fst kv) (in_map fst m kv Hin)).
        exact (Hfr kv (or_intror Hin)).
  Qed.

  Definition asm_by_name lv fs (ss : list (bytes * shape)) (k : bytes) (v : dm) (gs : list gv) (done : list bool)
    : bres (list gv * list bool) :=
    with_field k
      (fun i f => do g1 <- asm_field (asm q lv n32 (f_type f)) f (nth_shape i ss) (nth_gv i gs) v;
                  Ok (set_nth i g1 gs, set_nth i true done))
      (Err XInvalidKey) fs O.

  Lemma by_name_head : forall lv f fs sn s ss v g gs b done,
    asm_by_name lv (f :: fs) ((sn, s) :: ss) (f_name f) v (g :: gs) (b :: done)
    = do g1 <- asm_field (asm q lv n32 (f_type f)) f s g v; Ok (g1 :: gs, true :: done).
  Proof. intros. unfold asm_by_name. cbn [with_field]. rewrite bytes_eqb_refl. reflexivity. Qed.

  Lemma by_name_tail : forall lv f fs sn s ss k v g gs b done, bytes_eqb k (f_name f) = false ->
    asm_by_name lv (f :: fs) ((sn, s) :: ss) k v (g :: gs) (b :: done)
    = do st <- asm_by_name lv fs ss k v gs done; Ok (g :: fst st, b :: snd st).
  Proof.
    intros lv f fs sn s ss k v g gs b done H. unfold asm_by_name. cbn [with_field]. rewrite H.
    generalize O. induction fs as [|f0 fs IH]; intros j; [reflexivity|].
    cbn [with_field]. destruct (bytes_eqb k (f_name f0)); [|apply IH].
    unfold nth_shape, nth_gv. cbn [nth set_nth]. destruct (asm_field _ _ _ _ _); reflexivity.
  Qed.

  Lemma entries_tail : forall lv (keymap : bytes -> bytes) f fs sn s ss m g gs b done,
    (forall kv, In kv m -> bytes_eqb (keymap (fst kv)) (f_name f) = false) ->
    asm_entries (fun k v gs done => asm_by_name lv (f :: fs) ((sn, s) :: ss) (keymap k) v gs done) m (g :: gs) (b :: done)
    = do st <- asm_entries (fun k v gs done => asm_by_name lv fs ss (keymap k) v gs done) m gs done;
      Ok (g :: fst st, b :: snd st).
  Proof.
    intros lv keymap f fs sn s ss. induction m as [|[k v] m IH]; intros g gs b done H; [reflexivity|].
    cbn [asm_entries]. rewrite by_name_tail by (apply (H (k, v)); left; reflexivity).
    destruct (asm_by_name lv fs ss (keymap k) v gs done) as [[gs1 done1]|]; [|reflexivity]. cbn [bind fst snd].
    apply IH. intros kv Hkv. apply H. right; exact Hkv.
  Qed.

  (* the one entry that names the first field may stand anywhere: the entries around it leave that field alone *)
  Lemma entries_head : forall lv (keymap : bytes -> bytes) f fs sn s ss k v b g1 st a g gs bd done,
    keymap k = f_name f ->
    (forall kv, In kv (a ++ b) -> bytes_eqb (keymap (fst kv)) (f_name f) = false) ->
    asm_field (asm q lv n32 (f_type f)) f s g v = Ok g1 ->
    asm_entries (fun k v gs done => asm_by_name lv fs ss (keymap k) v gs done) (a ++ b) gs done = Ok st ->
    asm_entries (fun k v gs done => asm_by_name lv (f :: fs) ((sn, s) :: ss) (keymap k) v gs done)
      (a ++ (k, v) :: b) (g :: gs) (bd :: done) = Ok (g1 :: fst st, true :: snd st).
  Proof.
    intros lv keymap f fs sn s ss k v b g1 st. induction a as [|[k0 v0] a IH]; intros g gs bd done Hk Hfr Ha Hrun.
    - cbn [app asm_entries] in *. rewrite Hk, by_name_head, Ha. cbn [bind fst snd].
      rewrite entries_tail by exact Hfr. rewrite Hrun. reflexivity.
    - cbn [app asm_entries] in *. rewrite by_name_tail by (apply (Hfr (k0, v0)); left; reflexivity).
      destruct (asm_by_name lv fs ss (keymap k0) v0 gs done) as [[gs1 done1]|]; [|discriminate]. cbn [bind fst snd] in *.
      apply IH; [exact Hk | intros kv Hkv; apply Hfr; right; exact Hkv | exact Ha | exact Hrun].
  Qed.

  Lemma find_rkey_found : forall fs, names_nodup (map f_rkey fs) = true ->
    forall f, In f fs -> find_rkey (f_rkey f) fs = Some (f_name f).
  Proof.
    induction fs as [|p fs IH]; intros Hnd f Hin; [contradiction|].
    cbn [map] in Hnd. destruct (nodup_head _ _ Hnd) as [Hfresh Hnd'].
    cbn [find_rkey]. destruct Hin as [->|Hin].
    - rewrite bytes_eqb_refl. reflexivity.
    - rewrite (Hfresh (f_rkey f) (in_map f_rkey fs f Hin)). apply IH; assumption.
  Qed.

  Lemma missing_all_done : forall fs, missing_required fs (map (fun _ => true) fs) = false.
  Proof. induction fs; [reflexivity|]. simpl. rewrite andb_false_r. exact IHfs. Qed.

  Lemma with_member_true_inv : forall byname k (body : nat -> bytes * sty -> bool) ms i,
    with_member byname k body false ms i = true ->
    exists pre m post, ms = pre ++ m :: post
      /\ (forall x, In x pre -> bytes_eqb k (member_key byname x) = false)
      /\ bytes_eqb k (member_key byname m) = true /\ body (i + length pre)%nat m = true.
  Proof.
    intros byname k body; induction ms as [|p ms IH]; intros i H; [discriminate|].
    cbn [with_member] in H. destruct (bytes_eqb k (if byname then sty_name (snd p) else fst p)) eqn:E.
    - exists [], p, ms. cbn [app length]. rewrite Nat.add_0_r. repeat split; try assumption. intros x [].
    - destruct (IH (S i) H) as [pre [m [post [-> [Hpre [Hm Hb]]]]]].
      exists (p :: pre), m, post. cbn [app length]. repeat split; try assumption.
      + intros x [<-|Hx]; [exact E | apply Hpre; exact Hx].
      + rewrite <- Nat.add_succ_comm. exact Hb.
  Qed.

  Lemma ok_members_nil : forall (ok : bytes * sty -> shape -> gv -> bool) ms ss seen,
    members_bindable (fun m => bindable (snd m)) ms ss = true ->
    ok_members ok ms ss (map (fun _ => GNil) ss) seen = seen.
  Proof.
    induction ms as [|m ms IH]; intros ss seen H.
    - destruct ss; simpl in H; try discriminate. reflexivity.
    - destruct ss as [|[sn s] ss]; simpl in H; try discriminate.
      destruct s; try discriminate. apply andb3 in H. destruct H as [_ [_ H]].
      cbn [map ok_members]. apply IH. exact H.
  Qed.

  (* the value unionSetMember leaves: every slot nil, that of member [length pre] set *)
  Lemma member_slot : forall (ok : bytes * sty -> shape -> gv -> bool) pre m post ss,
    members_bindable (fun m => bindable (snd m)) (pre ++ m :: post) ss = true ->
    exists ms1, nth_shape (length pre) ss = SPtr ms1 /\ bindable (snd m) ms1 = true
      /\ forall x, ok_members ok (pre ++ m :: post) ss (set_nth (length pre) (GPtr x) (map (fun _ => GNil) ss)) false = ok m ms1 x
           /\ forall (den : bytes * sty -> gv -> dm) wrapm,
                den_union den wrapm (pre ++ m :: post) (set_nth (length pre) (GPtr x) (map (fun _ => GNil) ss)) = wrapm m (den m x).
  Proof.
    induction pre as [|p pre IH]; intros m post ss H; cbn [app] in H;
      destruct ss as [|[sn s] ss]; simpl in H; try discriminate;
      destruct s as [| | | | | | | ms0 | | |]; try discriminate;
      apply andb3 in H; destruct H as [H1 [_ H3]].
    - exists ms0. repeat split; [exact H1|].
      cbn [app length map set_nth ok_members negb andb]. rewrite (ok_members_nil ok post ss true H3), andb_true_r. reflexivity.
    - destruct (IH m post ss H3) as [ms1 [Hn [Hb Hx]]]. exists ms1. repeat split; [exact Hn | exact Hb | apply Hx | apply Hx].
  Qed.

  Definition member_body lv (ss : list (bytes * shape)) (v : dm) (i : nat) (m : bytes * sty) : bres gv :=
    match nth_shape i ss with
    | SPtr ms1 => do x <- asm q lv n32 (snd m) ms1 (zero_of ms1) false v; Ok (union_set ss i x)
    | _ => Err PReflect
    end.

  Lemma deref1_inv : forall s s1, deref1 s = s1 -> s = s1 \/ s = SPtr s1.
  Proof. intros s s1 <-. destruct s; auto. Qed.

  (* The [asm_*_at] equations unfold [asm] once at the zero value of a location whose Go type is known,
     directly or behind one pointer; [asm_by_name], [member_body] and [asm_finish] name the per-entry
     steps that the body of [asm] holds as local functions. *)

  Lemma asm_list_at : forall lv n e nl s sn es l, deref1 s = SSlice sn es ->
    asm q lv n32 (TList n e nl) s (zero_of s) false (DList l) =
    do gs <- mapM (asm q lv n32 e es (zero_of es) nl) l;
    Ok (put s (match gs with [] => GNil | g :: r => GSlice (g :: r) end)).
  Proof. intros lv n e nl s sn es l H. destruct (deref1_inv _ _ H) as [-> | ->]; reflexivity. Qed.

  Lemma asm_map_at : forall lv n kt vt nl s sn k1 n1 ks k2 mk mv m,
    deref1 s = SStruct sn [(k1, SSlice n1 ks); (k2, SGoMap mk mv)] ->
    asm q lv n32 (TMap n kt vt nl) s (zero_of s) false (DMap m) =
    do kv <- asm_map_entries
               (fun k v =>
                  do kg <- asm q lv n32 kt mk (zero_of mk) false (DString k);
                  do vg <- asm q lv n32 vt mv (zero_of mv) nl v;
                  Ok (kg, vg)) m [] [];
    Ok (put s (GStruct [match fst kv with [] => GNil | k :: r => GSlice (k :: r) end; GGoMap (snd kv)])).
  Proof. intros lv n kt vt nl s sn k1 n1 ks k2 mk mv m H. destruct (deref1_inv _ _ H) as [-> | ->]; reflexivity. Qed.

  Definition asm_finish (fs : list fld) (s : shape) (st : list gv * list bool) : bres gv :=
    if missing_required fs (snd st) then Err XMissing else Ok (put s (GStruct (fst st))).

  Definition asm_zeros (ss : list (bytes * shape)) : list gv := map (fun f => zero_of (snd f)) ss.

  Lemma asm_struct_type_at : forall n (fs : list fld) r s sn ss m, deref1 s = SStruct sn ss ->
    asm q LType n32 (TStruct n fs r) s (zero_of s) false (DMap m) =
    do st <- asm_entries (fun k v gs done => asm_by_name LType fs ss k v gs done) m (asm_zeros ss) (map (fun _ : fld => false) fs);
    asm_finish fs s st.
  Proof. intros n fs r s sn ss m H. destruct (deref1_inv _ _ H) as [-> | ->]; destruct r; reflexivity. Qed.

  Lemma asm_struct_map_at : forall n (fs : list fld) s sn ss m, deref1 s = SStruct sn ss ->
    asm q LRepr n32 (TStruct n fs SRMap) s (zero_of s) false (DMap m) =
    do st <- asm_entries (fun k v gs done =>
                            asm_by_name LRepr fs ss (match find_rkey k fs with Some x => x | None => k end) v gs done)
                         m (asm_zeros ss) (map (fun _ : fld => false) fs);
    asm_finish fs s st.
  Proof. intros n fs s sn ss m H. destruct (deref1_inv _ _ H) as [-> | ->]; reflexivity. Qed.

  Lemma asm_struct_tuple_at : forall n (fs : list fld) s sn ss l, deref1 s = SStruct sn ss ->
    asm q LRepr n32 (TStruct n fs SRTuple) s (zero_of s) false (DList l) =
    do st <- asm_tuple (fun f => asm q LRepr n32 (f_type f)) fs ss (asm_zeros ss) l; asm_finish fs s st.
  Proof. intros n fs s sn ss l H. destruct (deref1_inv _ _ H) as [-> | ->]; reflexivity. Qed.

  Lemma asm_union_type_at : forall n ms r s sn ss m, deref1 s = SStruct sn ss ->
    asm q LType n32 (TUnion n ms r) s (zero_of s) false (DMap m) =
    do o <- asm_union_entries (fun k v => with_member true k (member_body LType ss v) (Err XUnion) ms O) m None;
    match o with Some g => Ok (put s g) | None => Err XUnion end.
  Proof. intros n ms r s sn ss m H. destruct (deref1_inv _ _ H) as [-> | ->]; destruct r; reflexivity. Qed.

  Lemma asm_union_keyed_at : forall n ms s sn ss m, deref1 s = SStruct sn ss ->
    asm q LRepr n32 (TUnion n ms URKeyed) s (zero_of s) false (DMap m) =
    do o <- asm_union_entries
              (fun k v => match find_member_by_disc k ms O with
                          | Some _ => with_member false k (member_body LRepr ss v) (Err XUnion) ms O
                          | None => with_member true k (member_body LRepr ss v) (Err XUnion) ms O
                          end) m None;
    match o with Some g => Ok (put s g) | None => Err XUnion end.
  Proof. intros n ms s sn ss m H. destruct (deref1_inv _ _ H) as [-> | ->]; reflexivity. Qed.

  (* a kinded union is never behind a pointer (loc_ok), so the struct is the location itself *)
  Lemma asm_union_kinded_at : forall n ms sn ss cur nul d, d <> DNull ->
    asm q LRepr n32 (TUnion n ms URKinded) (SStruct sn ss) cur nul d =
    with_member false (kind_name d) (member_body LRepr ss d) (Err XWrongKind) ms O.
  Proof. intros n ms sn ss cur nul d Hd. destruct d; try congruence; reflexivity. Qed.

  Lemma find_disc_some : forall k (body : nat -> bytes * sty -> bool) ms i,
    with_member false k body false ms i = true -> exists it, find_member_by_disc k ms i = Some it.
  Proof.
    intros k body; induction ms as [|[d t] ms IH]; intros i H; [discriminate|].
    cbn [with_member find_member_by_disc fst] in *. destruct (bytes_eqb k d); [eauto | exact (IH _ H)].
  Qed.

  Definition is_leaf (t : sty) : bool :=
    match t with TBool | TInt | TFloat | TString | TBytes | TLink | TEnum _ _ _ => true | _ => false end.

  Lemma fits_leaf : forall lv t s d, is_leaf t = true -> fits q lv n32 t s d = true -> is_container d = false.
  Proof.
    intros lv t s d Ht H. destruct d; try reflexivity; exfalso;
      (destruct t; try discriminate Ht; simpl in H; try discriminate H;
       [ destruct s; discriminate H
       | destruct s as [| |[|]| | | | | | | |]; discriminate H
       | destruct lv, r; discriminate H ]).
  Qed.

  Lemma asm_leaf : forall lv t, is_leaf t = true ->
    forall s d, loc_ok (fun _ => bindable t) t s = true -> fits q lv n32 t (deref1 s) d = true ->
    exists g, asm q lv n32 t s (zero_of s) false d = Ok g
              /\ ok_loc (gv_ok q n32 t) s g = true /\ denote lv t g = d.
  Proof.
    intros lv t Ht s d Hl Hf. pose proof (loc_ok_direct _ _ Hl) as Hb.
    destruct t as [| | | | | | |? ? ?|? ? ? ?|? ? ?|? ? ?|en ms r]; try discriminate Ht;
      destruct (deref1 s) eqn:Es; simpl in Hb; try discriminate.
    - destruct d; simpl in Hf; try discriminate.
      eexists. split; [reflexivity|]. apply put_built; [rewrite Es; reflexivity | reflexivity].
    - destruct d; simpl in Hf; try discriminate.
      exists (put s (GInt z)). split.
      + cbn [asm asm_scalar]. apply (asm_int_ok s k z Hl Es Hf).
      + apply put_built; [rewrite Es; exact Hf | reflexivity].
    - (* a float32 location holds what survives the narrowing *)
      destruct single; destruct d; simpl in Hf; try discriminate.
      + apply N.eqb_eq in Hf.
        exists (put s (GFloat bits)). split.
        * cbn [asm asm_scalar]. rewrite Es, Hf. reflexivity.
        * apply put_built; [rewrite Es; simpl; rewrite Hf; apply N.eqb_refl | reflexivity].
      + exists (put s (GFloat bits)). split.
        * cbn [asm asm_scalar]. rewrite Es. reflexivity.
        * apply put_built; [rewrite Es; reflexivity | reflexivity].
    - destruct d; simpl in Hf; try discriminate.
      eexists. split; [reflexivity|]. apply put_built; [rewrite Es; reflexivity | reflexivity].
    - (* the empty string is stored as the nil slice *)
      destruct d as [| | | | |x| | |]; simpl in Hf; try discriminate.
      eexists. split; [reflexivity|].
      apply put_built; [rewrite Es; destruct x; reflexivity | destruct x; reflexivity].
    - destruct d; simpl in Hf; try discriminate.
      eexists. split; [reflexivity|]. apply put_built; [rewrite Es; reflexivity | reflexivity].
    - apply andb_prop in Hb. destruct Hb as [Hb Hsmall].
      destruct lv.
      + simpl in Hf. destruct d as [| | | |x| | | |]; try (destruct r; discriminate).
        assert (He : enum_by_name x ms <> None) by (destruct r; destruct (enum_by_name x ms); congruence).
        exists (put s (GString x)). split.
        * cbn [asm asm_enum]. rewrite Es. destruct r; reflexivity.
        * apply put_built; [rewrite Es; simpl; destruct (enum_by_name x ms); congruence | reflexivity].
      + destruct r.
        * simpl in Hf. destruct d as [| | | |x| | | |]; try discriminate.
          destruct (enum_by_repr x ms) as [m|] eqn:Er; try discriminate.
          destruct (enum_by_repr_In ms x m Er) as [ir Hin].
          pose proof (enum_by_name_of_In ms m x ir Hb Hin) as Hn.
          exists (put s (GString m)). split.
          -- cbn [asm asm_enum]. rewrite Er, Es. reflexivity.
          -- apply put_built; [rewrite Es; simpl; rewrite Hn; reflexivity |].
             simpl. unfold den_enum. rewrite Hn. reflexivity.
        * simpl in Hf. destruct d as [| |z| | | | | |]; try discriminate.
          apply andb_prop in Hf. destruct Hf as [Hlt Hf].
          destruct (enum_by_int z ms) as [m|] eqn:Er; try discriminate.
          destruct (enum_by_int_In ms z m Er) as [sr Hin].
          pose proof (enum_by_name_of_In ms m sr z Hb Hin) as Hn.
          exists (put s (GString m)). split.
          -- cbn [asm asm_enum].
             assert ((two63z <=? z)%Z = false) as -> by (apply Z.leb_gt; apply Z.ltb_lt in Hlt; exact Hlt).
             rewrite Er, Es. reflexivity.
          -- apply put_built; [rewrite Es; simpl; rewrite Hn; reflexivity |].
             simpl. unfold den_enum. rewrite Hn. reflexivity.
  Qed.
End AsmFacts.

Section AsmRel.
  Variable q : quirks.
  Variable n32 : N -> N.
  (* [R d d']: d' is a way of delivering d; [P m m']: the entries m of one map delivered as m' *)
  Variable R : dm -> dm -> Prop.
  Variable P : list (bytes * dm) -> list (bytes * dm) -> Prop.

  Definition ent_rel (a b : bytes * dm) : Prop := fst a = fst b /\ R (snd a) (snd b).

  Hypothesis R_refl : forall d, R d d.
  Hypothesis R_leaf : forall d d', R d d' -> is_container d = false -> d' = d.
  Hypothesis R_list : forall l l', Forall2 R l l' -> R (DList l) (DList l').
  Hypothesis R_list_inv : forall l d', R (DList l) d' -> exists l', d' = DList l' /\ Forall2 R l l'.
  Hypothesis R_map : forall m m2 m', Forall2 ent_rel m m2 -> P m2 m' -> R (DMap m) (DMap m').
  Hypothesis R_map_inv : forall m d', R (DMap m) d' ->
    exists m2 m', d' = DMap m' /\ Forall2 ent_rel m m2 /\ P m2 m'.
  Hypothesis P_refl : forall m, P m m.
  Hypothesis P_perm : forall m m', P m m' -> Permutation m m'.
  Hypothesis P_map : forall (G : bytes * dm -> bytes * dm) m m', P m m' -> P (map G m) (map G m').

  Lemma R_nonnull : forall d d', R d d' -> d <> DNull -> d' <> DNull.
  Proof.
    intros d d' H Hn. destruct d; try (rewrite (R_leaf _ _ H eq_refl); exact Hn).
    - destruct (R_list_inv _ _ H) as [l' [-> _]]. discriminate.
    - destruct (R_map_inv _ _ H) as [m2 [m' [-> _]]]. discriminate.
  Qed.

  Lemma R_kind : forall d d', R d d' -> kind_name d' = kind_name d.
  Proof.
    intros d d' H. destruct d; try (rewrite (R_leaf _ _ H eq_refl); reflexivity).
    - destruct (R_list_inv _ _ H) as [l' [-> _]]. reflexivity.
    - destruct (R_map_inv _ _ H) as [m2 [m' [-> _]]]. reflexivity.
  Qed.

  Lemma R_single : forall k v d', R (DMap [(k, v)]) d' -> exists v', d' = DMap [(k, v')] /\ R v v'.
  Proof.
    intros k v d' H. destruct (R_map_inv _ _ H) as [m2 [m' [-> [HR HP]]]].
    destruct (F2_cons_inv _ _ _ _ HR) as [[k2 v2] [m2' [-> [[Hk Hv] HR']]]].
    inversion HR'; subst. cbn [fst snd] in *. subst k2.
    apply P_perm, Permutation_length_1_inv in HP. subst m'. eauto.
  Qed.

  Lemma R_entry : forall k v v', R v v' -> R (DMap [(k, v)]) (DMap [(k, v')]).
  Proof.
    intros k v v' H. apply (R_map _ [(k, v')]); [|apply P_refl].
    constructor; [split; [reflexivity | exact H] | constructor].
  Qed.

  Lemma put_rel : forall lv t s x d,
    gv_ok q n32 t (deref1 s) x = true -> R d (denote lv t x) ->
    ok_loc (gv_ok q n32 t) s (put s x) = true /\ R d (denote lv t (put s x)).
  Proof.
    intros lv t s x d Hok Hr. destruct (put_built q n32 lv t s x _ Hok eq_refl) as [H1 H2].
    rewrite H2. auto.
  Qed.

  Definition asm_spec (lv : level) (t : sty) : Prop :=
    forall s d d', loc_ok (fun _ => bindable t) t s = true ->
      fits q lv n32 t (deref1 s) d = true -> R d d' ->
      exists g, asm q lv n32 t s (zero_of s) false d' = Ok g
                /\ ok_loc (gv_ok q n32 t) s g = true
                /\ R d (denote lv t g).

  Lemma leaf_case : forall lv t, is_leaf t = true -> asm_spec lv t.
  Proof.
    intros lv t Ht s d d' Hl Hf Hr.
    rewrite (R_leaf d d' Hr (fits_leaf q n32 lv t _ d Ht Hf)).
    destruct (asm_leaf q n32 lv t Ht s d Hl Hf) as [g [Ha [Hok Hden]]].
    exists g. rewrite Hden. auto.
  Qed.

  Lemma child_asm : forall lv t (nl : bool) s d d', asm_spec lv t ->
    (if nl then nullable_ok (fun _ => bindable t) t s else loc_ok (fun _ => bindable t) t s) = true ->
    fits_child (fits q lv n32 t) nl s d = true -> R d d' ->
    exists g, asm q lv n32 t s (zero_of s) nl d' = Ok g
              /\ ok_child (gv_ok q n32 t) nl s g = true
              /\ R d (den_child (denote lv t) nl g).
  Proof.
    intros lv t nl s d d' IH Hs Hf Hr. unfold fits_child in Hf.
    destruct (dm_null_dec d) as [->|Hd].
    - rewrite (R_leaf DNull d' Hr eq_refl). subst nl.
      exists (zero_of s). split; [destruct t; reflexivity|].
      rewrite (nullable_zero t s Hs). split; [reflexivity | apply R_refl].
    - assert (Hf' : fits q lv n32 t (deref1 s) d = true) by (destruct d; congruence).
      pose proof (R_nonnull d d' Hr Hd) as Hd'.
      destruct nl.
      + destruct (IH s d d' (nullable_loc_ok t s Hs) Hf' Hr) as [g [Ha [Hok Hden]]].
        exists g. rewrite asm_nullable_irrel by assumption.
        destruct (nullable_built q n32 lv t s g Hs Hok) as [Hc ->]. auto.
      + destruct (IH s d d' Hs Hf' Hr) as [g [Ha [Hok Hden]]].
        exists g. repeat split; assumption.
  Qed.

  Lemma field_asm : forall lv f s v v', asm_spec lv (f_type f) ->
    field_ok (fun _ => bindable (f_type f)) (f_type f) (f_opt f) (f_nul f) s = true ->
    fits_child (fits q lv n32 (f_type f)) (f_nul f) (if f_opt f then deref1 s else s) v = true ->
    R v v' ->
    exists g dd, asm_field (asm q lv n32 (f_type f)) f s (zero_of s) v' = Ok g
              /\ ok_field (gv_ok q n32 (f_type f)) (f_opt f) (f_nul f) s g = true
              /\ den_field (denote lv (f_type f)) (f_opt f) (f_nul f) g = Some dd /\ R v dd.
  Proof.
    intros lv f s v v' IH Hs Hf Hr. apply field_ok_inv in Hs.
    unfold asm_field, ok_field, den_field. remember (f_type f) as t eqn:Et. clear Et.
    destruct (f_opt f).
    - destruct Hs as [[s1 [-> Hs]] | [Hnl Hi]].
      + destruct (child_asm lv t (f_nul f) s1 v v' IH Hs Hf Hr) as [x [Ha [Hok Hden]]].
        exists (GPtr x), (den_child (denote lv t) (f_nul f) x). rewrite Ha. repeat split; assumption.
      + (* an interface: nil is absence, anything else the value *)
        rewrite Hnl in *.
        destruct Hi as [[-> ->] | [-> ->]];
          [ destruct (child_asm lv TAny false SNode v v' IH eq_refl Hf Hr) as [x [Ha [Hok Hden]]]
          | destruct (child_asm lv TLink false (SLink LIface) v v' IH eq_refl Hf Hr) as [x [Ha [Hok Hden]]] ];
          exists x; eexists; rewrite Ha;
          destruct x; simpl in Hok; try discriminate; repeat split; eassumption.
    - destruct (child_asm lv t (f_nul f) s v v' IH Hs Hf Hr) as [x [Ha [Hok Hden]]].
      exists x, (den_child (denote lv t) (f_nul f) x). rewrite Ha. repeat split; assumption.
  Qed.

  (* [m]: entries that fit, in field order; [m2]: the same entries with the values as delivered;
     [m']: [m2] in the order of delivery.  Whatever that order, asm_by_name puts each into its field. *)
  Lemma struct_entries : forall lv (key : fld -> bytes) (keymap : bytes -> bytes) fs ss m m2 m',
    names_nodup (map f_name fs) = true ->
    (forall f, In f fs -> keymap (key f) = f_name f) ->
    Forall (fun f => asm_spec lv (f_type f)) fs ->
    fields_bindable (fun f => bindable (f_type f)) fs ss = true ->
    fits_fields (fun f => fits q lv n32 (f_type f)) key fs ss m = true ->
    Forall2 ent_rel m m2 -> Permutation m2 m' ->
    exists gs done,
      asm_entries (fun k v gs done => asm_by_name q n32 lv fs ss (keymap k) v gs done) m'
                  (asm_zeros ss) (map (fun _ => false) fs) = Ok (gs, done)
      /\ ok_fields (fun f => gv_ok q n32 (f_type f)) fs ss gs = true
      /\ Forall2 ent_rel m (map (fun e => (key (fst e), snd e)) (den_fields (fun f => denote lv (f_type f)) fs gs))
      /\ missing_required fs done = false.
  Proof.
    intros lv key keymap. induction fs as [|f fs IH]; intros ss m m2 m' Hnd Hkm HF Hb Hfit HR HP.
    - destruct ss; simpl in Hb; try discriminate. simpl in Hfit.
      destruct m; try discriminate. inversion HR as [E1 E2|]. subst m2. apply Permutation_nil in HP. subst m'.
      exists [], []. simpl. repeat split; try reflexivity. constructor.
    - destruct ss as [|[sn s] ss]; simpl in Hb; try discriminate.
      apply andb_prop in Hb. destruct Hb as [Hb1 Hb2].
      inversion HF as [|? ? HF1 HF2]; subst x l.
      cbn [map] in Hnd. destruct (nodup_head _ _ Hnd) as [Hfresh Hnd'].
      assert (Hkm' : forall f0, In f0 fs -> keymap (key f0) = f_name f0) by (intros f0 H0; apply Hkm; right; exact H0).
      assert (Hfr : forall mm mm2 mm', fits_fields (fun f => fits q lv n32 (f_type f)) key fs ss mm = true ->
                Forall2 ent_rel mm mm2 -> Permutation mm2 mm' ->
                forall kv, In kv mm' -> bytes_eqb (keymap (fst kv)) (f_name f) = false).
      { intros mm mm2 mm' Hmm HRm HPm kv Hkv. apply (Permutation_in _ (Permutation_sym HPm)) in Hkv.
        destruct (F2_in_r _ _ _ _ HRm Hkv) as [a [Ha [Hk _]]].
        pose proof (fits_fields_keys _ key fs ss mm Hmm a Ha) as Hin. apply in_map_iff in Hin.
        destruct Hin as [f0 [E Hf0]]. rewrite <- Hk, <- E, (Hkm' f0 Hf0). apply Hfresh. exact (in_map f_name fs f0 Hf0). }
      destruct (fits_fields_cons _ _ _ _ _ _ _ _ Hfit) as [[v [m0 [-> [Hfv Hrest]]]] | [Hopt Hrest]].
      + (* the entry of this field, wherever it is delivered *)
        destruct (F2_cons_inv _ _ _ _ HR) as [[k2 v2] [m2' [-> [[Hk Hpv] HR']]]].
        cbn [fst snd] in Hk, Hpv. subst k2.
        destruct (in_split (key f, v2) m' (Permutation_in _ HP (or_introl eq_refl))) as [a [b ->]].
        apply Permutation_cons_app_inv in HP.
        destruct (field_asm lv f s v v2 HF1 Hb1 Hfv Hpv) as [g1 [dd [Ha [Hok1 [Hden1 Hpd]]]]].
        destruct (IH ss m0 m2' (a ++ b) Hnd' Hkm' HF2 Hb2 Hrest HR' HP) as [gs [dn [Hrun [Hok [Hden Hmiss]]]]].
        exists (g1 :: gs), (true :: dn).
        split; [|split; [|split]].
        * exact (entries_head q n32 lv keymap f fs sn s ss _ v2 b g1 (gs, dn) a _ _ _ _
                   (Hkm f (or_introl eq_refl)) (Hfr m0 m2' _ Hrest HR' HP) Ha Hrun).
        * cbn [ok_fields]. rewrite Hok1, Hok. reflexivity.
        * cbn [den_fields]. rewrite Hden1. cbn [map fst snd]. constructor; [split; [reflexivity | exact Hpd] | exact Hden].
        * cbn [missing_required]. rewrite Hmiss. rewrite andb_false_r. reflexivity.
      + (* the field is optional and absent: its zero value, nil, stays *)
        destruct (IH ss m m2 m' Hnd' Hkm' HF2 Hb2 Hrest HR HP) as [gs [dn [Hrun [Hok [Hden Hmiss]]]]].
        exists (zero_of s :: gs), (false :: dn).
        split.
        { cbn [asm_zeros map snd]. rewrite entries_tail by exact (Hfr m m2 m' Hrest HR HP). fold (asm_zeros ss). rewrite Hrun. reflexivity. }
        assert (Hz : zero_of s = GNil).
        { apply field_ok_inv in Hb1. rewrite Hopt in Hb1.
          destruct Hb1 as [[s1 [-> _]] | [_ [[-> _] | [-> _]]]]; reflexivity. }
        rewrite Hz.
        cbn [ok_fields den_fields missing_required]. unfold ok_field, den_field. rewrite Hopt.
        repeat split; assumption.
  Qed.

  Lemma tuple_asm : forall lv fs ss l l',
    Forall (fun f => asm_spec lv (f_type f)) fs ->
    fields_bindable (fun f => bindable (f_type f)) fs ss = true ->
    forallb (fun f => negb (f_opt f)) fs = true ->
    fits_tuple (fun f => fits q lv n32 (f_type f)) fs ss l = true ->
    Forall2 R l l' ->
    exists gs, asm_tuple (fun f => asm q lv n32 (f_type f)) fs ss (asm_zeros ss) l'
               = Ok (gs, map (fun _ => true) fs)
               /\ ok_fields (fun f => gv_ok q n32 (f_type f)) fs ss gs = true
               /\ Forall2 R l (den_tuple (fun f => denote lv (f_type f)) fs gs).
  Proof.
    intros lv. unfold asm_zeros. induction fs as [|f fs IH]; intros ss l l' HF Hb Hno Hfit HR.
    - destruct ss; simpl in Hb; try discriminate. destruct l; simpl in Hfit; try discriminate.
      inversion HR; subst. exists []. repeat split. constructor.
    - destruct ss as [|[sn s] ss]; simpl in Hb; try discriminate.
      destruct l as [|v l]; simpl in Hfit; try discriminate.
      inversion HR as [|? v' ? l2 Hpv HR']; subst.
      apply andb_prop in Hb. destruct Hb as [Hb1 Hb2].
      apply andb_prop in Hfit. destruct Hfit as [Hf1 Hf2].
      cbn [forallb] in Hno. apply andb_prop in Hno. destruct Hno as [Hn1 Hn2].
      apply negb_true_iff in Hn1.
      inversion HF as [|? ? HF1 HF2]; subst.
      assert (Hf1' : fits_child (fits q lv n32 (f_type f)) (f_nul f) (if f_opt f then deref1 s else s) v = true)
        by (rewrite Hn1; exact Hf1).
      destruct (field_asm lv f s v v' HF1 Hb1 Hf1' Hpv) as [g1 [dd [Ha [Hok1 [Hden1 Hpd]]]]].
      destruct (IH ss l l2 HF2 Hb2 Hn2 Hf2 HR') as [gs [Hrun [Hok Hden]]].
      exists (g1 :: gs). cbn [asm_tuple map snd]. rewrite Ha. cbn [bind]. rewrite Hrun. cbn [bind fst snd].
      split; [reflexivity|]. split.
      + cbn [ok_fields]. rewrite Hok1, Hok. reflexivity.
      + cbn [den_tuple]. rewrite Hden1. constructor; assumption.
  Qed.

  Lemma member_asm : forall lv byname k ms ss v v' (fit : nat -> bytes * sty -> bool) (none : bres gv),
    Forall (fun m => asm_spec lv (snd m)) ms ->
    members_bindable (fun m => bindable (snd m)) ms ss = true ->
    (forall i m, fit i m = true -> fits q lv n32 (snd m) (deref1 (nth_shape i ss)) v = true) ->
    with_member byname k fit false ms O = true ->
    R v v' ->
    exists gs mb x,
      with_member byname k (member_body q n32 lv ss v') none ms O = Ok (GStruct gs)
      /\ bytes_eqb k (member_key byname mb) = true
      /\ ok_members (fun m => gv_ok q n32 (snd m)) ms ss gs false = true
      /\ (forall (den : bytes * sty -> gv -> dm) wrapm, den_union den wrapm ms gs = wrapm mb (den mb x))
      /\ R v (denote lv (snd mb) x).
  Proof.
    intros lv byname k ms ss v v' fit none HF Hb Hfits Hfit Hp.
    destruct (with_member_true_inv byname k _ ms O Hfit) as [pre [m [post [Hms [Hpre [Hm Hbody]]]]]].
    cbn [Nat.add] in Hbody. subst ms.
    destruct (member_slot (fun m => gv_ok q n32 (snd m)) pre m post ss Hb) as [ms1 [Hnth [Hbm Hslot]]].
    apply Hfits in Hbody. rewrite Hnth in Hbody. cbn [deref1] in Hbody.
    assert (HFm : asm_spec lv (snd m)).
    { rewrite Forall_forall in HF. apply HF. apply in_elt. }
    pose proof (bindable_noptr _ _ Hbm) as Hnp.
    rewrite <- (deref1_noptr ms1 Hnp) in Hbody.
    destruct (HFm ms1 v v' (bindable_loc_ok _ _ Hbm) Hbody Hp) as [x [Ha [Hok Hden]]].
    rewrite ok_loc_noptr in Hok by exact Hnp.
    exists (set_nth (length pre) (GPtr x) (map (fun _ => GNil) ss)), m, x.
    split; [|split; [exact Hm|]].
    - rewrite with_member_found; [| exact Hpre | exact Hm]. cbn [Nat.add].
      unfold member_body. rewrite Hnth, Ha. reflexivity.
    - destruct (Hslot x) as [Hokm Hdu]. rewrite Hokm. auto.
  Qed.

  Lemma struct_map_asm : forall lv (key : fld -> bytes) (keymap : bytes -> bytes) fs ss m d',
    names_nodup (map f_name fs) = true -> (forall f, In f fs -> keymap (key f) = f_name f) ->
    Forall (fun f => asm_spec lv (f_type f)) fs ->
    fields_bindable (fun f => bindable (f_type f)) fs ss = true ->
    fits_fields (fun f => fits q lv n32 (f_type f)) key fs ss m = true -> R (DMap m) d' ->
    exists m' gs done, d' = DMap m' /\
      asm_entries (fun k v gs done => asm_by_name q n32 lv fs ss (keymap k) v gs done) m'
        (asm_zeros ss) (map (fun _ => false) fs) = Ok (gs, done)
      /\ missing_required fs done = false
      /\ ok_fields (fun f => gv_ok q n32 (f_type f)) fs ss gs = true
      /\ R (DMap m) (DMap (map (fun e => (key (fst e), snd e)) (den_fields (fun f => denote lv (f_type f)) fs gs))).
  Proof.
    intros lv key keymap fs ss m d' Hnn Hkm HF Hb Hfit Hr.
    destruct (R_map_inv m d' Hr) as [m2 [m' [-> [HR HP]]]].
    destruct (struct_entries lv key keymap fs ss m m2 m' Hnn Hkm HF Hb Hfit HR (P_perm _ _ HP))
      as [gs [dn [Hrun [Hok [Hden Hmiss]]]]].
    exists m', gs, dn. repeat split; try assumption. exact (R_map _ _ _ Hden (P_refl _)).
  Qed.

  Lemma any_asm : forall lv, asm_spec lv TAny.
  Proof.
    intros lv s d d' Hl Hf Hr. pose proof (loc_ok_direct _ _ Hl) as Hb.
    destruct (deref1 s) eqn:Es; simpl in Hb; try discriminate.
    assert (Hd : d <> DNull) by (intros ->; simpl in Hf; discriminate).
    pose proof (R_nonnull d d' Hr Hd) as Hd'.
    exists (put s (GNode d')). split; [destruct d'; try congruence; reflexivity|].
    apply put_rel; [rewrite Es; destruct d'; try congruence; reflexivity | exact Hr].
  Qed.

  Lemma list_asm : forall lv n t nl, asm_spec lv t -> asm_spec lv (TList n t nl).
  Proof.
    intros lv n t nl IHt s d d' Hl Hf Hr. pose proof (loc_ok_direct _ _ Hl) as Hb.
    destruct (deref1 s) as [| | | | | | | |sn es| |] eqn:Es; simpl in Hb; try discriminate.
    destruct d; simpl in Hf; try discriminate.
    destruct (R_list_inv l d' Hr) as [l' [-> HR]].
    assert (HF : Forall2 (fun a b => exists g, asm q lv n32 t es (zero_of es) nl b = Ok g
                                      /\ ok_child (gv_ok q n32 t) nl es g = true
                                      /\ R a (den_child (denote lv t) nl g)) l l').
    { rewrite forallb_forall in Hf. eapply F2_impl_in; [exact HR|].
      intros a b Ha Hb' Hab. apply child_asm; auto. }
    destruct (mapM_exists _ (fun g => ok_child (gv_ok q n32 t) nl es g = true)
                (fun a g => R a (den_child (denote lv t) nl g)) l l' HF) as [gs [Hrun [Hoks Hmap]]].
    rewrite (asm_list_at q n32 _ _ _ _ _ _ _ _ Es), Hrun. cbn [bind].
    eexists. split; [reflexivity|].
    (* an empty result leaves the nil slice in place *)
    destruct gs as [|g0 gs0].
    - apply put_rel; [rewrite Es; reflexivity |]. inversion Hmap; subst. apply R_refl.
    - apply put_rel; [|].
      { rewrite Es. cbn [gv_ok]. apply forallb_forall. rewrite Forall_forall in Hoks. exact Hoks. }
      cbn [denote unptr]. apply R_list. apply F2_map_r. exact Hmap.
  Qed.

  Lemma map_asm : forall lv n t1 t2 nl, asm_spec lv t2 -> asm_spec lv (TMap n t1 t2 nl).
  Proof.
    intros lv n t1 t2 nl IHt2 s d d' Hl Hf Hr. pose proof (loc_ok_direct _ _ Hl) as Hb.
    destruct (bindable_map_inv _ _ _ _ _ Hb) as [sn [k1 [n1 [k2 [mv [Es [-> Hv]]]]]]]. rewrite Es in Hf.
    destruct d; simpl in Hf; try discriminate.
    apply andb_prop in Hf. destruct Hf as [Hnd Hfv].
    destruct (R_map_inv m d' Hr) as [m2 [m' [-> [HR HP]]]]. apply P_perm in HP as HPp.
    assert (Hnd' : names_nodup (map fst m') = true).
    { apply names_nodup_NoDup. eapply Permutation_NoDup; [exact (F2_perm_keys R _ _ _ HR HPp)|].
      apply names_nodup_NoDup. exact Hnd. }
    (* what a delivered value is assembled to; its worth is known from the fitting entry it is paired with *)
    set (val := fun kv : bytes * dm =>
                  match asm q lv n32 t2 mv (zero_of mv) nl (snd kv) with Ok g => g | Err _ => GNil end).
    assert (HF2 : Forall2 (fun a b => fst a = fst b
                      /\ asm q lv n32 t2 mv (zero_of mv) nl (snd b) = Ok (val b)
                      /\ ok_child (gv_ok q n32 t2) nl mv (val b) = true
                      /\ R (snd a) (den_child (denote lv t2) nl (val b))) m m2).
    { rewrite forallb_forall in Hfv. eapply F2_impl_in; [exact HR|].
      intros a b Ha _ [Hk Hr']. split; [exact Hk|].
      destruct (child_asm lv t2 nl mv (snd a) (snd b) IHt2 Hv (Hfv a Ha) Hr') as [vg [Ha' [Hok Hden]]].
      unfold val. rewrite Ha'. auto. }
    assert (Hval : forall b, In b m' -> asm q lv n32 t2 mv (zero_of mv) nl (snd b) = Ok (val b)
                                       /\ ok_child (gv_ok q n32 t2) nl mv (val b) = true).
    { intros b Hb'. apply (Permutation_in _ (Permutation_sym HPp)) in Hb'.
      destruct (F2_in_r _ _ _ _ HF2 Hb') as [a [_ [_ [Ho [Hok _]]]]]. auto. }
    rewrite (asm_map_at q n32 _ _ _ _ _ _ _ _ _ _ _ _ _ _ Es), (map_entries_run _ val m' [] []);
      [| apply Forall_forall; intros b Hb'; cbn; rewrite (proj1 (Hval b Hb')); reflexivity | exact Hnd' | reflexivity].
    cbn [bind fst snd app].
    eexists. split; [reflexivity|].
    (* no key leaves the nil slice in place; either way Keys reads as the list of delivered keys *)
    set (keys := map GString (map fst m')).
    set (gk := match keys with [] => GNil | k :: r => GSlice (k :: r) end).
    assert (Hkeys : match gk with GSlice l => l | _ => [] end = keys) by (unfold gk; destruct keys; reflexivity).
    assert (Hgk : match gk with GSlice _ | GNil => true | _ => false end = true) by (unfold gk; destruct keys; reflexivity).
    apply put_rel; [|].
    { rewrite Es. cbn [gv_ok]. rewrite Hkeys, Hgk. unfold keys. rewrite gv_nodup_strings, Hnd'. cbn [andb].
      rewrite map_map, !forallb_map. apply andb_true_intro.
      split; apply forallb_forall; intros b Hb'; [reflexivity|].
      rewrite (go_entries_get val m' Hnd' b Hb'). exact (proj2 (Hval b Hb')). }
    cbn [denote unptr]. rewrite Hkeys. unfold keys. rewrite map_map, map_map.
    set (G := fun kv : bytes * dm => (fst kv, den_child (denote lv t2) nl (val kv))).
    rewrite (map_ext_in _ G m') by (intros b Hb'; rewrite (go_entries_get val m' Hnd' b Hb'); reflexivity).
    apply (R_map m (map G m2) (map G m')); [|apply P_map; exact HP].
    apply F2_map_r. eapply F2_impl_in; [exact HF2|]. intros a b _ _ [Hk [_ [_ Hr']]]. split; assumption.
  Qed.

  Lemma struct_asm : forall lv n fs r, Forall (fun f => asm_spec lv (f_type f)) fs -> asm_spec lv (TStruct n fs r).
  Proof.
    intros lv n fs r H s d d' Hl Hf Hr. pose proof (loc_ok_direct _ _ Hl) as Hb.
    destruct (bindable_struct_inv _ _ _ _ Hb) as [sn [ss [Es [Hbf [Hnn [Hnr Htup]]]]]]. rewrite Es in Hf.
    destruct lv.
    - simpl in Hf. destruct d; try (destruct r; discriminate).
      assert (Hf' : fits_fields (fun f => fits q LType n32 (f_type f)) f_name fs ss m = true)
        by (destruct r; exact Hf).
      destruct (struct_map_asm LType f_name (fun k => k) fs ss m d' Hnn (fun f _ => eq_refl) H Hbf Hf' Hr)
        as [m' [gs [dn [-> [Hrun [Hmiss [Hok Hden]]]]]]].
      cbn beta in Hrun.
      rewrite (asm_struct_type_at q n32 _ _ _ _ _ _ _ Es), Hrun. cbn [bind].
      unfold asm_finish. cbn [fst snd]. rewrite Hmiss.
      eexists. split; [reflexivity|].
      apply put_rel; [rewrite Es; exact Hok |].
      cbn [denote unptr]. destruct r; exact Hden.
    - destruct r.
      + simpl in Hf. destruct d; try discriminate.
        set (keymap := fun k => match find_rkey k fs with Some x => x | None => k end).
        assert (Hkm : forall f, In f fs -> keymap (f_rkey f) = f_name f).
        { intros f Hin. unfold keymap. rewrite (find_rkey_found fs Hnr f Hin). reflexivity. }
        destruct (struct_map_asm LRepr f_rkey keymap fs ss m d' Hnn Hkm H Hbf Hf Hr)
          as [m' [gs [dn [-> [Hrun [Hmiss [Hok Hden]]]]]]].
        unfold keymap in Hrun. cbn beta in Hrun.
        rewrite (asm_struct_map_at q n32 _ _ _ _ _ _ Es), Hrun. cbn [bind].
        unfold asm_finish. cbn [fst snd]. rewrite Hmiss.
        eexists. split; [reflexivity|].
        apply put_rel; [rewrite Es; exact Hok | exact Hden].
      + simpl in Hf. destruct d; try discriminate.
        destruct (R_list_inv l d' Hr) as [l' [-> HR]].
        destruct (tuple_asm LRepr fs ss l l' H Hbf (Htup eq_refl) Hf HR) as [gs [Hrun [Hok Hden]]].
        rewrite (asm_struct_tuple_at q n32 _ _ _ _ _ _ Es), Hrun. cbn [bind].
        unfold asm_finish. cbn [fst snd]. rewrite missing_all_done.
        eexists. split; [reflexivity|].
        apply put_rel; [rewrite Es; exact Hok |].
        apply R_list. exact Hden.
  Qed.

  Lemma union_asm : forall lv n ms r, Forall (fun m => asm_spec lv (snd m)) ms -> asm_spec lv (TUnion n ms r).
  Proof.
    intros lv n ms r H s d d' Hl Hf Hr. pose proof (loc_ok_direct _ _ Hl) as Hb.
    destruct (bindable_union_inv _ _ _ _ Hb) as [sn [ss [Es [Hbm [Hnn [Hnd Hrep]]]]]]. rewrite Es in Hf.
    destruct lv.
    - simpl in Hf. destruct d; try (destruct r; discriminate).
      destruct m as [|[k v] [|]]; try (destruct r; discriminate).
      assert (Hf' : with_member true k (fun i m => fits_child (fits q LType n32 (snd m)) false (nth_shape i ss) v) false ms 0 = true)
        by (destruct r; exact Hf).
      destruct (R_single k v d' Hr) as [v' [-> Hpv]].
      destruct (member_asm LType true k ms ss v v' _ (Err XUnion) H Hbm (fun i m => fits_child_inv _ _ _) Hf' Hpv)
        as [gs [mb [x [Hrun [Hk [Hok [Hden Hpx]]]]]]].
      rewrite (asm_union_type_at q n32 _ _ _ _ _ _ _ Es). cbn [asm_union_entries]. rewrite Hrun. cbn [bind asm_union_entries].
      eexists. split; [reflexivity|].
      apply put_rel; [rewrite Es; exact Hok |]. cbn [denote unptr]. rewrite Hden.
      apply bytes_eqb_eq in Hk. subst k. destruct r; apply R_entry; exact Hpx.
    - destruct r.
      + simpl in Hf. destruct d; try discriminate.
        destruct m as [|[k v] [|]]; try discriminate.
        destruct (R_single k v d' Hr) as [v' [-> Hpv]].
        destruct (member_asm LRepr false k ms ss v v' _ (Err XUnion) H Hbm (fun i m => fits_child_inv _ _ _) Hf Hpv)
          as [gs [mb [x [Hrun [Hk [Hok [Hden Hpx]]]]]]].
        rewrite (asm_union_keyed_at q n32 _ _ _ _ _ _ Es). cbn [asm_union_entries].
        destruct (find_disc_some k _ ms 0 Hf) as [it ->].
        rewrite Hrun. cbn [bind asm_union_entries].
        eexists. split; [reflexivity|].
        apply put_rel; [rewrite Es; exact Hok |]. cbn [denote unptr]. rewrite Hden.
        apply bytes_eqb_eq in Hk. subst k. apply R_entry. exact Hpx.
      + assert (Hd : d <> DNull) by (intros ->; simpl in Hf; discriminate).
        pose proof (R_nonnull d d' Hr Hd) as Hd'.
        assert (Hf' : with_member false (kind_name d')
                        (fun i m => fits q LRepr n32 (snd m) (deref1 (nth_shape i ss)) d) false ms 0 = true).
        { rewrite (R_kind d d' Hr). simpl in Hf. destruct d; try discriminate Hf; exact Hf. }
        destruct (member_asm LRepr false (kind_name d') ms ss d d' _ (Err XWrongKind) H Hbm (fun _ _ E => E) Hf' Hr)
          as [gs [mb [x [Hrun [Hk [Hok [Hden Hpx]]]]]]].
        assert (Hs : s = SStruct sn ss).
        { destruct (loc_ok_inv _ _ Hl) as [Hb' | [s1 [_ [_ [_ Hkd]]]]]; [|discriminate Hkd].
          rewrite <- Es. symmetry. exact (deref1_noptr s (bindable_noptr _ _ Hb')). }
        subst s. rewrite asm_union_kinded_at by assumption. rewrite Hrun.
        eexists. split; [reflexivity|]. split; [exact Hok|]. cbn [denote unptr]. rewrite Hden. exact Hpx.
      + contradiction.
  Qed.

  Theorem asm_rel : forall lv t, asm_spec lv t.
  Proof.
    intros lv. induction t using sty_ind2; try (apply leaf_case; reflexivity).
    - apply any_asm.
    - apply list_asm; assumption.
    - apply map_asm; assumption.
    - apply struct_asm; assumption.
    - apply union_asm; assumption.
  Qed.
End AsmRel.

Lemma F2_ent_eq : forall m m2, Forall2 (ent_rel eq) m m2 -> m = m2.
Proof.
  intros m m2 H; induction H as [|[k v] [k2 v2] l l' [Hk Hv] _ IH]; [reflexivity|].
  cbn [fst snd] in *. congruence.
Qed.

Theorem asm_denote : forall q n32 lv t, asm_spec q n32 eq lv t.
Proof.
  intros q n32. apply (asm_rel q n32 eq eq).
  - reflexivity.
  - intros d d' H _. symmetry. exact H.
  - intros l l' H. f_equal. apply F2_eq. exact H.
  - intros l d' <-. exists l. split; [reflexivity | apply F2_refl; reflexivity].
  - intros m m2 m' H <-. f_equal. apply F2_ent_eq. exact H.
  - intros m d' <-. exists m, m. repeat split. apply F2_refl. intros x. split; reflexivity.
  - reflexivity.
  - intros m m' <-. apply Permutation_refl.
  - intros G m m' <-. reflexivity.
Qed.
