(* Proofs/CborComplete.v — the converse of Proofs/CborSound.v: every input the SPEC checker
   [chk] accepts as one well-formed item denoting v is accepted by the decoder model with exactly v, under
   every option setting, provided v is within the decoder's configured limits (depth, allocation budget,
   32 MiB strings, collection lengths that fit Go's int).  Together with [decode_sound] the decoder model is
   characterised by the SPEC from both sides.  [lim_ok], the limits in question, is defined here. *)
Require Import IP.Base.Bytes IP.DM.Value IP.Codec.Cid IP.Codec.Cbor IP.Codec.CborSpec IP.Gen.FromGo.
Require Import IP.Proofs.BytesFacts IP.Proofs.CborHead IP.Proofs.CborEnc IP.Proofs.CborRel IP.Proofs.CborDec.
Require Import IP.Proofs.CborSound IP.Proofs.CborBound.
From Coq Require Import ZifyN ZifyNat ZifyBool.
Open Scope N_scope.

(* sizes the decoder enforces on what it builds (besides depth and budget); NaN payloads are not
   compared by [chk], so the exact-value statement is for NaN-free values (strict mode has none) *)
Fixpoint lim_ok (v : dm) : Prop :=
  match v with
  | DFloat f => f64_is_nan f = false
  | DString s | DBytes s => lenN s <= str_cap
  | DLink c => lenN c + 1 <= str_cap
  | DList l => lenN l < two63 /\
               (fix all (l : list dm) := match l with [] => True | x :: r => lim_ok x /\ all r end) l
  | DMap es => lenN es < two63 /\
               (fix all (es : list (bytes * dm)) :=
                  match es with [] => True | (k, x) :: r => lenN k <= str_cap /\ lim_ok x /\ all r end) es
  | _ => True
  end.

Lemma lim_ok_list l : lim_ok (DList l) <-> lenN l < two63 /\ Forall lim_ok l.
Proof. cbn [lim_ok]. now rewrite all_Forall. Qed.

Lemma lim_ok_map es : lim_ok (DMap es) <->
  lenN es < two63 /\ Forall (fun kv => lenN (fst kv) <= str_cap /\ lim_ok (snd kv)) es.
Proof. cbn [lim_ok]. now rewrite (all_kv_Forall (fun k => lenN k <= str_cap)). Qed.

Section Complete.
  Variable o : dopts.
  Local Notation strict := (negb (d_relaxed o)).
  Local Notation links := (d_allow_links o).

  (* for every option setting and any list of numbers: nothing here asks the input to be bytes below 256, or the
     decoder to refuse stray tags *)
  Definition cp_stmt (v : dm) : Prop := forall bs r,
    chk strict links true v bs = Some r -> lim_ok v -> DecV o None bs v r.

  Lemma cp_null : cp_stmt DNull.
  Proof.
    intros bs r Hc _. rewrite chk_null_eq in Hc. destruct bs as [|b t]; [discriminate|].
    destruct ((b =? 246) || (b =? 247)) eqn:E; [|discriminate]. inversion Hc; subst. now constructor.
  Qed.

  Lemma cp_bool x : cp_stmt (DBool x).
  Proof.
    intros bs r Hc _. rewrite chk_bool_eq in Hc. destruct bs as [|b t]; [discriminate|].
    destruct (N.eqb_spec b (if x then 245 else 244)) as [->|]; [|discriminate]. inversion Hc; subst. now constructor.
  Qed.

  Lemma cp_float x : cp_stmt (DFloat x).
  Proof.
    intros bs r Hc Hl. rewrite chk_float_eq in Hc. cbn [lim_ok] in Hl.
    destruct (strict && negb (f64_finite x)) eqn:Es; [discriminate|].
    destruct bs as [|b t]; [discriminate|].
    destruct (is_float b) eqn:Ef; [|discriminate]. destruct (take _ t) as [[y r']|] eqn:Et; [|discriminate].
    cbv zeta in Hc. destruct (_ || _) eqn:Eo; [|discriminate]. inversion Hc; subst.
    apply take_some in Et as [-> Hy]. apply DvFloat; [exact Ef|exact Hy| |exact Es|exact I].
    rewrite Hl, orb_false_r in Eo. now apply N.eqb_eq in Eo.
  Qed.

  Lemma cp_int z : cp_stmt (DInt z).
  Proof.
    intros bs r Hc _. cbn [chk] in Hc.
    destruct (rd_head strict bs) as [[[mj a] r1]|] eqn:Eh; [|discriminate].
    destruct (N.eqb_spec mj 0) as [->|Hm0]; cbn [andb] in Hc.
    { destruct (Z.eqb_spec (Z.of_N a) z) as [<-|]; [|discriminate]. inversion Hc; subst. now apply DvUint. }
    destruct (N.eqb_spec mj 1) as [->|Hm1]; [|cbn [andb] in Hc; discriminate].
    assert (Hz : z = (- Z.of_N ((a + 1) mod two64))%Z /\ (a + 1) mod two64 <= two63 /\ r1 = r);
      [|destruct Hz as (-> & Hle & <-); now apply DvNint].
    (* the SPEC's negative ints are those whose argument plus one does not wrap, and -2^64, which wraps to 0 *)
    destruct (N.ltb_spec a two63) as [Hlt|]; cbn [andb] in Hc.
    - rewrite N.mod_small by (unfold two63, two64 in *; lia).
      destruct (Z.eqb_spec (-1 - Z.of_N a) z) as [<-|]; [inversion Hc; unfold two63 in *; repeat split; lia|].
      destruct (N.eqb_spec a (two64 - 1)); [unfold two63, two64 in *; lia|discriminate].
    - destruct (N.eqb_spec a (two64 - 1)) as [->|]; [|discriminate]. cbn [andb] in Hc.
      destruct (Z.eqb_spec z 0) as [->|]; [|discriminate]. inversion Hc. now repeat split.
  Qed.

  Lemma cp_string x : cp_stmt (DString x).
  Proof.
    intros bs r Hc Hl. cbn [chk lim_ok] in *.
    destruct (rd_head strict bs) as [[[mj a] r1]|] eqn:Eh; [|discriminate]. rewrite is3 in Hc.
    destruct (N.eqb_spec mj 3) as [->|]; [|discriminate]. destruct (take a r1) as [[s' r']|] eqn:Et; [|discriminate].
    destruct (bytes_eqb_spec x s') as [<-|]; [|discriminate]. inversion Hc; subst r'.
    apply take_some in Et as [-> <-]. now apply DvString.
  Qed.

  Lemma cp_bytes x : cp_stmt (DBytes x).
  Proof.
    intros bs r Hc Hl. cbn [chk lim_ok] in *.
    destruct (rd_head strict bs) as [[[mj a] r1]|] eqn:Eh; [|discriminate]. rewrite is2 in Hc.
    destruct (N.eqb_spec mj 2) as [->|]; [|discriminate]. destruct (take a r1) as [[s' r']|] eqn:Et; [|discriminate].
    destruct (bytes_eqb_spec x s') as [<-|]; [|discriminate]. inversion Hc; subst r'.
    apply take_some in Et as [-> <-]. now apply DvBytes.
  Qed.

  Lemma cp_link c : cp_stmt (DLink c).
  Proof.
    intros bs r Hc Hl. cbn [chk lim_ok] in *.
    destruct (d_allow_links o) eqn:Elk; [|discriminate]. destruct (cid_valid c) eqn:Ecid; [|discriminate].
    cbn [negb orb] in Hc.
    destruct (rd_head strict bs) as [[[mj a] r1]|] eqn:Eh; [|discriminate]. rewrite is6, is42 in Hc.
    destruct (N.eqb_spec mj 6) as [->|]; [|discriminate]. destruct (N.eqb_spec a 42) as [->|]; [|discriminate].
    destruct (rd_head strict r1) as [[[mj2 a2] r2]|] eqn:Eh2; [|discriminate]. rewrite is2 in Hc.
    destruct (N.eqb_spec mj2 2) as [->|]; [|discriminate]. destruct (take a2 r2) as [[s' r']|] eqn:Et; [|discriminate].
    destruct s' as [|[|p] c']; try discriminate.
    destruct (bytes_eqb_spec c c') as [<-|]; [|discriminate]. inversion Hc; subst r'.
    apply take_some in Et as [-> <-]. rewrite lenN_cons in *.
    apply DvTag with 42 r1; [exact Eh|unfold two63; lia|]. now apply DvLink.
  Qed.

  Lemma cp_items l : Forall cp_stmt l -> Forall lim_ok l -> forall bs r,
    chk_list strict links true l bs = Some r -> DecI o bs l r.
  Proof.
    induction 1 as [|x t Hx _ IH]; intros HO bs r Hc; cbn [chk_list] in Hc.
    - inversion Hc; subst. constructor.
    - inversion HO; subst. destruct (chk strict links true x bs) as [bs'|] eqn:Ex; [|discriminate].
      apply DiCons with bs'; [now apply Hx|now apply IH].
  Qed.

  Lemma cp_entries es : Forall (fun kv => cp_stmt (snd kv)) es ->
    Forall (fun kv => lenN (fst kv) <= str_cap /\ lim_ok (snd kv)) es -> forall seen bs r,
    chk_ents strict links true es bs = Some r -> nodup_go es seen = true -> DecE o seen bs es r.
  Proof.
    induction 1 as [|[k x] t Hx _ IH]; intros HO seen bs r Hc Hnd; [inversion Hc; subst; constructor|].
    rewrite chk_ents_cons in Hc. cbn [nodup_go] in Hnd. inversion HO as [|? ? [HOk HOx] HOr]; subst. cbn [fst snd] in *.
    destruct (chk strict links true (DString k) bs) as [r2|] eqn:Ek; [|discriminate].
    destruct (chk strict links true x r2) as [bs'|] eqn:Ex; [|discriminate].
    apply andb_prop in Hnd as [Hns Hnd]. apply negb_true_iff in Hns.
    apply DeCons with r2 bs'; [exact (cp_string k _ _ Ek HOk)|exact Hns|now apply Hx|now apply IH].
  Qed.

  Theorem cp_all v : cp_stmt v.
  Proof.
    induction v as [| b | z | f | s | s | c | l IH | es IH] using dm_ind2;
      [exact cp_null|exact (cp_bool b)|exact (cp_int z)|exact (cp_float f)|exact (cp_string s)|exact (cp_bytes s)|exact (cp_link c)| |].
    - intros bs r Hc Hl. apply lim_ok_list in Hl as [Hlen Hall].
      rewrite chk_list_unfold in Hc.
      destruct (rd_head strict bs) as [[[mj a] r1]|] eqn:Eh; [|discriminate]. rewrite is4 in Hc.
      destruct (N.eqb_spec mj 4) as [->|]; [|discriminate]. destruct (N.eqb_spec a (lenN l)) as [->|]; [|discriminate].
      apply DvList with r1; [exact Eh|exact Hlen|exact I|]. now apply cp_items.
    - intros bs r Hc Hl. apply lim_ok_map in Hl as [Hlen Hall].
      rewrite chk_map_unfold in Hc.
      destruct (rd_head strict bs) as [[[mj a] r1]|] eqn:Eh; [|discriminate]. rewrite is5 in Hc.
      destruct (N.eqb_spec mj 5) as [->|]; [|discriminate]. destruct (N.eqb_spec a (lenN es)) as [->|]; [|discriminate].
      destruct (nodup_go es []) eqn:End; [|discriminate]. cbn [negb orb] in Hc.
      apply DvMap with r1; [exact Eh|exact Hlen|exact I|]. now apply cp_entries.
  Qed.
End Complete.

(* C03, the converse direction: a list of numbers the SPEC accepts as one item denoting v, with v within the
   configured limits, is accepted by the decoder with exactly v, whatever the options *)
Theorem decode_complete o bs v rest :
  chk (negb (d_relaxed o)) (d_allow_links o) true v bs = Some rest -> lim_ok v ->
  (Z.of_nat (dm_depth v) <= max_depth o)%Z -> (cost v <= budget0 o)%Z ->
  (d_dont_parse_beyond o = false -> rest = []) ->
  decode o bs = Ok (v, rest).
Proof. intros Hc Hl Hd Hb Hrest. apply decode_rel_ok; auto. now apply cp_all. Qed.

Section Limits.
  Variable o : dopts.
  Hypothesis Hstrict : d_relaxed o = false.

  Lemma rel_lim :
    (forall tag bs v r, DecV o tag bs v r -> lim_ok v) /\
    (forall bs vs r, DecI o bs vs r -> Forall lim_ok vs) /\
    (forall seen bs es r, DecE o seen bs es r ->
       Forall (fun kv => lenN (fst kv) <= str_cap /\ lim_ok (snd kv)) es).
  Proof.
    (* the cons rules hold by their induction hypotheses: a key's bound is the limit of the string item it is *)
    apply Dec_ind; try (intros; exact I); try (intros; now constructor).
    - intros tag b x r f _ _ _ Hfin _. rewrite Hstrict in Hfin. cbn [negb andb lim_ok] in *.
      unfold f64_finite, f64_is_nan in *. now destruct (f64_exp f =? 2047).
    - intros bs s r _ Ha. exact Ha.
    - intros bs c r _ Ha _ _. exact Ha.
    - intros tag bs s r _ Ha _. exact Ha.
    - intros tag bs r vs r' _ Ha _ Hi IH. apply lim_ok_list. auto.
    - intros tag bs r es r' _ Ha _ He IH. apply lim_ok_map. auto.
    - intros bs a r v r' _ _ _ IH. exact IH.
  Qed.

  Theorem decode_lim bs v rest : decode o bs = Ok (v, rest) -> lim_ok v.
  Proof. intros H. apply decode_ok_rel in H as (Hd & _). destruct rel_lim as [Hv _]. exact (Hv _ _ _ _ Hd). Qed.
End Limits.

(* C03 from both sides, strict mode, stray tags refused (d_reject_tags): the decoder accepts bs with (v, rest) exactly when the
   SPEC says a prefix of bs is one well-formed item denoting v, v is within the configured limits, and
   nothing is left over unless stop-at-end was asked *)
Theorem decode_iff o bs v rest : d_reject_tags o = true -> d_relaxed o = false -> (0 <= budget0 o)%Z -> wfb bs ->
  (decode o bs = Ok (v, rest) <->
   chk true (d_allow_links o) true v bs = Some rest /\ lim_ok v /\
   (Z.of_nat (dm_depth v) <= max_depth o)%Z /\ (cost v <= budget0 o)%Z /\
   (d_dont_parse_beyond o = false -> rest = [])).
Proof.
  intros Hrt Hs Hb Hw. split.
  - intros Hd. destruct (decode_sound o Hrt bs v rest Hw Hd) as [Hc Hr]. rewrite Hs in Hc.
    destruct (decode_bounded o bs v rest Hd) as [H1 H2].
    repeat split; auto. exact (decode_lim o Hs bs v rest Hd).
  - intros (Hc & Hl & Hd & Hco & Hr). apply decode_complete; auto. now rewrite Hs.
Qed.
