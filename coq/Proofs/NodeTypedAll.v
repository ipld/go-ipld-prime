(* Proofs/NodeTypedAll.v — the all-scripts protocol theorem for the typed engines (Node/Typed.v):
   every annotated legal script of Node/TypedProtocol.v, for every type of the family, both engines,
   every quirk setting with the protocol defects off, runs with exactly the annotated per-call results
   and delivers exactly the value, at any position of that type ([tscript_run]; C12_typed_all_scripts in
   Props/C12.v is its reading at the root); each rejected request leaves the assembler in the state it
   was in. *)
Require Import IP.Base.Bytes IP.DM.Value IP.Node.Basic IP.Node.Typed IP.Node.TypedProtocol.
Open Scope N_scope.

Definition tpre (tr : list tsres) (r : list tsres * option tstate) : list tsres * option tstate :=
  (tr ++ fst r, snd r).

Lemma tpre_tpre : forall a b r, tpre a (tpre b r) = tpre (a ++ b) r.
Proof. intros. unfold tpre. simpl. rewrite app_assoc. reflexivity. Qed.

Lemma trun_app : forall e q ops s more,
  trun_tol e q s (ops ++ more) =
  match trun_tol e q s ops with
  | (tr, Some s') => tpre tr (trun_tol e q s' more)
  | (tr, None) => (tr, None)
  end.
Proof.
  induction ops; intros; simpl.
  - destruct (trun_tol e q s more). reflexivity.
  - destruct (tstep e q s a) eqn:E; auto; rewrite IHops;
      destruct (trun_tol e q s0 ops) as [tr [s'|]]; auto;
      unfold tpre; simpl; destruct (trun_tol e q s' more); reflexivity.
Qed.

Definition truns (e : engine) (q : tquirks) (s : tstate) (a : list tann) (s' : tstate) : Prop :=
  trun_tol e q s (map fst a) = (map snd a, Some s').

Lemma truns_nil : forall e q s, truns e q s [] s.
Proof. reflexivity. Qed.

Lemma truns_ok : forall e q s o s1 a s',
  tstep e q s o = TOk s1 -> truns e q s1 a s' -> truns e q s (tok o :: a) s'.
Proof. unfold truns. intros e q s o s1 a s' H R. simpl. rewrite H, R. reflexivity. Qed.

Lemma truns_err : forall e q s o c s1 a s',
  tstep e q s o = TErr c s1 -> truns e q s1 a s' -> truns e q s ((o, TSErr c) :: a) s'.
Proof. unfold truns. intros e q s o c s1 a s' H R. simpl. rewrite H, R. reflexivity. Qed.

Lemma truns_app : forall e q s a s1 b s',
  truns e q s a s1 -> truns e q s1 b s' -> truns e q s (a ++ b) s'.
Proof.
  unfold truns. intros e q s a s1 b s' Ha Hb. rewrite !map_app, trun_app, Ha, Hb. reflexivity.
Qed.

(* the form the roll-back theorem is stated in *)
Lemma truns_more : forall e q s a s', truns e q s a s' ->
  forall more, trun_tol e q s (map fst a ++ more) = tpre (map snd a) (trun_tol e q s' more).
Proof. intros e q s a s' H more. rewrite trun_app, H. reflexivity. Qed.

Lemma truns_tries : forall e q s (P : tann -> Prop),
  (forall o c, P (o, c) -> exists err, c = TSErr err /\ tstep e q s o = TErr err s) ->
  forall tries, Forall P tries -> truns e q s tries s.
Proof.
  intros e q s P HP. induction 1 as [|[o c] tries Ha _ IH]; [apply truns_nil|].
  destruct (HP o c Ha) as (err & -> & Hs). apply (truns_err e q s o err s); auto.
Qed.

Definition tpos (stk : list tframe) (ty : tty) : Prop :=
  match stk with
  | TRoot t :: _ => t = ty
  | TMap vt _ (TmMidValue _) :: _ => vt = ty
  | TList et _ TlMidValue :: _ => et = ty
  | _ => False
  end.

Definition tdeliver_st (stk : list tframe) (v : tval) : tstate :=
  match stk with
  | TRoot _ :: _ => TDone v
  | TMap vt t (TmMidValue k) :: r => TOpen (TMap vt (t ++ [(k, v)]) TmInitial :: r)
  | TList et x TlMidValue :: r => TOpen (TList et (x ++ [v]) TlInitial :: r)
  | _ => TOpen stk
  end.

Lemma tdeliver_pos : forall stk ty v, tpos stk ty -> tdeliver stk v = TOk (tdeliver_st stk v).
Proof.
  intros [|[t|d vs st|vt t [| |k|k]|et x []] r] ty v H; simpl in *; try contradiction; reflexivity.
Qed.

Lemma tstep_pos : forall e q stk ty o,
  tpos stk ty -> is_map_op o = false ->
  tstep e q (TOpen stk) o = pos_op e q ty stk (TOpen stk) o.
Proof.
  intros e q [|[t|d vs st|vt t [| |k|k]|et x []] r] ty o H Ho; simpl in H; try contradiction; subst;
    destruct o; simpl in Ho; try discriminate; reflexivity.
Qed.

Lemma node_tval_kind : forall ty n v, node_tval ty n = Some v -> kind_of n = want_kind ty.
Proof.
  intros ty n v H. destruct ty; simpl in H.
  - destruct (as_msg3 n) eqn:E; try discriminate. destruct n; try discriminate E; reflexivity.
  - destruct n; simpl in H; try discriminate; reflexivity.
  - destruct n; simpl in H; try discriminate; reflexivity.
Qed.

Lemma pos_wrong_step : forall e q ty stk s o,
  pos_wrong ty o = true -> pos_op e q ty stk s o = TErr TEWrong s.
Proof.
  intros e q ty stk s o H. destruct o; simpl in H; try discriminate; try reflexivity.
  - destruct ty; try discriminate; reflexivity.
  - destruct ty; try discriminate; reflexivity.
  - unfold pos_op. destruct (node_tval ty n) eqn:E.
    + apply node_tval_kind in E. rewrite E in H. destruct ty; discriminate H.
    + apply Bool.negb_true_iff in H. unfold want_kind in H. destruct ty; rewrite H; reflexivity.
Qed.

Lemma pos_bad_kind : forall e q ty stk o,
  tpos stk ty -> pos_wrong ty o = true -> tstep e q (TOpen stk) o = TErr TEWrong (TOpen stk).
Proof.
  intros e q ty stk o Hp Hw. rewrite (tstep_pos e q stk ty); auto.
  - apply pos_wrong_step; auto.
  - destruct o; simpl in Hw; try discriminate; reflexivity.
Qed.

Lemma pos_tries : forall e q ty stk tries,
  tpos stk ty -> Forall (PosTry ty) tries -> truns e q (TOpen stk) tries (TOpen stk).
Proof.
  intros e q ty stk tries Hp. apply truns_tries. intros o c H. inversion H; subst.
  exists TEWrong. split; auto. apply (pos_bad_kind e q ty); auto.
Qed.

Lemma int_try_step : forall e q done vals f r o c, IntTry (o, c) ->
  exists err, c = TSErr err /\
    tstep e q (TOpen (TStruct done vals (TsMidValue f) :: r)) o =
    TErr err (TOpen (TStruct done vals (TsMidValue f) :: r)).
Proof.
  intros e q done vals f r o c H.
  inversion H as [o' Hw | n Hn | n e0 Hn Hne]; subst.
  - exists TEWrong. split; auto. destruct o; simpl in Hw; try discriminate; reflexivity.
  - exists TEWrong. split; auto. simpl. rewrite Hn. reflexivity.
  - exists TEOther. split; auto. simpl. rewrite Hn. destruct e0; try reflexivity. contradiction.
Qed.

Definition at_key (s : tstate) : Prop :=
  match s with
  | TOpen (TStruct _ _ TsMidKey :: _) | TOpen (TMap _ _ TmMidKey :: _) => True
  | _ => False
  end.

Lemma tkey_try_step : forall e q s o c, at_key s -> TKeyTry (o, c) ->
  exists err, c = TSErr err /\ tstep e q s o = TErr err s.
Proof.
  intros e q s o c Hs H.
  destruct s as [[|[ty|done vals []|vt t []|et x st] r]|v]; try contradiction.
  all: inversion H as [o' Hw | n e0 Hn]; subst; exists TEWrong; split; auto.
  1,3: destruct o; simpl in Hw; try discriminate; reflexivity.
  all: simpl; rewrite Hn; reflexivity.
Qed.

Lemma skey_try_step : forall e q done vals r o c, SKeyTry e (o, c) ->
  exists err, c = TSErr err /\
    tstep e q (TOpen (TStruct done vals TsMidKey :: r)) o = TErr err (TOpen (TStruct done vals TsMidKey :: r)).
Proof.
  intros e q done vals r o c H. inversion H as [a Ht | k g He Hg Hf]; subst.
  - apply tkey_try_step; [exact I|exact Ht].
  - exists TEInvalidKey. split; auto.
    inversion Hg as [|n Hn]; subst; simpl; try rewrite Hn; rewrite Hf; reflexivity.
Qed.

Lemma int_value : forall e q done vals f r tries g z body s',
  Forall IntTry tries -> IntGive z g ->
  truns e q (TOpen (TStruct done (vals ++ [(f, z)]) TsInitial :: r)) body s' ->
  truns e q (TOpen (TStruct done vals (TsMidValue f) :: r)) (tries ++ tok g :: body) s'.
Proof.
  intros e q done vals f r tries g z body s' Ht Hg Hb.
  eapply truns_app; [apply (truns_tries e q _ IntTry (int_try_step e q done vals f r)), Ht|].
  eapply truns_ok; [|exact Hb]. inversion Hg as [|n Hn]; subst; simpl; try rewrite Hn; reflexivity.
Qed.

Lemma skey_fresh : forall e q done vals r k f kg body s',
  field_index k = Some f -> has f done = false -> TKeyGive k kg ->
  truns e q (TOpen (TStruct (f :: done) vals (TsMidValue f) :: r)) body s' ->
  truns e q (TOpen (TStruct done vals TsMidKey :: r)) (tok kg :: tok AssembleValue :: body) s'.
Proof.
  intros e q done vals r k f kg body s' Hf Hd Hg Hb.
  (* the generated code marks the field when the key arrives, bindnode when the value is asked for *)
  apply (truns_ok e q _ kg
           (TOpen (TStruct (match e with EBind => done | EGen => f :: done end) vals (TsExpectValue f) :: r))).
  - inversion Hg as [|n Hn]; subst; simpl; try rewrite Hn; rewrite Hf, Hd; destruct e; reflexivity.
  - eapply truns_ok; [|exact Hb]. destruct e; simpl; try rewrite Hd; reflexivity.
Qed.

Lemma skey_dup : forall e q done vals r k f kg,
  tq_ok e q -> field_index k = Some f -> has f done = true -> TKeyGive k kg ->
  tstep e q (TOpen (TStruct done vals TsMidKey :: r)) kg =
  TErr TERepeated (TOpen (TStruct done vals TsInitial :: r)).
Proof.
  intros e q done vals r k f kg Hq Hf Hd Hg.
  destruct e; simpl in Hq; destruct Hq as [Q1 Q2];
    inversion Hg as [|n Hn]; subst; simpl; try rewrite Hn; rewrite Hf, Hd; unfold struct_dup_checked;
    try rewrite Q1; try rewrite Q2; reflexivity.
Qed.

Lemma sentry_dup : forall e q done vals r k f,
  tq_ok e q -> field_index k = Some f -> has f done = true ->
  tstep e q (TOpen (TStruct done vals TsInitial :: r)) (AssembleEntry k) =
  TErr TERepeated (TOpen (TStruct done vals TsInitial :: r)).
Proof.
  intros e q done vals r k f Hq Hf Hd.
  destruct e; simpl in Hq; destruct Hq as [Q1 Q2]; simpl; rewrite Hf, Hd; unfold struct_dup_checked;
    try rewrite Q1; reflexivity.
Qed.

Lemma mkey_dup : forall e q vt t r k kg,
  tq_ok e q -> mem_key k t = true -> TKeyGive k kg ->
  tstep e q (TOpen (TMap vt t TmMidKey :: r)) kg = TErr TERepeated (TOpen (TMap vt t TmInitial :: r)).
Proof.
  intros e q vt t r k kg Hq Hm Hg.
  destruct e; simpl in Hq; destruct Hq as [Q1 Q2];
    inversion Hg as [|n Hn]; subst; simpl; try rewrite Hn; rewrite Hm; try rewrite Q1; try rewrite Q2; reflexivity.
Qed.

Lemma mentry_dup : forall e q vt t r k,
  tq_ok e q -> mem_key k t = true ->
  tstep e q (TOpen (TMap vt t TmInitial :: r)) (AssembleEntry k) =
  TErr TERepeated (TOpen (TMap vt t TmInitial :: r)).
Proof.
  intros e q vt t r k Hq Hm.
  destruct e; simpl in Hq; destruct Hq as [Q1 Q2]; simpl; rewrite Hm; try rewrite Q2; reflexivity.
Qed.

Lemma rejected_noop : forall e q s rej, tq_ok e q -> Rejected e s rej -> truns e q s rej s.
Proof.
  intros e q s rej Hq H. inversion H; subst.
  - eapply truns_err; [apply mentry_dup; auto|apply truns_nil].
  - eapply truns_ok; [reflexivity|]. eapply truns_app.
    + apply (truns_tries e q _ TKeyTry); [|eassumption]. intros o c. apply tkey_try_step. exact I.
    + eapply truns_err; [apply (mkey_dup e q vt t r k); auto|apply truns_nil].
  - eapply truns_err; [apply (sentry_dup e q done vals r k f); auto|apply truns_nil].
  - eapply truns_ok; [reflexivity|]. eapply truns_app.
    + apply (truns_tries e q _ (SKeyTry e) (skey_try_step e q done vals r)). assumption.
    + eapply truns_err; [apply (skey_dup e q done vals r k f); auto|apply truns_nil].
  - eapply truns_err; [|apply truns_nil]. simpl. rewrite H1. reflexivity.
  - eapply truns_err; [|apply truns_nil]. simpl. unfold all_done in H0. rewrite H0. reflexivity.
Qed.

Lemma struct_body : forall e q, tq_ok e q ->
  forall done vals fin body, StructBody e done vals fin body ->
  forall r, tpos r TyS ->
  truns e q (TOpen (TStruct done vals TsInitial :: r)) body (tdeliver_st r (TVS fin)).
Proof.
  intros e q Hq. induction 1; intros r Hr.
  - eapply truns_ok; [|apply truns_nil].
    simpl. unfold all_done in H. rewrite H. apply (tdeliver_pos r TyS); auto.
  - eapply truns_ok; [simpl; rewrite H, H0; reflexivity|].
    apply (int_value e q (f :: done) vals f r tries g z); auto.
  - eapply truns_ok; [reflexivity|]. eapply truns_app.
    { apply (truns_tries e q _ (SKeyTry e) (skey_try_step e q done vals r)), H1. }
    apply (skey_fresh e q done vals r k f kg); auto.
    apply (int_value e q (f :: done) vals f r tries g z); auto.
  - apply (truns_app e q _ [_] (TOpen (TStruct done vals TsInitial :: r))); auto.
    apply rejected_noop; auto. apply (RJ_field_entry e done vals r k f); auto.
  - change ((kg, TSErr TERepeated) :: body) with ([(kg, TSErr TERepeated)] ++ body).
    rewrite app_assoc, app_comm_cons.
    apply (truns_app e q _ _ (TOpen (TStruct done vals TsInitial :: r))); auto.
    apply rejected_noop; auto. apply (RJ_field_key e done vals r k f); auto.
  - apply (truns_app e q _ [_] (TOpen (TStruct done vals TsInitial :: r))); auto.
    apply rejected_noop; auto. apply RJ_unknown_entry; auto.
  - apply (truns_app e q _ [_] (TOpen (TStruct done vals TsInitial :: r))); auto.
    apply rejected_noop; auto. apply RJ_missing; auto.
Qed.

Definition VPT (e : engine) (q : tquirks) (ty : tty) : Prop :=
  forall v aops, TScript e q ty v aops ->
  forall stk, tpos stk ty -> truns e q (TOpen stk) aops (tdeliver_st stk v).

Lemma map_body_t : forall e q vt, tq_ok e q -> VPT e q vt ->
  forall t fin body, MapBodyT (TScript e q vt) t fin body ->
  forall r, tpos r (TyM vt) ->
  truns e q (TOpen (TMap vt t TmInitial :: r)) body (tdeliver_st r (TVM fin)).
Proof.
  intros e q vt Hq HV. induction 1; intros r Hr.
  - eapply truns_ok; [|apply truns_nil]. simpl. apply (tdeliver_pos r (TyM vt)); auto.
  - eapply truns_ok; [simpl; rewrite H; reflexivity|].
    eapply truns_app; [apply (HV v s H0 (TMap vt t (TmMidValue k) :: r)); reflexivity|].
    apply IHMapBodyT; auto.
  - eapply truns_ok; [reflexivity|]. eapply truns_app.
    { apply (truns_tries e q _ TKeyTry); [|exact H0]. intros o c. apply tkey_try_step. exact I. }
    eapply truns_ok; [inversion H1 as [|n Hn]; subst; simpl; try rewrite Hn; rewrite H; reflexivity|].
    eapply truns_ok; [reflexivity|].
    eapply truns_app; [apply (HV v s H2 (TMap vt t (TmMidValue k) :: r)); reflexivity|].
    apply IHMapBodyT; auto.
  - apply (truns_app e q _ [_] (TOpen (TMap vt t TmInitial :: r))); auto.
    apply rejected_noop; auto. apply RJ_map_entry; auto.
  - change ((kg, TSErr TERepeated) :: body) with ([(kg, TSErr TERepeated)] ++ body).
    rewrite app_assoc, app_comm_cons.
    apply (truns_app e q _ _ (TOpen (TMap vt t TmInitial :: r))); auto.
    apply rejected_noop; auto. apply (RJ_map_key e vt t r k); auto.
Qed.

Lemma list_body_t : forall e q et, VPT e q et ->
  forall x fin body, ListBodyT (TScript e q et) x fin body ->
  forall r, tpos r (TyL et) ->
  truns e q (TOpen (TList et x TlInitial :: r)) body (tdeliver_st r (TVL fin)).
Proof.
  intros e q et HV. induction 1; intros r Hr.
  - eapply truns_ok; [|apply truns_nil]. simpl. apply (tdeliver_pos r (TyL et)); auto.
  - eapply truns_ok; [reflexivity|].
    eapply truns_app; [apply (HV v s H (TList et x TlMidValue :: r)); reflexivity|].
    apply IHListBodyT; auto.
Qed.

Lemma node_call : forall e q stk ty tries n v,
  tpos stk ty -> Forall (PosTry ty) tries -> node_tval ty n = Some v -> node_takes e q ty n v ->
  truns e q (TOpen stk) (tries ++ [tok (AssignNode n)]) (tdeliver_st stk v).
Proof.
  intros e q stk ty tries n v Hp Ht Hn Hk. eapply truns_app; [apply (pos_tries e q ty); auto|].
  eapply truns_ok; [|apply truns_nil].
  rewrite (tstep_pos e q stk ty), <- (tdeliver_pos stk ty) by auto. unfold pos_op. rewrite Hn.
  destruct ty, e; auto. destruct Hk as [H|[H|H]].
  - rewrite H. reflexivity.
  - subst v. simpl. rewrite Bool.andb_false_r. reflexivity.
  - rewrite H. simpl. rewrite Bool.andb_false_r. reflexivity.
Qed.

Lemma begin_call : forall e q stk ty tries o f body s',
  tpos stk ty -> Forall (PosTry ty) tries -> is_map_op o = false ->
  pos_op e q ty stk (TOpen stk) o = TOk (TOpen (f :: stk)) ->
  truns e q (TOpen (f :: stk)) body s' ->
  truns e q (TOpen stk) (tries ++ tok o :: body) s'.
Proof.
  intros e q stk ty tries o f body s' Hp Ht Ho Hs Hb. eapply truns_app; [apply (pos_tries e q ty); auto|].
  eapply truns_ok; [|exact Hb]. rewrite (tstep_pos e q stk ty); auto.
Qed.

Theorem tscript_run : forall e q, tq_ok e q -> forall ty, VPT e q ty.
Proof.
  intros e q Hq. induction ty; intros v aops HS stk Hp; simpl in HS; inversion HS; subst.
  - apply (begin_call e q stk TyS tries (BeginMap h) (TStruct [] [] TsInitial)); auto.
    apply struct_body; auto.
  - apply (node_call e q stk TyS); auto; simpl; [rewrite H0; reflexivity|exact I].
  - apply (begin_call e q stk (TyM ty) tries (BeginMap h) (TMap ty [] TmInitial)); auto.
    apply (map_body_t e q ty Hq IHty); auto.
  - apply (node_call e q stk (TyM ty)); auto.
  - apply (begin_call e q stk (TyL ty) tries (BeginList h) (TList ty [] TlInitial)); auto.
    apply (list_body_t e q ty IHty); auto.
  - apply (node_call e q stk (TyL ty)); auto. exact I.
Qed.
