(* Proofs/LinkC05.v — C05: Store and ComputeLink agree after every history; the link is a function
   of prototype and value (and of the value up to map order for key-sorting codecs); every stored
   block sits under a link it hashes to; loading a stored link gives back the canonical value and
   the stored bytes. *)
Require Import IP.Base.Bytes IP.DM.Value IP.Codec.Cbor IP.Link.LinkSys IP.Link.LinkSpec.
Require Import IP.Proofs.BytesFacts IP.Proofs.LinkBase.
(* for the toy instance of the witnesses at the end *)
Require Import IP.Proofs.LinkC06.
From Coq Require Import ZifyN ZifyNat ZifyBool.
Open Scope N_scope.

Section C05.
  Variable hasher_ok : N -> bool.
  Variable hash : N -> bytes -> bytes.
  Variable encoders : N -> option codec.
  Variable decoders : N -> option codec.

  Notation verify := (verify hash).
  Notation load_any := (load_any hasher_ok hash decoders).
  Notation store := (store hasher_ok hash encoders).
  Notation compute := (compute hasher_ok hash encoders).
  (* histories run on Store with its write-error latch (/repo fix 4c486a6); only the steps through
     a faulty writer, OStoreW, depend on it *)
  Notation step := (step hasher_ok hash encoders decoders true).
  Notation run := (run hasher_ok hash encoders decoders true).
  Notation store_plan := (store_plan hasher_ok hash encoders).
  Notation blocks_ok := (blocks_ok hash).
  Notation no_collision := (no_collision hasher_ok hash encoders).

  Lemma store_plan_inv lp v l b :
    store_plan lp v = Some (l, b) ->
    exists c chunks, encoders (lp_codec lp) = Some c /\ hasher_ok (lp_mhtype lp) = true /\
      c_enc c v = Some chunks /\ b = concat chunks /\
      build_link lp (hash (lp_mhtype lp) b) = Some l.
  Proof.
    unfold LinkSpec.store_plan.
    destruct (encoders _) as [c|]; [|discriminate].
    destruct (hasher_ok _); [|discriminate]. cbn [negb].
    destruct (c_enc c v) as [chunks|] eqn:En; [|discriminate].
    destruct (build_link _ _) as [l0|] eqn:B; [|discriminate].
    intros E; inversion E; subst. exists c, chunks. auto 6.
  Qed.

  Lemma store_honest latch sk st lp v :
    store latch sk honest_w st lp v =
    (compute lp v,
     match store_plan lp v with Some (l, b) => put sk st (skey sk l) b | None => st end).
  Proof.
    unfold LinkSys.store, LinkSpec.store_plan, LinkSys.compute. cbn [honest_w w_open_err w_cap w_sched w_commit_err].
    destruct (encoders _) as [c|]; [|reflexivity].
    destruct (negb (hasher_ok _)); [reflexivity|].
    destruct (c_enc c v) as [chunks|]; [|reflexivity].
    rewrite write_all_honest, andb_false_r. cbn [orb].
    destruct (build_link _ _); reflexivity.
  Qed.

  Theorem store_eq_compute latch sk st lp v : fst (store latch sk honest_w st lp v) = compute lp v.
  Proof. now rewrite store_honest. Qed.

  (* C05_link_fn_perm *)
  Theorem link_fn_perm (same : dm -> dm -> Prop) lp c dom v1 v2 :
    encoders (lp_codec lp) = Some c -> order_insensitive same c dom ->
    dom v1 -> dom v2 -> same v1 v2 -> compute lp v1 = compute lp v2.
  Proof.
    intros C O D1 D2 P. unfold LinkSys.compute. rewrite C. now rewrite (O v1 v2 D1 D2 P).
  Qed.

  Lemma run_state sk tr st h :
    snd (run sk tr st h) = fold_left (fun s op => snd (step sk tr s op)) h st.
  Proof.
    revert st; induction h as [|op r IH]; intros st; cbn [LinkSys.run fold_left]; [reflexivity|].
    destruct (step sk tr st op) as [o st1]. cbn [snd]. rewrite <- IH. now destruct (run sk tr st1 r).
  Qed.

  Lemma run_app sk tr st h1 h2 :
    snd (run sk tr st (h1 ++ h2)) = snd (run sk tr (snd (run sk tr st h1)) h2).
  Proof. rewrite !run_state. apply fold_left_app. Qed.

  Lemma run_cons sk tr st op r :
    snd (run sk tr st (op :: r)) = snd (run sk tr (snd (step sk tr st op)) r).
  Proof. now rewrite !run_state. Qed.

  Lemma storeW_cases sk w st lp v :
    so_status (fst (store true sk w st lp v)) <> SOk /\ snd (store true sk w st lp v) = st \/
    store true sk w st lp v = store true sk honest_w st lp v.
  Proof.
    destruct (store true sk w st lp v) as [s st'] eqn:S. cbn [fst snd].
    destruct (store_inv _ _ _ _ _ _ _ _ _ _ _ S)
      as [(N & _ & ->)|(c & chunks & wr & hs & la & l & C & H & E & W & L & B & -> & ->)]; [auto|].
    destruct (w_commit_err w); [left; split; [discriminate|reflexivity]|]. right.
    destruct (write_all_clean true _ _ _ _ _ _ _ _ _ eq_refl W L) as [-> ->].
    rewrite store_honest. unfold LinkSys.compute, LinkSpec.store_plan. now rewrite C, H, E, B.
  Qed.

  Lemma step_state_cases sk tr st op :
    snd (step sk tr st op) = st \/
    exists lp v l b,
      (op = OStore lp v \/ exists w, op = OStoreW w lp v) /\ store_plan lp v = Some (l, b) /\
      snd (step sk tr st op) = put sk st (skey sk l) b.
  Proof.
    destruct op as [lp v|w lp v|lp v|f l]; try (left; reflexivity); cbn [LinkSys.step].
    2: destruct (storeW_cases sk w st lp v) as [[_ E]|E];
         [left; destruct (store true sk w st lp v); exact E|rewrite E].
    all: rewrite store_honest; cbn [snd]; destruct (store_plan lp v) as [[l b]|] eqn:P; [|auto];
      right; exists lp, v, l, b; eauto 6.
  Qed.

  Lemma store_plan_verifies lp v l b : store_plan lp v = Some (l, b) -> verify l b = VOk.
  Proof.
    intros P. destruct (store_plan_inv _ _ _ _ P) as (_ & _ & _ & _ & _ & _ & B).
    eapply verify_built; eauto.
  Qed.

  (* C05_blocks_ok, from any storage that satisfies the invariant *)
  Theorem blocks_ok_run sk tr h st : blocks_ok sk st -> blocks_ok sk (snd (run sk tr st h)).
  Proof.
    revert st; induction h as [|op r IH]; intros st I; [exact I|].
    rewrite run_cons. apply IH.
    destruct (step_state_cases sk tr st op) as [E|(lp & v & l & b & _ & P & E)]; rewrite E; auto.
    intros k x L. apply lookup_put_cases in L as [[-> ->]|L]; [|auto].
    exists l. split; [reflexivity|]. eapply store_plan_verifies; eauto.
  Qed.

  Lemma run_keeps (I : option bytes -> Prop) sk tr k b h :
    I (Some b) -> no_collision sk k b h ->
    forall st, I (lookup st k) -> I (lookup (snd (run sk tr st h)) k).
  Proof.
    intros Ib NC. induction NC as [|op r Hop _ IH]; intros st Hi; [exact Hi|].
    rewrite run_cons. apply IH.
    destruct (step_state_cases sk tr st op) as [E0|(lp & v & l' & b' & Hop' & P & E0)]; rewrite E0; auto.
    assert (Hb : skey sk l' = k -> b' = b).
    { destruct Hop' as [-> |[w ->]]; cbn in Hop; rewrite P in Hop; exact Hop. }
    destruct (bytes_eqb_spec k (skey sk l')) as [->|Ne].
    - rewrite lookup_put_same, (Hb eq_refl).
      destruct (lookup st (skey sk l')); [destruct (sk_overwrite sk)|]; auto.
    - rewrite lookup_put_other; auto.
  Qed.

  Lemma stored_block_present sk tr h1 h2 lp v l b :
    store_plan lp v = Some (l, b) ->
    no_collision sk (skey sk l) b (h1 ++ OStore lp v :: h2) ->
    lookup (snd (run sk tr [] (h1 ++ OStore lp v :: h2))) (skey sk l) = Some b.
  Proof.
    intros P NC. apply Forall_app in NC as [NC1 NC2]. inversion NC2 as [|? ? _ NC3]; subst.
    rewrite run_app, run_cons. apply (run_keeps (fun o => o = Some b) sk tr _ b); auto.
    cbn [LinkSys.step]. rewrite store_honest, P. cbn [snd]. rewrite lookup_put_same.
    (* before the store the key holds nothing, or b already *)
    destruct (run_keeps (fun o => o = None \/ o = Some b) sk tr _ b h1 (or_intror eq_refl) NC1 []
                (or_introl eq_refl)) as [-> | ->]; auto.
    destruct (sk_overwrite sk); auto.
  Qed.

  Lemma load_present sk tr st f l b cl v' e :
    lookup st (skey sk l) = Some b -> verify l b = VOk ->
    hasher_ok (lp_mhtype (link_proto l)) = true ->
    decoders (lp_codec (link_proto l)) = Some cl -> c_dec cl b = Some (v', lenN b, e) ->
    load_any f tr (honest_read sk st l) l = loaded f v' b.
  Proof.
    intros L V H C D. unfold honest_read. rewrite L.
    assert (R : load_raw hasher_ok hash (RStream [b] TEof) l =
                {| lo_status := SOk; lo_node := None; lo_raw := Some b |}).
    { unfold LinkSys.load_raw. rewrite H. cbn [negb concat]. rewrite app_nil_r, V. reflexivity. }
    assert (F : fill hasher_ok hash decoders tr (RStream [b] TEof) l =
                {| lo_status := SOk; lo_node := Some v'; lo_raw := None |}).
    { unfold LinkSys.fill. rewrite C, H. cbn [negb concat]. rewrite app_nil_r.
      unfold stream_dec. rewrite D. destruct tr; [reflexivity|].
      now rewrite prefixN_all, V. }
    destruct f; cbn [LinkSys.load_any loaded]; auto.
    unfold LinkSys.load_plus_raw. rewrite C, R. cbn [lo_status lo_raw]. now rewrite D.
  Qed.

  (* C05_store_load *)
  Theorem store_load sk tr h1 h2 lp v l b f cl v' e :
    store_plan lp v = Some (l, b) ->
    no_collision sk (skey sk l) b (h1 ++ OStore lp v :: h2) ->
    decoders (lp_codec (link_proto l)) = Some cl -> c_dec cl b = Some (v', lenN b, e) ->
    let st := snd (run sk tr [] (h1 ++ OStore lp v :: h2)) in
    load_any f tr (honest_read sk st l) l = loaded f v' b /\ verify l b = VOk.
  Proof.
    intros P NC C D st. pose proof (store_plan_verifies _ _ _ _ P) as V. split; [|exact V].
    eapply load_present; eauto.
    - subst st. apply stored_block_present; auto.
    - destruct (store_plan_inv _ _ _ _ P) as (_ & _ & _ & H & _ & _ & B).
      now rewrite (build_link_mhtype _ _ _ B).
  Qed.

  Theorem store_load_roundtrip sk tr h1 h2 lp v l b f c dom canon :
    lp_version lp = 1 ->
    encoders (lp_codec lp) = Some c -> decoders (lp_codec lp) = Some c ->
    roundtrips c dom canon -> dom v ->
    store_plan lp v = Some (l, b) ->
    no_collision sk (skey sk l) b (h1 ++ OStore lp v :: h2) ->
    let st := snd (run sk tr [] (h1 ++ OStore lp v :: h2)) in
    load_any f tr (honest_read sk st l) l = loaded f (canon v) b /\ verify l b = VOk.
  Proof.
    intros V1 C Cd RT Dv P NC.
    destruct (store_plan_inv _ _ _ _ P) as (c' & chunks & C' & _ & E & -> & B).
    rewrite C in C'. inversion C'; subst c'.
    apply (store_load sk tr h1 h2 lp v l (concat chunks) f c (canon v) true); auto.
    (* a CIDv1 carries the prototype's codec *)
    destruct (build_link_inv _ _ _ B) as (dg & s & _ & [(V0 & _)|(_ & _ & ->)]); [congruence|exact Cd].
  Qed.
End C05.

Example store_load_hyp_sat :
  exists l b,
    store_plan toy_ok toy_hash toy_registry toy_lp (DBytes [5; 6]) = Some (l, b) /\
    no_collision toy_ok toy_hash toy_registry memstore_kind (skey memstore_kind l) b
      ([OCompute toy_lp DNull] ++ OStore toy_lp (DBytes [5; 6]) :: [OStore toy_lp (DBytes [1])]) /\
    toy_registry (lp_codec (link_proto l)) = Some raw_codec /\
    c_dec raw_codec b = Some (DBytes [5; 6], lenN b, true).
Proof.
  eexists. eexists. split; [vm_compute; reflexivity|]. split; [|split; vm_compute; reflexivity].
  repeat constructor; vm_compute; intros H; try reflexivity; discriminate.
Qed.

(* two stores whose (here: one-byte-of-content) digests coincide do collide: the hypothesis
   [no_collision] is not vacuous and cannot be dropped — the second value is what cidlink.Memory keeps (memstore would keep the first) *)
Example collision_possible :
  let h := [OStore toy_lp (DBytes [5; 6]); OStore toy_lp (DBytes [5; 7]); OLoad FLoadRaw
            {| l_v0 := false; l_codec := 85; l_mhtype := 18; l_digest := [2; 5] |}] in
  fst (run toy_ok toy_hash toy_registry toy_registry true cidmem_kind false [] h) =
  [OutS {| so_status := SOk; so_link := Some {| l_v0 := false; l_codec := 85; l_mhtype := 18; l_digest := [2; 5] |} |};
   OutS {| so_status := SOk; so_link := Some {| l_v0 := false; l_codec := 85; l_mhtype := 18; l_digest := [2; 5] |} |};
   OutL {| lo_status := SOk; lo_node := None; lo_raw := Some [5; 7] |}].
Proof. vm_compute. reflexivity. Qed.
