(* C07: the pinned code does not meet the specification.  Definitions for the refutations, whose theorems are
   C07_refuted_* in Props/C07.v: the encoders d_* of selector declarations (also used by TravTotal.v, TravCurrent.v and
   Props/C10.v), one witness per deviation, w1-w4 (a selector declaration and a tree; the fifth, w5, for the empty
   union the current tree drops, is at the end of TravCurrent.v), and for each a setting of the switches under which
   the model meets the specification on it: that deviation's switch alone for the first three; for the shared depth
   counter [fix_depth], which clears q_exhausted_unwrap as well (with q_shared_depth alone cleared the model still
   differs on w4).  [differs] and [meets] compare the walks over the empty graph with fuel 20, which is enough for
   every witness here (none contains a link, none is deeper than 8). *)
Require Import IP.Base.Bytes IP.DM.Value IP.Base.GoSem IP.Trav.Selector IP.Trav.Walk IP.Trav.SelectorSpec.
Open Scope Z_scope.

(* the data-model encoding that CompileSelector parses *)
Definition d_match : dm := DMap [(k_matcher, DMap [])].
Definition d_all (x : dm) : dm := DMap [(k_all, DMap [(k_next, x)])].
Definition d_edge : dm := DMap [(k_edge, DMap [])].
Definition d_index (i : Z) (x : dm) : dm := DMap [(k_index, DMap [(k_index, DInt i); (k_next, x)])].
Definition d_range (a b : Z) (x : dm) : dm := DMap [(k_range, DMap [(k_start, DInt a); (k_end, DInt b); (k_next, x)])].
Definition d_union (l : list dm) : dm := DMap [(k_union, DList l)].
Definition d_fields (l : list (bytes * dm)) : dm := DMap [(k_fields, DMap [(k_fieldsmap, DMap l)])].
Definition d_rec_depth (d : Z) (x : dm) : dm := DMap [(k_rec, DMap [(k_limit, DMap [(k_depth, DInt d)]); (k_seq, x)])].
Definition d_rec_none (x : dm) : dm := DMap [(k_rec, DMap [(k_limit, DMap [(k_none, DMap [])]); (k_seq, x)])].

Definition differs (q : quirks) (v root : dm) : Prop :=
  exists s, compile v = COk s /\ walk_adv q [] 20 root s <> denote_sel [] 20 root s.
Definition meets (q : quirks) (v root : dm) : Prop :=
  exists s, compile v = COk s /\ walk_adv q [] 20 root s = denote_sel [] 20 root s.

Definition fix_union_dup : quirks :=
  {| q_union_dup := false; q_bare_edge_panic := true; q_exhausted_unwrap := true; q_shared_depth := true |}.
Definition fix_bare_edge : quirks :=
  {| q_union_dup := true; q_bare_edge_panic := false; q_exhausted_unwrap := true; q_shared_depth := true |}.
Definition fix_unwrap : quirks :=
  {| q_union_dup := true; q_bare_edge_panic := true; q_exhausted_unwrap := false; q_shared_depth := true |}.
Definition fix_depth : quirks :=
  {| q_union_dup := true; q_bare_edge_panic := true; q_exhausted_unwrap := false; q_shared_depth := false |}.

Ltac by_compute := eexists; split; [vm_compute; reflexivity|vm_compute; try reflexivity; try discriminate].

(* 1. a union whose members name the same child explicitly walks that child once per occurrence:
      |[ i1>. , r[0,3)>. ] over [10,11,12] visits index 1 twice *)
Definition w1_sel : dm := d_union [d_index 1 d_match; d_range 0 3 d_match].
Definition w1_root : dm := DList [DInt 10; DInt 11; DInt 12].
Lemma refuted_union_dup_count :
  exists s, compile w1_sel = COk s /\
            length (fst (walk_adv pinned [] 20 w1_root s)) = 5%nat /\
            length (fst (denote_sel [] 20 w1_root s)) = 4%nat.
Proof. eexists; split; [vm_compute; reflexivity|split; vm_compute; reflexivity]. Qed.

(* 2. an edge that is a direct member of the union forming a recursion's sequence gets Explore'd: panic
      R(none, |[ @, a>@ ]) over [[1],[2]] *)
Definition w2_sel : dm := d_rec_none (d_union [d_edge; d_all d_edge]).
Definition w2_root : dm := DList [DList [DInt 1]; DList [DInt 2]].
(* 3. at depth exhaustion the recursion wrapper is dropped, a nested edge later appears bare and its node is
      visited as a candidate: R(depth 1, a>|[ @, f{a:@} ]) over {x:{a:{a:1}}} visits x/a; the specification
      (and R(depth 1, a>@)) stops at x *)
Definition w3_sel : dm := d_rec_depth 1 (d_all (d_union [d_edge; d_fields [([97%N], d_edge)]])).
Definition w3_root : dm := DMap [([120%N], DMap [([97%N], DMap [([97%N], DInt 1)])])].
(* 4. one depth counter for all members of the current selector: adding the alternative a>@ to a>a>@ makes the
      latter reach less deep: R(depth 3, |[ a>@, a>a>@ ]) over a chain of 7 nested lists stops at level 4 although
      R(depth 3, a>a>@) alone reaches level 5 *)
Definition w4_sel : dm := d_rec_depth 3 (d_union [d_all d_edge; d_all (d_all d_edge)]).
Definition w4_alone : dm := d_rec_depth 3 (d_all (d_all d_edge)).
Definition w4_root : dm := DList [DList [DList [DList [DList [DList [DList [DInt 1]]]]]]].
