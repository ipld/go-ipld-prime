(* Proofs/JsonInt.v — decimal integers: strconv.AppendInt / ParseInt round trip for every int64; the number scanner
   takes a JSON number (json_number) whole when a delimiter follows, and AppendInt writes JSON numbers. *)
Require Import IP.Base.Bytes IP.Codec.Utf8 IP.Codec.Base64 IP.Codec.DagJson IP.Proofs.Decimal.
From Coq Require Import ZifyN ZifyNat ZifyBool.
Open Scope N_scope.

(* Decimal.digit under the name the C04 statements use: the two convert, so digits10_spec's Forall serves as it is *)
Definition digit_c (c : N) : Prop := 48 <= c <= 57.

Lemma is_digit_iff c : is_digit c = true <-> digit_c c.
Proof. unfold is_digit, digit_c. lia. Qed.

Lemma dval_ge ds : forall acc, acc <= dval ds acc.
Proof. induction ds as [|d r IH]; intros acc; cbn [dval]; [lia|]. specialize (IH (acc * 10 + (d - 48))). lia. Qed.

Lemma digits_scan_dval ds : Forall digit_c ds -> forall acc, dval ds acc < two64 -> digits_scan ds acc = PVal (dval ds acc).
Proof.
  induction 1 as [|d r Hd _ IH]; intros acc H; cbn [digits_scan dval] in *; [reflexivity|].
  replace (is_digit d) with true by (symmetry; now apply is_digit_iff).
  pose proof (dval_ge r (acc * 10 + (d - 48))).
  destruct (N.leb_spec two64 (acc * 10 + (d - 48))); [lia|now apply IH].
Qed.

Lemma print_nat_fuel n : n < 10 ^ N.of_nat (S (N.to_nat (N.log2 n))).
Proof.
  rewrite Nat2N.inj_succ, N2Nat.id. apply N.lt_le_trans with (2 ^ N.succ (N.log2 n)); [|apply N.pow_le_mono_l; lia].
  destruct (N.eq_dec n 0) as [->|NZ]; [cbn; lia|].
  apply N.log2_spec. lia.
Qed.

Lemma print_nat_shape n :
  exists d D, print_nat n = (48 + d) :: D /\ d < 10 /\ Forall digit_c D /\ (1 <= n -> 1 <= d) /\ (n = 0 -> D = []) /\
              dval (print_nat n) 0 = n.
Proof.
  destruct (digits10_spec _ n [] (print_nat_fuel n)) as (d & D & E & Hd & HD & H1 & H0 & V).
  exists d, D. unfold print_nat. change ndigits with digits10. rewrite E, app_nil_r. repeat split; auto. intros ->. apply H0. lia.
Qed.

Lemma print_nat_value n : n < two64 -> digits_scan (print_nat n) 0 = PVal n.
Proof.
  intros H. destruct (print_nat_shape n) as (d & D & E & Hd & HD & _ & _ & V).
  rewrite digits_scan_dval, V; [reflexivity|rewrite E; constructor; [unfold digit_c; lia|assumption]|now rewrite V].
Qed.

(* the integer part of C04 *)
Theorem int_roundtrip z : in_int64 z = true -> parse_int (print_int z) = PIVal z.
Proof.
  unfold in_int64, two63z. intros H. unfold print_int.
  destruct (Z.ltb_spec z 0) as [Neg|Pos].
  - unfold parse_int. change (45 =? 45) with true. cbv iota.
    destruct (print_nat_shape (Z.to_N (- z))) as (d & D & E & _).
    rewrite print_nat_value by (unfold two64; lia). rewrite E.
    destruct (N.ltb_spec two63 (Z.to_N (- z))); [unfold two63 in *; lia|]. f_equal. lia.
  - unfold parse_int. destruct (print_nat_shape (Z.to_N z)) as (d & D & E & Hd & _).
    rewrite print_nat_value by (unfold two64; lia). rewrite E.
    destruct (N.eqb_spec (48 + d) 45); [lia|].
    destruct (N.leb_spec two63 (Z.to_N z)); [unfold two63 in *; lia|]. f_equal. lia.
Qed.

Definition delim_ok (rest : bytes) : Prop :=
  match rest with [] => True | c :: _ => c = 44 \/ c = 93 \/ c = 125 end.

Lemma num_step_delim st c : c = 44 \/ c = 93 \/ c = 125 -> num_step st c = None.
Proof. intros [H|[H|H]]; subst c; destruct st; reflexivity. Qed.

Lemma num_scan_run t : forall st st' rest, num_run st t = Some st' -> delim_ok rest ->
  num_scan st (t ++ rest) = (t, rest).
Proof.
  induction t as [|c t IH]; intros st st' rest R Dl.
  - cbn [app]. destruct rest as [|c r]; [reflexivity|]. cbn [num_scan]. now rewrite num_step_delim.
  - cbn [num_run] in R. cbn [app num_scan]. destruct (num_step st c) as [st1|]; [|discriminate].
    now rewrite (IH _ _ _ R Dl).
Qed.

Lemma num_run_digits st D : st = SInt \/ st = SFrac -> Forall digit_c D -> num_run st D = Some st.
Proof.
  intros Hst. induction 1 as [|c D Hc _ IH]; [reflexivity|]. cbn [num_run]. apply is_digit_iff in Hc.
  destruct Hst; subst st; cbn [num_step]; now rewrite Hc.
Qed.

(* all the tokenizer proof (JsonTok.num_ok) needs to know of a number's text *)
Lemma json_number_scan t : json_number t = true -> exists mb r,
  t = mb :: r /\ (mb = 45 \/ digit_c mb) /\
  forall rest, delim_ok rest -> num_scan (num_start mb) (r ++ rest) = (r, rest).
Proof.
  destruct t as [|c r]; [discriminate|]. cbn [json_number]. intros J. apply andb_true_iff in J. destruct J as [Jc Jr].
  destruct (num_run (num_start c) r) as [st|] eqn:R; [|discriminate].
  exists c, r. split; [reflexivity|]. split; [|intros rest; now apply (num_scan_run r _ st)].
  apply orb_true_iff in Jc. destruct Jc as [Jc|Jc]; [left; now apply N.eqb_eq|right; now apply is_digit_iff].
Qed.

Lemma print_nat_number n : json_number (print_nat n) = true.
Proof.
  destruct (print_nat_shape n) as (d & D & E & Hd & HD & H1 & H0 & _). rewrite E. unfold json_number, num_start.
  replace (is_digit (48 + d)) with true by (symmetry; apply is_digit_iff; unfold digit_c; lia). rewrite orb_true_r.
  destruct (N.eqb_spec (48 + d) 45); [lia|].
  destruct (N.eqb_spec (48 + d) 48).
  - rewrite H0; [reflexivity|]. destruct (N.eq_dec n 0); [assumption|lia].
  - now rewrite (num_run_digits SInt D (or_introl eq_refl) HD).
Qed.

Lemma print_int_number z : json_number (print_int z) = true.
Proof.
  unfold print_int. destruct (Z.ltb_spec z 0) as [Neg|Pos]; [|apply print_nat_number].
  destruct (print_nat_shape (Z.to_N (- z))) as (d & D & E & Hd & HD & H1 & _). rewrite E.
  cbn [json_number N.eqb Pos.eqb orb andb]. change (num_start 45) with SNeg. cbn [num_run num_step].
  assert (1 <= d) by (apply H1; lia).
  destruct (N.eqb_spec (48 + d) 48); [lia|].
  replace (is_digit (48 + d)) with true by (symmetry; apply is_digit_iff; unfold digit_c; lia).
  now rewrite (num_run_digits SInt D (or_introl eq_refl) HD).
Qed.
