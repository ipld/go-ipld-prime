(* Proofs/JsonString.v — refmt emitString / decodeString round trip:
   for every valid UTF-8 string s, scanning and parsing the emitted text gives s back.
   emitString writes s piece by piece (a plain byte, an escape, a copied multi-byte sequence); each piece
   is a [chunk]: strscan passes over it in its normal state and parseString turns it into the bytes it
   stands for. *)
Require Import IP.Base.Bytes IP.Codec.Utf8 IP.Codec.Base64 IP.Codec.DagJson IP.Proofs.JsonUtf8.
From Coq Require Import ZifyN ZifyNat ZifyBool.
Open Scope N_scope.

Lemma hexd_ok v : v < 16 -> is_hex (hexd v) = true /\ hex_val (hexd v) = v.
Proof.
  intros H. unfold hexd, is_hex, hex_val.
  destruct (N.ltb_spec v 10); (split; [lia|]).
  - replace (48 + v <=? 57) with true by lia. lia.
  - replace (87 + v <=? 57) with false by lia. replace (87 + v <=? 70) with false by lia. lia.
Qed.

Definition prepend (u : bytes) (o : option (bytes * bytes)) : option (bytes * bytes) :=
  match o with Some (raw, rest) => Some (u ++ raw, rest) | None => None end.

Lemma prepend_app u w o : prepend (u ++ w) o = prepend u (prepend w o).
Proof. destruct o as [[a b]|]; cbn; [now rewrite app_assoc|reflexivity]. Qed.

Lemma prepend_nil o : prepend [] o = o.
Proof. destruct o as [[a b]|]; reflexivity. Qed.

Definition chunk (u d : bytes) : Prop :=
  (forall X, str_scan SNormal (u ++ X) = prepend u (str_scan SNormal X)) /\
  (forall f Y, parse_str (S f) (u ++ Y) = ocons d (parse_str f Y)) /\ (1 <= length u)%nat.

Definition unescaped (b : N) : Prop := 32 <= b /\ b <> 34 /\ b <> 92.

Lemma scan_plain u X : Forall unescaped u ->
  str_scan SNormal (u ++ X) = prepend u (str_scan SNormal X).
Proof.
  induction 1 as [|b u [H1 [H2 H3]] _ IH]; cbn [app]; [now rewrite prepend_nil|].
  cbn [str_scan]. replace (b =? 34) with false by lia. replace (b =? 92) with false by lia.
  replace (b <? 32) with false by lia. rewrite IH.
  destruct (str_scan SNormal X) as [[a c]|]; reflexivity.
Qed.

Lemma chunk_plain b : 32 <= b < 128 -> b <> 34 -> b <> 92 -> chunk [b] [b].
Proof.
  intros H H34 H92. split; [|split; [|cbn; lia]].
  - intros X. apply scan_plain. repeat constructor; lia.
  - intros f Y. cbn [app parse_str]. replace (b =? 92) with false by lia. replace (b =? 34) with false by lia.
    replace (b <? 32) with false by lia. now replace (b <? 128) with true by lia.
Qed.

Lemma chunk_esc e d : In (e, d) [(34, 34); (92, 92); (110, 10); (114, 13); (116, 9)] -> chunk [92; e] [d].
Proof.
  intros H. cbn [In] in H.
  repeat (destruct H as [H|H];
          [injection H as <- <-; split;
           [intros X; cbn; destruct (str_scan SNormal X) as [[a c]|]; reflexivity|split; [reflexivity|cbn; lia]]|]).
  destruct H.
Qed.

Lemma chunk_escu a b c d :
  is_hex a = true -> is_hex b = true -> is_hex c = true -> is_hex d = true ->
  let rr := hex_val a * 4096 + hex_val b * 256 + hex_val c * 16 + hex_val d in
  is_surrogate rr = false -> chunk [92; 117; a; b; c; d] (utf8_encode rr).
Proof.
  intros Ha Hb Hc Hd rr Hs. split; [|split; [|cbn; lia]].
  - intros X. cbn [app str_scan]. rewrite Ha, Hb, Hc, Hd. cbn.
    destruct (str_scan SNormal X) as [[x y]|]; reflexivity.
  - intros f Y. cbn [app parse_str]. cbn [N.eqb Pos.eqb orb]. unfold getu4. rewrite Ha, Hb, Hc, Hd.
    cbn [N.eqb Pos.eqb andb skipn]. fold rr. now rewrite Hs.
Qed.

Lemma chunk_ascii b : b < 128 -> chunk (esc_ascii b) [b].
Proof.
  intros Hb. unfold esc_ascii.
  destruct ((32 <=? b) && negb (b =? 92) && negb (b =? 34)) eqn:P; [apply chunk_plain; lia|].
  destruct ((b =? 92) || (b =? 34)) eqn:Q.
  { apply chunk_esc. assert (H : b = 92 \/ b = 34) by lia. destruct H; subst b; cbn; auto. }
  destruct (N.eqb_spec b 10) as [->|]; [apply (chunk_esc 110); cbn; auto 6|].
  destruct (N.eqb_spec b 13) as [->|]; [apply (chunk_esc 114); cbn; auto 6|].
  destruct (N.eqb_spec b 9) as [->|]; [apply (chunk_esc 116); cbn; auto 6|].
  assert (b < 32) by lia.
  destruct (hexd_ok (b / 16)) as [H1 V1]; [lia|]. destruct (hexd_ok (b mod 16)) as [H2 V2]; [lia|].
  pose proof (chunk_escu 48 48 _ _ eq_refl eq_refl H1 H2) as C. cbv zeta in C. rewrite V1, V2 in C.
  replace (hex_val 48 * 4096 + hex_val 48 * 256 + b / 16 * 16 + b mod 16) with b in C by (cbn; lia).
  rewrite utf8_encode_1 in C by assumption. apply C. unfold is_surrogate. lia.
Qed.

Lemma skipn_firstn_app {A} n (l Y : list A) : (n <= length l)%nat -> skipn n (firstn n l ++ Y) = Y.
Proof.
  intros H. rewrite skipn_app, firstn_length_le, Nat.sub_diag by assumption.
  now rewrite skipn_all2 by (rewrite firstn_length; lia).
Qed.

Lemma chunk_multi b0 r c sz : utf8_decode (b0 :: r) = (c, sz) -> (c =? rune_error) && Nat.eqb sz 1 = false -> 128 <= b0 ->
  chunk (firstn sz (b0 :: r)) (firstn sz (b0 :: r)).
Proof.
  intros D E Hb. destruct (utf8_decode_ok _ _ _ _ D E Hb) as (En & Hsz & Hp & Hhi).
  split; [|split; [|rewrite firstn_length; cbn [length]; lia]].
  - intros X. apply scan_plain. eapply Forall_impl; [|exact Hhi]. intros a Ha. cbv beta in Ha. unfold unescaped. lia.
  - intros f Y. specialize (Hp Y). rewrite <- (skipn_firstn_app sz (b0 :: r) Y) at 2 by (cbn [length]; lia).
    destruct sz as [|sz]; [lia|]. cbn [firstn app] in *. cbn [parse_str].
    replace (b0 =? 92) with false by lia. replace (b0 =? 34) with false by lia.
    replace (b0 <? 32) with false by lia. replace (b0 <? 128) with false by lia. cbn [orb].
    now rewrite Hp, En.
Qed.

Lemma chunk_2028 c : c = 8232 \/ c = 8233 -> chunk [92; 117; 50; 48; 50; hexd (c mod 16)] (utf8_encode c).
Proof.
  intros [->| ->];
    [exact (chunk_escu 50 48 50 56 eq_refl eq_refl eq_refl eq_refl eq_refl)
    |exact (chunk_escu 50 48 50 57 eq_refl eq_refl eq_refl eq_refl eq_refl)].
Qed.

Definition emits (E s : bytes) : Prop :=
  (forall X, str_scan SNormal (E ++ X) = prepend E (str_scan SNormal X)) /\
  (forall f, (length E <= f)%nat -> parse_str f E = Some s).

Lemma emits_nil : emits [] [].
Proof. split; [intros X; now rewrite prepend_nil|intros [|f] _; reflexivity]. Qed.

Lemma emits_app u d E s : chunk u d -> emits E s -> emits (u ++ E) (d ++ s).
Proof.
  intros (Cs & Cp & Cl) (Es & Ep). split.
  - intros X. now rewrite <- app_assoc, Cs, Es, prepend_app.
  - intros f L. rewrite app_length in L. destruct f as [|f]; [lia|]. now rewrite Cp, Ep by lia.
Qed.

Lemma emit_emits f : forall s, (length s <= f)%nat -> utf8_valid_fuel f s = true -> emits (emit_body f s) s.
Proof.
  induction f as [|f IH]; intros s L V.
  { destruct s; [apply emits_nil|cbn in L; lia]. }
  destruct s as [|b r]; [apply emits_nil|].
  cbn [utf8_valid_fuel] in V. cbn [emit_body].
  destruct (utf8_decode (b :: r)) as [c sz] eqn:D.
  destruct ((c =? rune_error) && Nat.eqb sz 1) eqn:E; [discriminate|].
  destruct (N.ltb_spec b 128) as [Hb|Hb].
  - rewrite utf8_decode_ascii in D by assumption. injection D as <- <-.
    apply (emits_app _ [b]); [now apply chunk_ascii|].
    apply IH; [cbn [length] in L; lia|exact V].
  - destruct (utf8_decode_ok _ _ _ _ D E Hb) as (En & Hsz & _).
    assert (IHr : emits (emit_body f (skipn sz (b :: r))) (skipn sz (b :: r)))
      by (apply IH; [rewrite skipn_length; cbn [length] in *; lia|exact V]).
    assert (Es : forall T, emits T (firstn sz (b :: r) ++ skipn sz (b :: r)) -> emits T (b :: r))
      by (now rewrite firstn_skipn).
    destruct ((c =? 8232) || (c =? 8233)) eqn:U; apply Es, emits_app; try exact IHr.
    + rewrite <- En. apply chunk_2028. lia.
    + now apply (chunk_multi _ _ c).
Qed.

Definition str_ok (s : bytes) : Prop := utf8_valid s = true.

(* the string part of C04: decodeString after the opening quote of emitString's output *)
Theorem string_roundtrip s rest : str_ok s ->
  decode_string (emit_body (length s) s ++ 34 :: rest) = Some (s, rest).
Proof.
  intros V. destruct (emit_emits (length s) s (le_n _) V) as [Hs Hp].
  unfold decode_string. rewrite Hs. cbn [str_scan N.eqb Pos.eqb prepend].
  rewrite app_nil_r. now rewrite Hp.
Qed.

Lemma emit_string_head s : exists body, emit_string s = 34 :: body.
Proof. eexists. reflexivity. Qed.

