(* C07: how a runtime selector (a rewritten tree) stands for the specification's threads.
   [rep] maps a selector to its thread list ([lrep]: with union-level edges live); Interests / Match of the code are
   sinterests / smatch on rep; Explore is sstep on rep for the clauses that do not depend on the quirk switches (both
   hand on [next]); of the union case and of the recursion case what does not depend on the switches (members one by
   one; the stop-at test; the wrapper put back) is stated once, for any way of comparing thread lists. *)
Require Import IP.Base.Bytes IP.DM.Value IP.Base.GoSem IP.Trav.Selector IP.Trav.Walk IP.Trav.SelectorSpec IP.Trav.QuirkFree
  IP.Proofs.TravFacts IP.Proofs.TravSel IP.Proofs.TravSlice.
From Coq Require Import Lia.
Open Scope Z_scope.

Definition mkframe (sq : sel) (lim : option Z) (stop : option bytes) : frame :=
  {| fr_seq := sq; fr_lim := lim; fr_stop := stop |}.

Fixpoint rep (s : sel) (fr : list frame) : list thr :=
  match s with
  | SUnion [] => [Thr s fr]
  | SUnion ms => (fix go (l : list sel) : list thr :=
                    match l with [] => [] | m :: t => rep m fr ++ go t end) ms
  | SRec sq cur lim stop => let fr' := mkframe sq lim stop :: fr in or_nop fr' (rep cur fr')
  | SEdge => []
  | _ => [Thr s fr]
  end.
Lemma rep_union m ms fr : rep (SUnion (m :: ms)) fr = flat_map (fun x => rep x fr) (m :: ms).
Proof. reflexivity. Qed.
Lemma enter0_union m ms fr : enter0 (SUnion (m :: ms)) fr = flat_map (fun x => enter0 x fr) (m :: ms).
Proof. reflexivity. Qed.
Lemma enter_union m ms fr : enter (SUnion (m :: ms)) fr = flat_map (fun x => enter x fr) (m :: ms).
Proof. reflexivity. Qed.

(* live representation of a raw Explore result: top-level (union-level) edges re-enter the innermost frame *)
Definition reenter (fr : list frame) : list thr :=
  match fr with
  | [] => []
  | f :: rest =>
      if exhausted (fr_lim f) then []
      else let fr' := mkframe (fr_seq f) (lim_pred (fr_lim f)) (fr_stop f) :: rest in
           or_nop fr' (enter0 (fr_seq f) fr')
  end.
Fixpoint lrep (s : sel) (fr : list frame) : list thr :=
  match s with
  | SEdge => reenter fr
  | SUnion [] => [Thr s fr]
  | SUnion ms => (fix go (l : list sel) : list thr :=
                    match l with [] => [] | m :: t => lrep m fr ++ go t end) ms
  | _ => rep s fr
  end.
Lemma lrep_union m ms fr : lrep (SUnion (m :: ms)) fr = flat_map (fun x => lrep x fr) (m :: ms).
Proof. reflexivity. Qed.
Definition lrep_opt (r : option sel) (fr : list frame) : list thr :=
  match r with Some s => lrep s fr | None => [] end.

(* srcw b s: s is a declared selector (every ExploreRecursive still has current = sequence) and edges occur only
   beneath a recursion (b: an enclosing recursion exists) *)
Inductive srcw : bool -> sel -> Prop :=
| sw_match b sl : slice_ok sl -> srcw b (SMatch sl)
| sw_all b nx : srcw b nx -> srcw b (SAll nx)
| sw_fields b fs : Forall (fun kv => srcw b (snd kv)) fs -> srcw b (SFields fs)
| sw_index b i nx : srcw b nx -> srcw b (SIndex i nx)
| sw_range b x y nx : srcw b nx -> srcw b (SRange x y nx)
| sw_union b ms : Forall (srcw b) ms -> srcw b (SUnion ms)
| sw_rec b sq lim stop : srcw true sq -> srcw b (SRec sq sq lim stop)
| sw_edge : srcw true SEdge.

(* rt b s: a selector as it occurs during a walk *)
Inductive rt : bool -> sel -> Prop :=
| rt_match b sl : slice_ok sl -> rt b (SMatch sl)
| rt_all b nx : srcw b nx -> rt b (SAll nx)
| rt_fields b fs : Forall (fun kv => srcw b (snd kv)) fs -> rt b (SFields fs)
| rt_index b i nx : srcw b nx -> rt b (SIndex i nx)
| rt_range b x y nx : srcw b nx -> rt b (SRange x y nx)
| rt_union b ms : Forall (rt b) ms -> rt b (SUnion ms)
| rt_rec b sq cur lim stop : srcw true sq -> rt true cur -> rt b (SRec sq cur lim stop)
| rt_edge : rt true SEdge.

Lemma srcw_rt s : forall b, srcw b s -> rt b s.
Proof.
  induction s as [sl|nx IH|fs IH|i nx IH|a b' nx IH|ms IH|sq cur lim stop IH1 IH2|] using sel_ind2;
    intros b H; inversion H; subst; try (constructor; assumption).
  - constructor. rewrite Forall_forall in *. intros x Hx. apply IH; auto.
  - constructor; [assumption|]. apply IH2. assumption.
Qed.

Lemma srcw_weaken s : forall b, srcw b s -> srcw true s.
Proof.
  induction s as [sl|nx IH|fs IH|i nx IH|a b' nx IH|ms IH|sq cur lim stop IH1 IH2|] using sel_ind2;
    intros b H; inversion H; subst; try (constructor; eauto).
  - rewrite Forall_forall in *. intros x Hx. eapply IH; eauto.
  - rewrite Forall_forall in *. intros x Hx. eapply IH; eauto.
Qed.

Lemma rt_weaken s : forall b, rt b s -> rt true s.
Proof.
  induction s as [sl|nx IH|fs IH|i nx IH|a b' nx IH|ms IH|sq cur lim stop IH1 IH2|] using sel_ind2;
    intros b H; inversion H; subst; try (constructor; eauto using srcw_weaken).
  - rewrite Forall_forall in *. intros x Hx. eapply srcw_weaken; eauto.
  - rewrite Forall_forall in *. intros x Hx. eapply IH; eauto.
Qed.

Lemma rt_closed s : rt false s -> has_edge s = false.
Proof.
  induction s as [sl|nx IH|fs IH|i nx IH|a b' nx IH|ms IH|sq cur lim stop IH1 IH2|] using sel_ind2;
    intros H; inversion H as [| | | | |? ? Hms| |]; subst; try reflexivity.
  rewrite has_edge_union. rewrite Forall_forall in IH, Hms.
  destruct (existsb has_edge ms) eqn:E; [|reflexivity]. apply existsb_exists in E. destruct E as (x & Hx & Ex).
  rewrite (IH x Hx (Hms x Hx)) in Ex. discriminate.
Qed.

Lemma or_nop_nonempty fr l : or_nop fr l <> [].
Proof. destruct l; cbn; discriminate. Qed.
Lemma or_nop_id fr l : l <> [] -> or_nop fr l = l.
Proof. destruct l; [congruence|reflexivity]. Qed.

Lemma rep_src s : forall b fr, srcw b s -> rep s fr = enter0 s fr.
Proof.
  induction s as [sl|nx IH|fs IH|i nx IH|a b' nx IH|ms IH|sq cur lim stop IH1 IH2|] using sel_ind2;
    intros b fr H; try reflexivity.
  - destruct ms as [|m ms]; [reflexivity|]. rewrite rep_union, enter0_union.
    inversion H as [| | | | |? ? Hms| |]; subst. rewrite Forall_forall in IH, Hms.
    apply flat_map_ext_in. intros x Hx. eapply IH; eauto.
  - inversion H; subst. cbn [rep enter0]. unfold mkframe. erewrite IH1 by eassumption. reflexivity.
Qed.

Lemma lrep_src s : forall b fr, srcw b s -> lrep s fr = enter s fr.
Proof.
  induction s as [sl|nx IH|fs IH|i nx IH|a b' nx IH|ms IH|sq cur lim stop IH1 IH2|] using sel_ind2;
    intros b fr H; try reflexivity.
  - destruct ms as [|m ms]; [reflexivity|]. rewrite lrep_union, enter_union.
    inversion H as [| | | | |? ? Hms| |]; subst. rewrite Forall_forall in IH, Hms.
    apply flat_map_ext_in. intros x Hx. eapply IH; eauto.
  - inversion H; subst. cbn [lrep rep enter]. unfold mkframe. erewrite rep_src by eassumption. reflexivity.
Qed.

Lemma lrep_noedge s : forall fr, has_edge s = false -> lrep s fr = rep s fr.
Proof.
  induction s as [sl|nx IH|fs IH|i nx IH|a b' nx IH|ms IH|sq cur lim stop IH1 IH2|] using sel_ind2;
    intros fr H; try reflexivity; try discriminate.
  destruct ms as [|m ms]; [reflexivity|]. rewrite lrep_union, rep_union. rewrite has_edge_union in H.
  rewrite Forall_forall in IH. apply flat_map_ext_in. intros x Hx. apply IH; [exact Hx|].
  destruct (has_edge x) eqn:Ex; [|reflexivity]. rewrite <- H. symmetry. apply existsb_exists. eauto.
Qed.

Definition atomic (s : sel) : bool :=
  match s with SEdge => false | SUnion (_ :: _) => false | _ => true end.
Lemma rep_atomic s fr : atomic s = true -> rep s fr <> [].
Proof.
  destruct s; cbn; try discriminate.
  - destruct ms; [discriminate|]. discriminate.
  - intros _. apply or_nop_nonempty.
Qed.

Lemma rep_empty_iff s : forall fr, rep s fr = [] <-> emptyrep s = true.
Proof.
  induction s as [sl|nx IH|fs IH|i nx IH|a b' nx IH|ms IH|sq cur lim stop IH1 IH2|] using sel_ind2;
    intros fr; try (cbn; split; discriminate).
  - destruct ms as [|m ms]; [cbn; split; discriminate|]. rewrite rep_union, emptyrep_union.
    revert IH. generalize (m :: ms). intros l IH.
    induction IH as [|x t Hx _ IHt]; [cbn; tauto|].
    cbn [flat_map forallb]. rewrite andb_true_iff, <- (Hx fr), <- IHt. split.
    + apply app_eq_nil.
    + intros [-> ->]. reflexivity.
  - cbn [rep emptyrep]. split; [intros E; exfalso; eapply or_nop_nonempty; eauto|discriminate].
  - cbn. tauto.
Qed.

(* a selector that stands for no thread is made of edges only: [all_edges] of QuirkFree.v is [emptyrep] under a
   second name (the two are convertible, and TravPinned.v uses the next two lemmas for all_edges as they stand) *)
Lemma emptyrep_members l : emptyrep (SUnion l) = true -> l <> [] /\ Forall (fun x => emptyrep x = true) l.
Proof.
  destruct l as [|m l]; [discriminate|]. rewrite emptyrep_union. intros H. split; [discriminate|].
  apply Forall_forall, forallb_forall, H.
Qed.
Lemma emptyrep_has_edge s : emptyrep s = true -> has_edge s = true.
Proof.
  induction s as [sl|nx IH|fs IH|i nx IH|a b' nx IH|ms IH|sq cur lim stop IH1 IH2|] using sel_ind2;
    intros H; try discriminate; [|reflexivity].
  destruct (emptyrep_members ms H) as [Hne Hl]. destruct Hl as [|m t Hm _]; [congruence|].
  inversion IH as [|? ? Im _]; subst. rewrite has_edge_union. cbn. rewrite (Im Hm). reflexivity.
Qed.

Lemma rep_noedge_nonempty s fr : has_edge s = false -> rep s fr <> [].
Proof. intros H E. apply rep_empty_iff, emptyrep_has_edge in E. congruence. Qed.

Lemma rep_closed_nonempty s fr : rt false s -> rep s fr <> [].
Proof. intros H. apply rep_noedge_nonempty, rt_closed, H. Qed.

Lemma reenter_live sq lim stop fr : srcw true sq -> live sq = true -> exhausted lim = false ->
  reenter (mkframe sq lim stop :: fr) = rep sq (mkframe sq (lim_pred lim) stop :: fr).
Proof.
  intros Hsq Hlive Hex. unfold reenter. cbn [mkframe fr_lim fr_seq fr_stop]. rewrite Hex.
  fold (mkframe sq (lim_pred lim) stop). rewrite <- (rep_src sq true _ Hsq). apply or_nop_id.
  intros E. apply rep_empty_iff in E. unfold live in Hlive. rewrite E in Hlive. discriminate.
Qed.

Definition orep (r : option sel) (fr : list frame) : list thr :=
  match r with Some s => rep s fr | None => [] end.

Lemma orep_union_of l fr : orep (union_of l) fr = flat_map (fun x => rep x fr) l.
Proof. destruct l as [|x [|y t]]; cbn [union_of orep flat_map]; [reflexivity|symmetry; apply app_nil_r|reflexivity]. Qed.
Lemma lrep_union_of l fr : lrep_opt (union_of l) fr = flat_map (fun x => lrep x fr) l.
Proof. destruct l as [|x [|y t]]; cbn [union_of lrep_opt flat_map]; [reflexivity|symmetry; apply app_nil_r|reflexivity]. Qed.

(* replaceRecursiveEdge against re-entry, for any replacement: what the replacement stands for (below fr2) where the
   specification re-enters (below fr1), every other member as it is, as far as N can tell.  P is what is known of the
   selector; it passes to union members and rules out the empty union, which replaceRecursiveEdge drops. *)
Lemma replace_rep (N : thr -> thr) (P : sel -> Prop) r fr1 fr2 :
  map N (orep r fr2) = map N (reenter fr1) ->
  (forall l, P (SUnion l) -> l <> [] /\ Forall P l) ->
  (forall a, leaf a = true -> P a -> map N (rep a fr2) = map N (rep a fr1)) ->
  forall nx, P nx -> map N (orep (replace_edge nx r) fr2) = map N (lrep nx fr1).
Proof.
  intros He HI Ha.
  induction nx as [sl|nx IH|fs IH|i nx IH|a b' nx IH|ms IH|sq cur lim stop IH1 IH2|] using sel_ind2;
    intros Hp; try (apply Ha; [reflexivity|exact Hp]); [|exact He].
  destruct (HI ms Hp) as [Hne Hl]. destruct ms as [|m ms]; [congruence|].
  rewrite replace_edge_union, orep_union_of, lrep_union, flat_map_omap. rewrite Forall_forall in IH, Hl.
  apply map_flat_map_ext_in. intros x Hx. exact (IH x Hx (Hl x Hx)).
Qed.

Lemma wrap_rep sq lim stop (Hsq : srcw true sq) nx : forall fr,
  lrep_opt (wrap_members sq lim stop nx) fr = lrep nx (mkframe sq lim stop :: fr).
Proof.
  induction nx as [sl|nx0 IH|fs IH|i nx0 IH|a b' nx0 IH|ms IH|sq' cur lim' stop' IH1 IH2|] using sel_ind2;
    intros fr;
    try (cbn [wrap_members lrep_opt rep lrep]; fold (mkframe sq lim stop); reflexivity).
  - destruct ms as [|m ms].
    + cbn [wrap_members lrep_opt rep lrep or_nop]. reflexivity.
    + rewrite wrap_members_union, lrep_union_of, lrep_union, flat_map_omap. rewrite Forall_forall in IH.
      apply flat_map_ext_in. intros x Hx. exact (IH x Hx fr).
  - (* a nested recursion is wrapped as a whole; it stands for at least one thread *)
    cbn [wrap_members lrep_opt lrep]. cbn [rep]. fold (mkframe sq lim stop).
    rewrite or_nop_id; [reflexivity|]. apply or_nop_nonempty.
  - cbn [wrap_members lrep reenter fr_lim fr_seq fr_stop mkframe].
    destruct (exhausted lim); [reflexivity|].
    cbn [lrep_opt lrep rep]. unfold mkframe. erewrite rep_src by eassumption. reflexivity.
Qed.

Lemma union_of_rt b rs c : Forall (rt b) rs -> union_of rs = Some c -> rt b c.
Proof. apply union_of_closed. intros; constructor; assumption. Qed.

Lemma replace_edge_rt r nx c :
  (forall x, r = Some x -> rt true x) -> rt true nx -> replace_edge nx r = Some c -> rt true c.
Proof.
  intros Hr. apply (replace_edge_pres (rt true) (rt true) r); auto.
  - intros; constructor; assumption.
  - intros l H. inversion H; assumption.
Qed.

Lemma replace_edge_live r nx c :
  (forall x, r = Some x -> emptyrep x = false) -> replace_edge nx r = Some c -> emptyrep c = false.
Proof.
  intros Hr. apply (replace_edge_pres (fun _ => True) (fun s => emptyrep s = false) r); auto.
  - intros m t H. inversion H as [|? ? Hm _]; subst. rewrite emptyrep_union. cbn. rewrite Hm. reflexivity.
  - intros l _. apply Forall_forall. auto.
  - intros s Hs _. destruct s; try discriminate Hs; reflexivity.
Qed.

Lemma lrep_opt_rec sq c l stop fr :
  emptyrep c = false -> lrep_opt (Some (SRec sq c l stop)) fr = rep c (mkframe sq l stop :: fr).
Proof. intros H. cbn [lrep_opt lrep rep]. apply or_nop_id. intros E. apply rep_empty_iff in E. congruence. Qed.
Lemma lrep_opt_rec_noedge sq nx l stop fr :
  has_edge nx = false -> lrep_opt (Some (SRec sq nx l stop)) fr = lrep nx (mkframe sq l stop :: fr).
Proof.
  intros He. cbn [lrep_opt lrep rep]. rewrite or_nop_id by (apply rep_noedge_nonempty; exact He). symmetry. exact (lrep_noedge nx _ He).
Qed.

Lemma wrap_rt sq lim stop (Hsq : srcw true sq) nx : forall b w,
  rt true nx -> wrap_members sq lim stop nx = Some w -> rt b w.
Proof.
  induction nx as [sl|nx0 IH|fs IH|i nx0 IH|a b' nx0 IH|ms IH|sq' cur lim' stop' IH1 IH2|] using sel_ind2;
    intros b w Hn Hw;
    try (cbn in Hw; inversion Hw; subst; constructor; assumption).
  - destruct ms as [|m ms].
    + cbn in Hw. inversion Hw; subst. constructor; assumption.
    + rewrite wrap_members_union in Hw. inversion Hn as [| | | | |? ? Hms| |]; subst.
      refine (union_of_rt b _ w _ Hw). rewrite Forall_forall in IH, Hms.
      apply Forall_omap. intros x c Hx. exact (IH x Hx b c (Hms x Hx)).
  - cbn in Hw. destruct (exhausted lim); inversion Hw; subst. constructor; [assumption|].
    apply srcw_rt. assumption.
Qed.

Lemma flat_map_or_nop n ps v fr l :
  flat_map (sstep n ps v) (or_nop fr l) = flat_map (sstep n ps v) l.
Proof.
  destruct l; [|reflexivity]. cbn. destruct (stopped fr v); reflexivity.
Qed.

Lemma rep_stopped n ps v s : forall fr, stopped fr v = true -> flat_map (sstep n ps v) (rep s fr) = [].
Proof.
  induction s as [sl|nx IH|fs IH|i nx IH|a b' nx IH|ms IH|sq cur lim stop IH1 IH2|] using sel_ind2;
    intros fr H; try (cbn; rewrite H; reflexivity).
  - destruct ms as [|m ms]; [cbn; rewrite H; reflexivity|]. rewrite rep_union.
    induction IH as [|x t Hx _ IHt]; [reflexivity|]. cbn [flat_map]. rewrite flat_map_app, (Hx fr H). exact IHt.
  - cbn [rep]. rewrite flat_map_or_nop. apply IH2. cbn [stopped existsb]. fold (stopped fr v). rewrite H. apply orb_true_r.
  - reflexivity.
Qed.

(* closes "exists r, explore .. = XOk r /\ (forall s', r = Some s' -> _) /\ _" up to its last conjunct *)
Ltac fin := split; [reflexivity|split; [intros ? E; try discriminate E; inversion E; subst|]].

(* matcher / all / fields / index / range: Explore does not depend on the quirk switches *)
Definition clause (s : sel) : bool :=
  match s with SUnion _ | SRec _ _ _ _ | SEdge => false | _ => true end.

Definition next (s : sel) (n : dm) (p : seg) : option sel :=
  match s with
  | SAll nx => Some nx
  | SFields fs => assoc (seg_string p) fs
  | SIndex i nx =>
      match seg_index p with Some a => if is_list n && (0 <=? i) && (a =? i) then Some nx else None | None => None end
  | SRange a b nx =>
      match seg_index p with Some i => if is_list n && (a <=? i) && (i <? b) then Some nx else None | None => None end
  | _ => None
  end.

Lemma seg_index_of_int i : seg_index (seg_of_int i) = if i <? 0 then None else Some i.
Proof. unfold seg_of_int. destruct (i <? 0); reflexivity. Qed.

Lemma explore_next q s n p : clause s = true -> explore q s n p = XOk (next s n p).
Proof.
  destruct s as [sl|nx|fs|i nx|a b nx|ms|sq cur lim stop|]; try discriminate; intros _; try reflexivity; cbn [explore next].
  - rewrite seg_index_of_int. destruct n; cbn [is_list andb]; try (destruct (seg_index p); reflexivity).
    destruct (seg_index p) as [x|]; [|reflexivity].
    destruct (Z.ltb_spec i 0), (Z.leb_spec 0 i); try lia; [reflexivity|]. cbn [andb]. destruct (x =? i); reflexivity.
  - destruct n; cbn [is_list andb]; try (destruct (seg_index p); reflexivity).
    destruct (seg_index p) as [x|]; [|reflexivity].
    destruct (Z.ltb_spec x a), (Z.leb_spec b x), (Z.leb_spec a x), (Z.ltb_spec x b); try lia; reflexivity.
Qed.

Lemma sstep_next n p v s fr :
  sstep n p v (Thr s fr) =
  if stopped fr v then [] else match next s n p with Some nx => enter nx fr | None => [] end.
Proof.
  destruct s; cbn [sstep next]; destruct (stopped fr v); try reflexivity;
    destruct (seg_index p); try reflexivity; destruct (_ && _)%bool; reflexivity.
Qed.

Lemma next_conts s n p s' : next s n p = Some s' -> In s' (conts s).
Proof.
  destruct s; cbn [next conts]; try discriminate.
  - intros E; inversion E; left; reflexivity.
  - intros E. destruct (assoc_In _ _ _ E) as [k Hin]. exact (in_map snd _ _ Hin).
  - destruct (seg_index p); [|discriminate]. destruct (_ && _)%bool; intros E; inversion E; left; reflexivity.
  - destruct (seg_index p); [|discriminate]. destruct (_ && _)%bool; intros E; inversion E; left; reflexivity.
Qed.

Lemma explore_conts q s n p s' : clause s = true -> explore q s n p = XOk (Some s') -> In s' (conts s).
Proof. intros Hc E. rewrite (explore_next q s n p Hc) in E. inversion E as [E']. exact (next_conts s n p s' E'). Qed.

Lemma srcw_conts b s s' : rt b s -> In s' (conts s) -> srcw b s'.
Proof.
  intros Hrt Hin. destruct s; inversion Hrt; subst; cbn [conts] in Hin;
    try (destruct Hin as [<-|[]]; assumption); try destruct Hin.
  apply in_map_iff in Hin. destruct Hin as (kv & <- & Hin).
  match goal with H : Forall _ fs |- _ => rewrite Forall_forall in H; exact (H _ Hin) end.
Qed.

Lemma explore_clause_sstep q s b fr n ps v :
  rt b s -> stopped fr v = false -> clause s = true ->
  exists r, explore q s n ps = XOk r /\ (forall s', r = Some s' -> rt b s') /\
            lrep_opt r fr = flat_map (sstep n ps v) (rep s fr).
Proof.
  intros Hrt Hs Hc. exists (next s n ps). split; [exact (explore_next q s n ps Hc)|].
  replace (rep s fr) with [Thr s fr] by (destruct s; try discriminate Hc; reflexivity).
  cbn [flat_map]. rewrite sstep_next, Hs, app_nil_r.
  destruct (next s n ps) as [nx|] eqn:E; [|split; [discriminate|reflexivity]].
  pose proof (srcw_conts b s nx Hrt (next_conts s n ps nx E)) as Hsrc.
  split; [intros s' Es; inversion Es; subst; exact (srcw_rt s' b Hsrc)|exact (lrep_src nx b fr Hsrc)].
Qed.

(* E relates thread lists (equality, or equality up to what the specification cannot observe); Inv is what is kept
   of the selectors handed on. *)
Lemma explore_union_sim q (Inv : sel -> Prop) (E : list thr -> list thr -> Prop) n ps v fr m ms :
  E [] [] -> (forall a b c d, E a b -> E c d -> E (a ++ c) (b ++ d)) ->
  (forall rs c, Forall Inv rs -> union_of rs = Some c -> Inv c) ->
  Forall (fun x => exists r, explore q x n ps = XOk r /\ (forall s', r = Some s' -> Inv s') /\
                             E (lrep_opt r fr) (flat_map (sstep n ps v) (rep x fr))) (m :: ms) ->
  exists r, explore q (SUnion (m :: ms)) n ps = XOk r /\ (forall s', r = Some s' -> Inv s') /\
            E (lrep_opt r fr) (flat_map (sstep n ps v) (rep (SUnion (m :: ms)) fr)).
Proof.
  intros E0 Eapp Hu H. rewrite explore_union, rep_union.
  assert (Hall : exists rs, explore_all q n ps (m :: ms) = XOk rs /\ Forall Inv rs /\
                            E (flat_map (fun x => lrep x fr) rs)
                              (flat_map (sstep n ps v) (flat_map (fun x => rep x fr) (m :: ms)))).
  { induction H as [|x t (r & Er & Rr & Lr) _ (rs & Ers & Rrs & Lrs)]; [exists []; auto|].
    cbn [explore_all flat_map]. rewrite Er, Ers, flat_map_app.
    destruct r as [x'|]; eexists; (split; [reflexivity|split]); auto.
    - apply (Eapp (lrep x' fr)); assumption.
    - apply (Eapp []); assumption. }
  destruct Hall as (rs & -> & Rrs & Lrs). exists (union_of rs). split; [reflexivity|split].
  - intros s' Es. eapply Hu; eauto.
  - rewrite lrep_union_of. exact Lrs.
Qed.

Lemma explore_rec_sim q sq cur lim stop n ps v fr :
  lookup_seg n ps = Some v -> stopped fr v = false ->
  let fr' := mkframe sq lim stop :: fr in
  let s := SRec sq cur lim stop in
  if stopped fr' v
  then explore q s n ps = XOk None /\ flat_map (sstep n ps v) (rep s fr) = []
  else explore q s n ps =
         (if is_edge cur then XOk None
          else match explore q cur n ps with
               | XPanic => XPanic
               | XOk (Some nx) => rec_wrap q sq lim stop nx
               | _ => XOk None
               end)
       /\ flat_map (sstep n ps v) (rep s fr) = flat_map (sstep n ps v) (rep cur fr')
       /\ match stop with Some c => cond_match c v | None => false end = false.
Proof.
  intros Hl Hs fr' s.
  assert (Hst : stopped fr' v = match stop with Some c => cond_match c v | None => false end).
  { unfold fr'. cbn [stopped existsb mkframe fr_stop]. fold (stopped fr v). rewrite Hs.
    destruct stop; [apply orb_false_r|reflexivity]. }
  unfold s. cbn [explore rep]. fold (mkframe sq lim stop). fold fr'. rewrite flat_map_or_nop, Hl.
  destruct (stopped fr' v) eqn:Est.
  - split; [|exact (rep_stopped n ps v cur fr' Est)].
    destruct stop as [c|]; [|discriminate]. rewrite <- Hst. reflexivity.
  - repeat split; [|symmetry; exact Hst]. destruct stop as [c|]; [rewrite <- Hst|]; reflexivity.
Qed.

Lemma smatch_app a b n : smatch (a ++ b) n = match smatch a n with Some m => Some m | None => smatch b n end.
Proof. induction a as [|t a IH]; [reflexivity|]. cbn. destruct (thr_match t n); [reflexivity|exact IH]. Qed.

Lemma smatch_or_nop fr l n : smatch (or_nop fr l) n = smatch l n.
Proof. destruct l; reflexivity. Qed.

Lemma match_rep s : forall b fr n, rt b s -> small_top n -> match_sel s n = smatch (rep s fr) n.
Proof.
  induction s as [sl|nx IH|fs IH|i nx IH|a b' nx IH|ms IH|sq cur lim stop IH1 IH2|] using sel_ind2;
    intros b fr n Hrt Hn; try reflexivity.
  - inversion Hrt; subst. destruct sl as [ft|]; cbn; [|reflexivity].
    rewrite slice_node_spec by assumption. destruct (spec_slice_node ft n); reflexivity.
  - rewrite match_sel_union. destruct ms as [|m ms]; [reflexivity|]. rewrite rep_union.
    inversion Hrt as [| | | | |? ? Hms| |]; subst.
    revert IH Hms. generalize (m :: ms). intros l IH Hl.
    induction IH as [|x t Hx _ IHt]; [reflexivity|]. inversion Hl as [|? ? Rx Rt]; subst.
    cbn [match_any flat_map]. rewrite smatch_app, <- (Hx b fr n Rx Hn), <- IHt by assumption. reflexivity.
  - inversion Hrt as [| | | | | |? ? ? ? ? Hsq Hcur|]; subst.
    cbn [match_sel rep]. rewrite smatch_or_nop. eapply IH2; eassumption.
Qed.

Lemma sinterests_app a b :
  sinterests (a ++ b) = match sinterests a, sinterests b with Some x, Some y => Some (x ++ y) | _, _ => None end.
Proof.
  induction a as [|t a IH]; [cbn; destruct (sinterests b); reflexivity|].
  cbn [app sinterests]. rewrite IH. destruct (thr_interests t), (sinterests a), (sinterests b); cbn;
    try reflexivity. rewrite app_assoc. reflexivity.
Qed.

Lemma interests_rep s : forall fr, interests s = sinterests (rep s fr).
Proof.
  induction s as [sl|nx IH|fs IH|i nx IH|a b' nx IH|ms IH|sq cur lim stop IH1 IH2|] using sel_ind2;
    intros fr; try (cbn; rewrite ?app_nil_r; reflexivity).
  - rewrite interests_union. destruct ms as [|m ms]; [reflexivity|]. rewrite rep_union.
    revert IH. generalize (m :: ms). intros l IH.
    induction IH as [|x t Hx _ IHt]; [reflexivity|].
    cbn [interests_all flat_map]. rewrite sinterests_app, <- (Hx fr), <- IHt. reflexivity.
  - cbn [interests rep]. rewrite (IH2 (mkframe sq lim stop :: fr)).
    destruct (rep cur (mkframe sq lim stop :: fr)); reflexivity.
Qed.

Lemma children_rep n s fr : children repaired n s = schildren n (rep s fr).
Proof. unfold children, schildren. rewrite (interests_rep s fr). reflexivity. Qed.

Lemma denote_S g f ls P n ts :
  denote g (S f) ls P n ts =
  let ev := match smatch ts n with Some m => EVisit P m RMatch ls | None => EVisit P n RCand ls end in
  if is_container n then
    let '(e, o) := seqk (denote_step g (denote g f) ls P n ts) (schildren n ts) in (ev :: e, o)
  else ([ev], OOk).
Proof. reflexivity. Qed.

Lemma seqk_ext_in {A} (s1 s2 : A -> list event * outcome) ks :
  (forall k, In k ks -> s1 k = s2 k) -> seqk s1 ks = seqk s2 ks.
Proof.
  induction ks as [|k r IH]; intros H; [reflexivity|].
  cbn. rewrite (H k (or_introl eq_refl)). rewrite IH; [reflexivity|]. intros; apply H; right; assumption.
Qed.
