(* The hypotheses of the C15 theorems are satisfiable: a graph with a repeated link, the "walk everything, match
   everything" selector, and the unrestricted walk over them, which completes, explores distinct siblings and
   visits the start path b/1 (the second, repeated, link). *)
Require Import IP.Base.Bytes IP.DM.Value IP.Trav.Selector IP.Trav.Walk IP.Trav.Controls IP.Trav.ControlsSpec
  IP.Proofs.TravStart.
Open Scope Z_scope.

Definition ex_c1 : bytes := [1; 113; 18; 1; 170]%N.
Definition ex_g : list (bytes * dm) := [(ex_c1, DMap [([118%N], DInt 7)])].
Definition ex_root : dm :=
  DMap [([97%N], DLink ex_c1); ([98%N], DList [DInt 1; DLink ex_c1; DString [104%N; 105%N]])].
Definition ex_seq : sel := SUnion [SMatch None; SAll SEdge].
Definition ex_sel : sel := SRec ex_seq ex_seq None None.
Definition ex_U := walk_adv pinned ex_g 10 ex_root ex_sel.

Example ex_U_ok : snd ex_U = OOk /\ length (visits (fst ex_U)) = 8%nat /\ length (loads (fst ex_U)) = 2%nat.
Proof. vm_compute. repeat split. Qed.

Example ex_distinct : walk_distinct pinned ex_g 10 ex_root ex_sel = true.
Proof. vm_compute. reflexivity. Qed.

Example ex_start_visited :
  Exists (fun e => at_path (map SegS [[98%N]; [49%N]]) e = true) (fst ex_U).
Proof. apply Exists_exists. eexists. split; [|shelve]. vm_compute. do 7 right. left. reflexivity.
  Unshelve. vm_compute. reflexivity. Qed.

Example ex_budget_hyp : 0 <= 4 /\ Z.of_nat (length (loads (fst ex_U))) <= 9223372036854775807.
Proof. vm_compute. split; discriminate. Qed.
