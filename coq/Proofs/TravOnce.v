(* C15, LinkVisitOnlyOnce: when the unrestricted walk completes, the visit-once walk completes too, its trace is a
   sub-sequence of the unrestricted trace, and no link is loaded twice (once_closed). *)
Require Import IP.Base.Bytes IP.DM.Value IP.Trav.Selector IP.Trav.Walk IP.Trav.Controls IP.Trav.ControlsSpec
  IP.Proofs.TravFacts IP.Proofs.TravCtl.
From Coq Require Import Lia.
Open Scope Z_scope.

Definition once_ctl : ctl := {| c_start := []; c_once := true; c_skip := [] |}.

(* SeenLinks after the walk: the links it loaded, the last one first, on top of those seen before it *)
Definition once_rel (ls : list bytes) (y : res) (st : wst) (r : cres) : Prop :=
  forall seen t, st = nst seen -> y = (t, OOk) ->
  exists t', r = (t', OOk, nst (rev (load_cids t') ++ seen)) /\ subseq t' t /\
             (NoDup seen -> NoDup (rev (load_cids t') ++ seen)).

Lemma once_closed : ctl_closed once_ctl once_rel.
Proof.
  unfold once_rel. split; [|split; [|split]].
  - intros ls o st seen t -> H. inversion H. exists []. repeat split; [constructor|exact (fun Hn => Hn)].
  - intros ls [e1 o1] [e2 o2] x2 st r1 H1 H2 seen t -> H. destruct o1; try discriminate. inversion H; subst.
    destruct (H1 seen e1 eq_refl eq_refl) as (t1 & -> & S1 & F1). cbn [cthen].
    destruct (H2 _ (rev (load_cids t1) ++ seen) e2 eq_refl eq_refl) as (t2 & -> & S2 & F2).
    exists (t1 ++ t2). unfold load_cids in *. rewrite flat_map_app, rev_app_distr, <- app_assoc.
    repeat split; [apply subseq_app; assumption|exact (fun Hn => F2 (F1 Hn))].
  - intros ls ev e o x st Hv _ Hx seen t -> H. inversion H; subst.
    destruct (Hx _ seen e eq_refl eq_refl) as (t' & E & S & F). cbn [check_node w_budget nst]. rewrite E.
    exists (ev :: t'). destruct ev; [|discriminate]. repeat split; [constructor|]; assumption.
  - intros ls P l e o x st Hx seen t -> H. inversion H; subst.
    cbn [c_once once_ctl andb c_skip mem_bytes w_seen nst].
    destruct (mem_bytes l seen) eqn:Em; [exists []; repeat split; [constructor|exact (fun Hn => Hn)]|].
    destruct (Hx (nst (l :: seen)) (l :: seen) e eq_refl eq_refl) as (t' & E & S & F).
    cbn [check_link w_budget mark_seen nst]. change (mark_seen l (nst seen)) with (nst (l :: seen)). rewrite E.
    exists (ELoad P l ls :: t'). cbn [load_cids flat_map app rev]. rewrite <- app_assoc.
    repeat split; [constructor; exact S|]. intros Hn. apply F. constructor; [|exact Hn].
    intros Hin. apply mem_bytes_In in Hin. congruence.
Qed.
