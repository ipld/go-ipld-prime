(* Proofs/SchemaCbor.v — the typed layer over the concrete DAG-CBOR codec: the bytes round trip of C08 for the
   encoder closed form [encb] and the decoder [decode] of Codec/Cbor.v, from C02's round trip and order
   independence and SchemaPerm.rebuild_peq (the steps of SchemaPerm.bytes_full again: that theorem's partial
   encoder and tree-or-nothing decoder are not the shape of this codec).  Defines what C08's statements over
   dag-cbor mention: [cbor_bytes] and [within_limits]. *)
Require Import IP.Base.Bytes IP.DM.Value IP.Codec.Cid IP.Codec.Cbor.
Require Import IP.Schema.Types IP.Schema.View IP.Schema.Conform IP.Schema.Sem IP.Schema.Perm.
Require Import IP.Proofs.BytesFacts IP.Proofs.CborEnc IP.Proofs.CborDec.
Require Import IP.Proofs.SchemaBase IP.Proofs.SchemaBuild IP.Proofs.SchemaRepr IP.Proofs.SchemaRound
  IP.Proofs.SchemaTop IP.Proofs.SchemaPerm IP.Proofs.SchemaRefute.

Lemma peq_sortv m v : peq v (sortv m v).
Proof. apply perm_eq_peq, pe_sortv. Qed.

Definition cbor_bytes (d : dm) : bytes := encb SortRFC7049 d.
Definition within_limits (o : dopts) (d : dm) : Prop :=
  rt_ok d /\ (Z.of_nat (dm_depth d) <= max_depth o)%Z /\ (cost d <= budget0 o)%Z.

(* the abstract-codec hypotheses of bytes_full hold of dag-cbor on every tree within the limits *)
Theorem dagcbor_dec_enc o d : d_allow_links o = true -> within_limits o d ->
  exists d', decode o (cbor_bytes d) = Ok (d', []) /\ peq d d'.
Proof.
  intros Hl [Hok [Hd Hc]]. exists (sortv SortRFC7049 d). split; [apply decode_encode; auto|apply peq_sortv].
Qed.

Theorem dagcbor_enc_peq d d' : dm_wf d = true -> peq d d' -> cbor_bytes d = cbor_bytes d'.
Proof.
  intros Hw Hp. apply encb_perm_invariant; [discriminate|apply peq_perm_eq; exact Hp|apply dm_wf_keys_nodup; exact Hw].
Qed.

(* C08 over dag-cbor (C08_bytes_dagcbor): encode the representation of a typed value with the registered
   encoder, decode the bytes with the registered decoder, feed the representation builder.  The one premise
   about sizes is that the representation is within the decoder's configured limits (ints in range, strings
   to 32 MiB, depth and allocation budget). *)
Theorem typed_dagcbor_roundtrip e o t v :
  wf t = true -> has_type t v = true ->
  d_allow_links o = true -> within_limits o (repr_spec t v) ->
  exists d' v', decode o (cbor_bytes (repr_spec t v)) = Ok (d', []) /\
                rbuild e qoff t d' = BOk v' /\ veq v v' /\ has_type t v' = true /\
                repr e qoff t v' = Some (repr_spec t v') /\
                cbor_bytes (repr_spec t v') = cbor_bytes (repr_spec t v).
Proof.
  intros Hwf Hh Hl Hw.
  destruct (dagcbor_dec_enc o _ Hl Hw) as (d' & Hdec & Hp).
  destruct (rebuild_peq e qoff t v d' (strict_qoff e) (views_off_qoff e) Hwf Hh Hp) as (v' & Hb & Hv & Hh' & Hr & Hp').
  exists d', v'. repeat split; auto. symmetry. apply dagcbor_enc_peq; auto. now apply repr_spec_wf.
Qed.

Example within_big : rt_ok (repr_spec tBig vBig).
Proof. vm_compute. repeat (split || constructor); try discriminate; cbn; intuition discriminate. Qed.
