(* Proofs/JsonSort.v — facts about key-sorting a value: insertion-order independence, and
   json_safe / depth are preserved by sorting; [maps_sorted], the form of the encoder's output that C04_sorted_keys states. *)
Require Import IP.Base.Bytes IP.DM.Value IP.Codec.Utf8 IP.Codec.Base64 IP.Codec.DagJson.
Require Import IP.Proofs.BytesFacts IP.Proofs.CborEnc IP.Proofs.CborDec IP.Proofs.JsonUnm.
From Coq Require Import Permutation Sorting.Sorted.
Open Scope N_scope.

(* dag-json's map order, bytewise by key: CborDec.sortv SortLexical (sortv_lex) *)
Notation lexsort := (sort_maps bytes_ltb).
Definition sort_entry (kv : bytes * dm) : bytes * dm := (fst kv, lexsort (snd kv)).

Lemma lexsort_map m : lexsort (DMap m) = DMap (sort_kv bytes_ltb (map sort_entry m)).
Proof. reflexivity. Qed.

(* the same value up to the insertion order of map entries, at every level *)
Inductive pm : dm -> dm -> Prop :=
| pm_same v : pm v v
| pm_list l l' : Forall2 pm l l' -> pm (DList l) (DList l')
| pm_map m m1 m' : Permutation m m1 ->
    Forall2 (fun a b => fst a = fst b /\ pm (snd a) (snd b)) m1 m' -> pm (DMap m) (DMap m').

Fixpoint uniq (v : dm) : bool :=
  match v with
  | DList l => forallb uniq l
  | DMap m => nodup_keys m && forallb (fun kv => uniq (snd kv)) m
  | _ => true
  end.

Definition lex_sort_perm := @sort_perm dm bytes_ltb.

Lemma pm_perm_eq v1 : forall v2, pm v1 v2 -> perm_eq v1 v2.
Proof.
  induction v1 as [| | | | | | |l IH|m IH] using dm_ind2; intros v2 H; inversion H as [|? ? F|? mm ? Pm F]; subst; try apply pe_refl.
  - rewrite Forall_forall in IH. apply pe_list. eapply F2_impl_in; [exact F|]. intros a b Ha _. now apply IH.
  - pose proof (Permutation_Forall Pm IH) as IHmm. rewrite Forall_forall in IHmm.
    assert (F' : Forall2 (fun a b => fst a = fst b /\ perm_eq (snd a) (snd b)) mm m')
      by (eapply F2_impl_in; [exact F|]; intros a b Ha _ [Hk Hv]; split; [exact Hk|now apply IHmm]).
    (* pm permutes first and relates then, perm_eq the other way round *)
    destruct (Permutation_Forall2 (Permutation_sym Pm) F') as (m2 & P2 & F'').
    exact (pe_map m m2 m' F'' (Permutation_sym P2)).
Qed.

Lemma uniq_keys_nodup v : uniq v = true -> keys_nodup v.
Proof.
  apply (keys_nodup_intro (fun v => uniq v = true)); cbn [uniq].
  - intros l H. now apply Forall_forall, forallb_forall.
  - intros m H. apply andb_true_iff in H as [ND H]. split; [now apply nodup_keys_iff|]. now apply Forall_forall, forallb_forall.
Qed.

Theorem perm_eq_sort v1 v2 : perm_eq v1 v2 -> keys_nodup v1 -> lexsort v1 = lexsort v2.
Proof. intros Hp Hnd. rewrite <- !sortv_lex. now apply sortv_perm. Qed.

Theorem pm_sort v1 : uniq v1 = true -> forall v2, pm v1 v2 -> lexsort v1 = lexsort v2.
Proof. intros U v2 H. apply perm_eq_sort; [now apply pm_perm_eq|now apply uniq_keys_nodup]. Qed.

Lemma sort_len (l : list (bytes * dm)) : length (sort_kv bytes_ltb l) = length l.
Proof. symmetry. apply Permutation_length. apply lex_sort_perm. Qed.

Lemma reserved_long (l : list (bytes * dm)) : (2 <= length l)%nat -> reserved_shape l = false.
Proof.
  destruct l as [|a [|b r]]; cbn [length]; try lia. intros _. destruct a as [k v]; destruct v; try reflexivity.
  destruct m as [|[k2 y] [|]]; try reflexivity; destruct y; reflexivity.
Qed.

Lemma reserved_inner_long k (l : list (bytes * dm)) : (2 <= length l)%nat -> reserved_shape [(k, DMap l)] = false.
Proof. destruct l as [|a [|b r]]; cbn [length]; try lia. intros _. destruct a as [k2 v]; destruct v; reflexivity. Qed.

Lemma reserved_sort m : reserved_shape (sort_kv bytes_ltb (map sort_entry m)) = reserved_shape m.
Proof.
  destruct m as [|[k x] [|b r]].
  - reflexivity.
  - cbn [map sort_kv insert_kv]. unfold sort_entry. cbn [fst snd].
    destruct x as [| | | | | | |l|mm]; try reflexivity.
    destruct mm as [|[k2 y] [|b2 r2]].
    + reflexivity.
    + cbn [sort_maps map sort_kv insert_kv fst snd]. destruct y; reflexivity.
    + rewrite lexsort_map. rewrite !reserved_inner_long; [reflexivity|cbn; lia|rewrite sort_len, map_length; cbn; lia].
  - rewrite !reserved_long; [reflexivity|cbn; lia|rewrite sort_len, map_length; cbn; lia].
Qed.

Theorem safe_sort co gf v : json_safe co gf v = true -> json_safe co gf (lexsort v) = true.
Proof.
  induction v as [| | | | | | |l IH|m IH] using dm_ind2; intros Sf; try exact Sf.
  - cbn [sort_maps json_safe] in *. rewrite forallb_forall in *. intros y Hy. apply in_map_iff in Hy.
    destruct Hy as (x & <- & Hx). rewrite Forall_forall in IH. apply IH; auto.
  - rewrite lexsort_map. cbn [json_safe] in *. apply andb_true_iff in Sf. destruct Sf as [Sf S3].
    apply andb_true_iff in Sf. destruct Sf as [S1 S2].
    assert (Pm : Permutation (map sort_entry m) (sort_kv bytes_ltb (map sort_entry m))) by apply lex_sort_perm.
    apply andb_true_iff. split; [apply andb_true_iff; split|].
    + apply nodup_keys_iff. eapply Permutation_NoDup; [apply Permutation_map; exact Pm|].
      unfold sort_entry. rewrite map_fst_pair. now apply nodup_keys_iff.
    + now rewrite reserved_sort.
    + rewrite forallb_forall in *. intros kv Hkv. apply (Permutation_in _ (Permutation_sym Pm)) in Hkv.
      apply in_map_iff in Hkv. destruct Hkv as (kv0 & <- & Hin). specialize (S3 kv0 Hin).
      apply andb_true_iff in S3. destruct S3 as [Sk Sv]. unfold sort_entry. cbn [fst snd]. rewrite Sk. cbn [andb].
      rewrite Forall_forall in IH. now apply IH.
Qed.

Theorem depth_sort v : jdepth (lexsort v) = jdepth v.
Proof.
  induction v as [| | | | | | |l IH|m IH] using dm_ind2; try reflexivity.
  - cbn [sort_maps jdepth]. f_equal.
    induction IH as [|x r Hx _ IHr]; [reflexivity|]. cbn [map fold_right]. now rewrite Hx, IHr.
  - rewrite lexsort_map. cbn [jdepth]. f_equal.
    transitivity (fold_right (fun kv a => N.max (jdepth (snd kv)) a) 0 (map sort_entry m)).
    { symmetry. apply fold_right_perm; [intros; lia | apply lex_sort_perm]. }
    induction IH as [|x r Hx _ IHr]; [reflexivity|]. cbn [map fold_right sort_entry snd]. now rewrite Hx, IHr.
Qed.

Fixpoint maps_sorted (v : dm) : Prop :=
  match v with
  | DList l => (fix go (l : list dm) : Prop := match l with [] => True | x :: r => maps_sorted x /\ go r end) l
  | DMap m => StronglySorted (fun a b => bytes_ltb (fst a) (fst b) = true) m /\
              (fix go (m : list (bytes * dm)) : Prop := match m with [] => True | kv :: r => maps_sorted (snd kv) /\ go r end) m
  | _ => True
  end.
