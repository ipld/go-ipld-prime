(* C15, budgets: the budgeted walk is the unrestricted walk cut at the first event that exceeds its budget,
   for every graph, selector, fuel and pair of budgets (budget_closed). *)
Require Import IP.Base.Bytes IP.DM.Value IP.Trav.Selector IP.Trav.Walk IP.Trav.Controls IP.Trav.ControlsSpec
  IP.Proofs.TravFacts IP.Proofs.TravCtl.
From Coq Require Import Lia.
Open Scope Z_scope.

Definition bst (b : Z * Z) (seen : list bytes) : wst := {| w_budget := Some b; w_seen := seen |}.

Lemma cut_app t1 : forall t2 nb lb,
  cut nb lb (t1 ++ t2) =
  match cut nb lb t1 with
  | (t1', Some e, b) => (t1', Some e, b)
  | (t1', None, (nb', lb')) => let '(t2', o, b) := cut nb' lb' t2 in (t1' ++ t2', o, b)
  end.
Proof.
  induction t1 as [|e t1 IH]; intros t2 nb lb.
  - cbn. destruct (cut nb lb t2) as [[a o] b]. reflexivity.
  - cbn [app cut]. destruct (is_visit e).
    + destruct (nb <=? 0); [reflexivity|]. rewrite IH.
      destruct (cut (nb - 1) lb t1) as [[a [o|]] [x y]]; [reflexivity|].
      destruct (cut x y t2) as [[a' o'] b']. reflexivity.
    + destruct (lb <=? 0); [reflexivity|]. rewrite IH.
      destruct (cut nb (lb - 1) t1) as [[a [o|]] [x y]]; [reflexivity|].
      destruct (cut x y t2) as [[a' o'] b']. reflexivity.
Qed.

Lemma cut_none t : forall nb lb t' b, cut nb lb t = (t', None, b) -> t' = t.
Proof.
  induction t as [|e t IH]; intros nb lb t' b; cbn.
  - intros H; inversion H; reflexivity.
  - destruct (is_visit e).
    + destruct (nb <=? 0); [discriminate|].
      destruct (cut (nb - 1) lb t) as [[a o] b'] eqn:E. intros H; inversion H; subst.
      f_equal. eapply IH; eauto.
    + destruct (lb <=? 0); [discriminate|].
      destruct (cut nb (lb - 1) t) as [[a o] b'] eqn:E. intros H; inversion H; subst.
      f_equal. eapply IH; eauto.
Qed.

Definition budget_rel (ls : list bytes) (y : res) (st : wst) (r : cres) : Prop :=
  forall nb lb seen, st = bst (nb, lb) seen -> r = (cut_run nb lb y, bst (snd (cut nb lb (fst y))) seen).

Lemma budget_closed : ctl_closed no_ctl budget_rel.
Proof.
  unfold budget_rel, cut_run. split; [|split; [|split]].
  - intros ls o st nb lb seen ->. reflexivity.
  - intros ls [e o] [e' o'] x2 st r1 H1 H2 nb lb seen ->. rewrite (H1 nb lb seen eq_refl).
    cbn [fst snd then_].
    destruct (cut nb lb e) as [[t' [er|]] [x y]] eqn:Ec.
    + destruct o; cbn [fst snd]; try (rewrite Ec; reflexivity). rewrite cut_app, Ec. reflexivity.
    + destruct o; cbn [fst snd cthen]; try (rewrite Ec; reflexivity).
      rewrite (H2 _ x y seen eq_refl), cut_app, Ec. cbn [fst snd].
      destruct (cut x y e') as [[t2 [er|]] [x' y']]; [rewrite (cut_none _ _ _ _ _ Ec)|]; reflexivity.
  - intros ls ev e o x st Hv _ Hx nb lb seen ->. cbn [check_node w_budget w_seen bst fst snd cut]. rewrite Hv.
    destruct (nb <=? 0); [reflexivity|]. fold (bst (nb - 1, lb) seen). rewrite (Hx _ (nb - 1) lb seen eq_refl).
    cbn [fst snd]. destruct (cut (nb - 1) lb e) as [[t' [er|]] [x' y']]; reflexivity.
  - intros ls P l e o x st Hx nb lb seen ->. cbn [c_once no_ctl andb c_skip mem_bytes check_link w_budget w_seen bst fst snd cut is_visit].
    destruct (lb <=? 0); [reflexivity|]. fold (bst (nb, lb - 1) seen). rewrite (Hx _ nb (lb - 1) seen eq_refl).
    cbn [fst snd]. destruct (cut nb (lb - 1) e) as [[t' [er|]] [x' y']]; reflexivity.
Qed.

Lemma cut_prefix t : forall nb lb, exists r, t = fst (fst (cut nb lb t)) ++ r.
Proof.
  induction t as [|e t IH]; intros nb lb; cbn.
  - exists []; reflexivity.
  - destruct (is_visit e).
    + destruct (nb <=? 0); [exists (e :: t); reflexivity|].
      destruct (IH (nb - 1) lb) as [r Hr]. destruct (cut (nb - 1) lb t) as [[a o] b]; cbn in *.
      exists r; congruence.
    + destruct (lb <=? 0); [exists (e :: t); reflexivity|].
      destruct (IH nb (lb - 1)) as [r Hr]. destruct (cut nb (lb - 1) t) as [[a o] b]; cbn in *.
      exists r; congruence.
Qed.

Lemma cut_node t : forall nb lb, 0 <= nb -> Z.of_nat (length (loads t)) <= lb ->
  visits (fst (fst (cut nb lb t))) = firstn (Z.to_nat nb) (visits t) /\
  (Z.of_nat (length (visits t)) <= nb -> snd (fst (cut nb lb t)) = None) /\
  (nb < Z.of_nat (length (visits t)) -> snd (fst (cut nb lb t)) = Some WNodeBudget).
Proof.
  induction t as [|e t IH]; intros nb lb H0 Hl.
  - cbn. rewrite firstn_nil. repeat split; auto. intros; cbn in *; lia.
  - cbn [cut]. unfold visits, loads in *. cbn [filter] in *.
    destruct e as [p n r ls|p c ls]; cbn [is_visit is_load] in *.
    + destruct (Z.leb_spec nb 0).
      * cbn. replace (Z.to_nat nb) with O by lia. repeat split; auto. lia.
      * destruct (IH (nb - 1) lb) as (A & B & C); [lia|exact Hl|].
        destruct (cut (nb - 1) lb t) as [[a o] b]; cbn [fst snd] in *.
        replace (Z.to_nat nb) with (S (Z.to_nat (nb - 1))) by lia.
        cbn [filter is_visit firstn length]. rewrite A. repeat split; auto.
        -- intros; apply B; lia.
        -- intros; apply C; lia.
    + cbn [length] in Hl. destruct (Z.leb_spec lb 0); [lia|].
      destruct (IH nb (lb - 1)) as (A & B & C); [lia|lia|].
      destruct (cut nb (lb - 1) t) as [[a o] b]; cbn [fst snd] in *.
      cbn [filter is_visit]. auto.
Qed.

Lemma cut_link t : forall nb lb, 0 <= lb -> Z.of_nat (length (visits t)) <= nb ->
  loads (fst (fst (cut nb lb t))) = firstn (Z.to_nat lb) (loads t) /\
  (Z.of_nat (length (loads t)) <= lb -> snd (fst (cut nb lb t)) = None) /\
  (lb < Z.of_nat (length (loads t)) -> snd (fst (cut nb lb t)) = Some WLinkBudget).
Proof.
  induction t as [|e t IH]; intros nb lb H0 Hl.
  - cbn. rewrite firstn_nil. repeat split; auto. intros; cbn in *; lia.
  - cbn [cut]. unfold visits, loads in *. cbn [filter] in *.
    destruct e as [p n r ls|p c ls]; cbn [is_visit is_load] in *.
    + cbn [length] in Hl. destruct (Z.leb_spec nb 0); [lia|].
      destruct (IH (nb - 1) lb) as (A & B & C); [lia|lia|].
      destruct (cut (nb - 1) lb t) as [[a o] b]; cbn [fst snd] in *.
      cbn [filter is_load]. auto.
    + destruct (Z.leb_spec lb 0).
      * cbn. replace (Z.to_nat lb) with O by lia. repeat split; auto. lia.
      * destruct (IH nb (lb - 1)) as (A & B & C); [lia|exact Hl|].
        destruct (cut nb (lb - 1) t) as [[a o] b]; cbn [fst snd] in *.
        replace (Z.to_nat lb) with (S (Z.to_nat (lb - 1))) by lia.
        cbn [filter is_load firstn length]. rewrite A. repeat split; auto.
        -- intros; apply B; lia.
        -- intros; apply C; lia.
Qed.

Definition not_budget (o : outcome) : Prop := o <> OErr WNodeBudget /\ o <> OErr WLinkBudget.

Lemma walk_not_budget q g f ls P n s : not_budget (snd (walk q g f ls P n s)).
Proof.
  apply (walk_inv q g (fun _ _ _ _ _ => True) (fun _ => True) not_budget); try (repeat split; discriminate); auto.
  intros _ ls' P' n' s' ps v _ _. destruct (explore q s' n' ps) as [[s''|]| |]; try (repeat split; discriminate); auto.
  destruct v; auto.
Qed.

Lemma cut_run_fst nb lb U : fst (cut_run nb lb U) = fst (fst (cut nb lb (fst U))).
Proof.
  unfold cut_run. destruct (cut nb lb (fst U)) as [[t' [e|]] b] eqn:Ec; [reflexivity|].
  symmetry. exact (cut_none _ _ _ _ _ Ec).
Qed.

(* w is the budget of which k units are given and cnt would be used *)
Lemma cut_run_prefix nb lb U w (k cnt : Z) :
  snd U <> OErr w ->
  (cnt <= k -> snd (fst (cut nb lb (fst U))) = None) -> (k < cnt -> snd (fst (cut nb lb (fst U))) = Some w) ->
  (exists r, fst U = fst (cut_run nb lb U) ++ r) /\
  (snd (cut_run nb lb U) = OErr w <-> k < cnt) /\
  (cnt <= k -> cut_run nb lb U = U).
Proof.
  intros NB B C. rewrite cut_run_fst. split; [apply cut_prefix|]. unfold cut_run.
  destruct (cut nb lb (fst U)) as [[t' [e|]] b]; cbn [fst snd] in *.
  - split; [split|].
    + intros _. destruct (Z.lt_ge_cases k cnt) as [Hlt|Hge]; [exact Hlt|]. specialize (B Hge). discriminate.
    + intros H. specialize (C H). congruence.
    + intros H. specialize (B H). discriminate.
  - split; [split|].
    + intros H. contradiction.
    + intros H. specialize (C H). discriminate.
    + reflexivity.
Qed.

