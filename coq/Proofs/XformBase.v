(* Proofs/XformBase.v — facts about the store, key lookup, key sorting and the expanded-tree type
   used by the C16 proofs. *)
Require Import IP.Base.Bytes IP.DM.Value IP.Xform.Transform IP.Proofs.BytesFacts.
From Coq Require Import Lia Permutation.
Open Scope Z_scope.

Lemma xb_eqb_neq a b : bytes_eqb a b = false <-> a <> b.
Proof. exact (bytes_eqb_neq a b). Qed.

Definition extends (a b : store) : Prop := forall c v, lookup c a = Some v -> lookup c b = Some v.

Lemma extends_refl a : extends a a.
Proof. now intros c v. Qed.
Lemma extends_trans a b c : extends a b -> extends b c -> extends a c.
Proof. intros H1 H2 k v H. now apply H2, H1. Qed.

Lemma put_extends c b st : extends st (put c b st).
Proof.
  intros k v H. unfold put. destruct (lookup c st) eqn:E; [exact H|].
  simpl. destruct (bytes_eqb k c) eqn:Ek; [|exact H].
  apply bytes_eqb_eq in Ek; subst. congruence.
Qed.
Lemma put_lookup c b st : exists x, lookup c (put c b st) = Some x /\ (lookup c st = None -> x = b).
Proof.
  unfold put. destruct (lookup c st) eqn:E.
  - exists d. split; [exact E | discriminate].
  - exists b. simpl. now rewrite bytes_eqb_refl.
Qed.

Fixpoint uniqb {A} (m : list (bytes * A)) : bool :=
  match m with
  | [] => true
  | (k, _) :: r => negb (mem_key k r) && uniqb r
  end.

Lemma mem_key_find {A} k (m : list (bytes * A)) : mem_key k m = false <-> find_kv k m = None.
Proof.
  induction m as [|[k' v] r IH]; simpl; [easy|].
  rewrite (bytes_eqb_sym k k'). destruct (bytes_eqb k' k); simpl; [easy | exact IH].
Qed.

Lemma find_kv_map {A B} (g : A -> B) k (m : list (bytes * A)) :
  find_kv k (map (fun kt => (fst kt, g (snd kt))) m) = option_map g (find_kv k m).
Proof.
  induction m as [|[k' v] r IH]; simpl; [easy|]. destruct (bytes_eqb k' k); [easy | exact IH].
Qed.

(* The proofs take a map apart at the first entry under a key, once; what the SPEC does at a key
   ([replace_kv], [remove_kv], a new key appended) is then the same list with another middle. *)
Lemma find_kv_split {A} s (m : list (bytes * A)) c :
  find_kv s m = Some c -> exists a b, m = a ++ (s, c) :: b /\ find_kv s a = None.
Proof.
  induction m as [|[k x] r IH]; simpl; [discriminate|]. destruct (bytes_eqb k s) eqn:E; intro H.
  - inversion H; subst. apply bytes_eqb_eq in E; subst. now exists [], r.
  - destruct (IH H) as (a & b & -> & Ha). exists ((k, x) :: a), b. simpl. now rewrite E.
Qed.
Lemma replace_kv_split {A} s (v c : A) a b :
  find_kv s a = None -> replace_kv s v (a ++ (s, c) :: b) = a ++ (s, v) :: b.
Proof.
  induction a as [|[k x] r IH]; simpl; [now rewrite bytes_eqb_refl|].
  destruct (bytes_eqb k s); [discriminate | intro H; now rewrite IH].
Qed.
Lemma remove_kv_split {A} s (c : A) a b : find_kv s a = None -> remove_kv s (a ++ (s, c) :: b) = a ++ b.
Proof.
  induction a as [|[k x] r IH]; simpl; [now rewrite bytes_eqb_refl|].
  destruct (bytes_eqb k s); [discriminate | intro H; now rewrite IH].
Qed.

Lemma uniqb_NoDup {A} (m : list (bytes * A)) : uniqb m = true <-> NoDup (map fst m).
Proof.
  induction m as [|[k v] r IH]; simpl; [split; [constructor | reflexivity]|].
  rewrite andb_true_iff, negb_true_iff, NoDup_cons_iff, IH, <- mem_key_In, not_true_iff_false. reflexivity.
Qed.

Lemma mem_key_map {A B} (g : A -> B) k (m : list (bytes * A)) :
  mem_key k (map (fun kt => (fst kt, g (snd kt))) m) = mem_key k m.
Proof. induction m as [|[k' v] r IH]; simpl; [easy|]. now rewrite IH. Qed.
Lemma mem_key_app {A} k (a b : list (bytes * A)) : mem_key k (a ++ b) = mem_key k a || mem_key k b.
Proof. induction a as [|[k' v'] r IH]; simpl; [easy|]. now rewrite IH, orb_assoc. Qed.

Lemma uniqb_map {A B} (g : A -> B) (m : list (bytes * A)) :
  uniqb (map (fun kt => (fst kt, g (snd kt))) m) = uniqb m.
Proof. apply eq_true_iff_eq. now rewrite !uniqb_NoDup, map_map. Qed.

Lemma uniqb_middle {A} s (v : A) a b :
  uniqb (a ++ (s, v) :: b) = true <-> uniqb (a ++ b) = true /\ find_kv s (a ++ b) = None.
Proof.
  rewrite !uniqb_NoDup, <- mem_key_find, <- not_true_iff_false, mem_key_In, !map_app.
  exact (NoDup_Add (Add_app s (map fst a) (map fst b))).
Qed.
Lemma uniqb_sort {A} ltb (l : list (bytes * A)) : uniqb l = true -> uniqb (sort_kv ltb l) = true.
Proof. rewrite !uniqb_NoDup. apply Permutation_NoDup, Permutation_map, sort_perm. Qed.

Lemma Forall_opt_list {A} (P : A -> Prop) (o : option A) :
  match o with Some x => P x | None => True end -> Forall P (opt_list o).
Proof. destruct o; simpl; auto. Qed.

Section xt_ind2.
  Variable P : xt -> Prop.
  Hypothesis Hleaf : forall v, P (XLeaf v).
  Hypothesis Hlist : forall l, Forall P l -> P (XList l).
  Hypothesis Hmap : forall m, Forall (fun kt => P (snd kt)) m -> P (XMap m).
  Hypothesis Hblock : forall c t, P t -> P (XBlock c t).
  Fixpoint xt_ind2 (t : xt) : P t :=
    match t with
    | XLeaf v => Hleaf v
    | XList l => Hlist l ((fix go (l : list xt) : Forall P l :=
        match l with [] => Forall_nil _ | x :: r => Forall_cons _ (xt_ind2 x) (go r) end) l)
    | XMap m => Hmap m ((fix go (m : list (bytes * xt)) : Forall (fun kt => P (snd kt)) m :=
        match m with [] => Forall_nil _ | kt :: r => Forall_cons _ (xt_ind2 (snd kt)) (go r) end) m)
    | XBlock c t' => Hblock c t' (xt_ind2 t')
    end.
End xt_ind2.

Definition is_container (v : dm) : bool := match v with DList _ | DMap _ => true | _ => false end.

(* unique keys in every map (as every real node has) *)
Fixpoint wf_dm (v : dm) : bool :=
  match v with
  | DList l => forallb wf_dm l
  | DMap m => uniqb m && forallb (fun kv => wf_dm (snd kv)) m
  | _ => true
  end.

Inductive wfx : xt -> Prop :=
| W_leaf v : is_container v = false -> wfx (XLeaf v)
| W_list l : Forall wfx l -> wfx (XList l)
| W_map m : uniqb m = true -> Forall (fun kt => wfx (snd kt)) m -> wfx (XMap m)
| W_block c t : wfx t -> wfx (XBlock c t).

Inductive valid (st : store) : xt -> Prop :=
| V_leaf v : valid st (XLeaf v)
| V_list l : Forall (valid st) l -> valid st (XList l)
| V_map m : Forall (fun kt => valid st (snd kt)) m -> valid st (XMap m)
| V_block c t : lookup c st = Some (raw t) -> valid st t -> valid st (XBlock c t).

Lemma valid_mono st st' t : extends st st' -> valid st t -> valid st' t.
Proof.
  intros He. induction t using xt_ind2; intro Hv; inversion Hv; subst; constructor; auto.
  - rewrite Forall_forall in *. auto.
  - rewrite Forall_forall in *. auto.
Qed.
Lemma valid_list_mono st st' l : extends st st' -> valid st (XList l) -> Forall (valid st') l.
Proof. intros He Hv. apply (valid_mono _ _ _ He) in Hv. now inversion Hv. Qed.

Lemma raw_inject v : raw (inject v) = v.
Proof.
  induction v using dm_ind2; simpl; try reflexivity; f_equal; rewrite map_map.
  - now apply map_id_Forall.
  - now apply (map_snd_id_Forall (fun x => raw (inject x))).
Qed.
Lemma erase_inject v : erase (inject v) = v.
Proof.
  induction v using dm_ind2; simpl; try reflexivity; f_equal; rewrite map_map.
  - now apply map_id_Forall.
  - now apply (map_snd_id_Forall (fun x => erase (inject x))).
Qed.
Lemma valid_inject st v : valid st (inject v).
Proof. induction v using dm_ind2; simpl; constructor; now rewrite Forall_map. Qed.
Lemma wfx_inject v : wf_dm v = true -> wfx (inject v).
Proof.
  induction v using dm_ind2; simpl; intro Hw; try (now constructor).
  - constructor. rewrite Forall_map. rewrite forallb_forall in Hw. rewrite Forall_forall in *. auto.
  - apply andb_true_iff in Hw as [Hu Hw]. constructor.
    + now rewrite uniqb_map.
    + rewrite Forall_map. rewrite forallb_forall in Hw. rewrite Forall_forall in *. simpl. auto.
Qed.

Lemma wfx_raw_wf t : wfx t -> wf_dm (raw t) = true.
Proof.
  induction t using xt_ind2; intro Hw; inversion Hw as [v0 Hs | l0 Hl | m0 Hu Hm | c0 t0 Ht]; subst; simpl.
  - destruct v; try reflexivity; discriminate.
  - rewrite forallb_forall. intros y Hy. apply in_map_iff in Hy as [x [<- Hx]].
    rewrite Forall_forall in *. auto.
  - rewrite uniqb_map, Hu. simpl. rewrite forallb_forall. intros y Hy.
    apply in_map_iff in Hy as [x [<- Hx]]. rewrite Forall_forall in *. simpl. auto.
  - reflexivity.
Qed.

(* the callback is only ever shown nodes with unique keys; what it hands back must be such too *)
Definition owf (x : option dm) : Prop := match x with Some d => wf_dm d = true | None => True end.

(* cur: the node the descent stands on; None below a node that does not exist yet *)
Definition cur_ok (st : store) (cur : option xt) : Prop :=
  match cur with Some t => valid st t /\ wfx t | None => True end.

Lemma cur_ok_nth st l j : cur_ok st (Some (XList l)) -> cur_ok st (nth_error l j).
Proof.
  intros [Hv Hw]. inversion Hv; inversion Hw; subst.
  destruct (nth_error l j) as [x|] eqn:E; [|exact I]. apply nth_error_In in E.
  rewrite Forall_forall in *. split; auto.
Qed.
Lemma valid_map st m : valid st (XMap m) <-> Forall (fun kt => valid st (snd kt)) m.
Proof. split; [intro H; now inversion H | apply V_map]. Qed.
Lemma wfx_map m : wfx (XMap m) <-> uniqb m = true /\ Forall (fun kt => wfx (snd kt)) m.
Proof. split; [intro H; now inversion H | intros []; now constructor]. Qed.

Lemma valid_middle st s c a b : valid st (XMap (a ++ (s, c) :: b)) <-> valid st c /\ valid st (XMap (a ++ b)).
Proof. rewrite !valid_map, !Forall_app, Forall_cons_iff. simpl. tauto. Qed.
Lemma wfx_middle s c a b :
  wfx (XMap (a ++ (s, c) :: b)) <-> wfx c /\ wfx (XMap (a ++ b)) /\ find_kv s (a ++ b) = None.
Proof. rewrite !wfx_map, uniqb_middle, !Forall_app, Forall_cons_iff. simpl. tauto. Qed.

Lemma cur_ok_block st c t : cur_ok st (Some (XBlock c t)) -> lookup c st = Some (raw t) /\ cur_ok st (Some t).
Proof. intros [Hv Hw]. inversion Hv; inversion Hw; subst. repeat split; assumption. Qed.
Lemma owf_raw st cur : cur_ok st cur -> owf (option_map raw cur).
Proof. destruct cur; [intros [_ Hw]; now apply wfx_raw_wf | exact (fun H => H)]. Qed.

Section Canon.
  Variable ltb : bytes -> bytes -> bool.

  Lemma sort_maps_scalar v : is_container v = false -> sort_maps ltb v = v.
  Proof. destruct v; simpl; try reflexivity; discriminate. Qed.

  Lemma raw_canon_x t : wfx t -> raw (canon_x ltb t) = canon ltb (raw t).
  Proof.
    unfold canon. induction t using xt_ind2; intro Hw; inversion Hw; subst; simpl.
    - symmetry. now apply sort_maps_scalar.
    - f_equal. rewrite !map_map. apply map_ext_in. intros x Hx.
      rewrite Forall_forall in H, H1. auto.
    - f_equal.
      rewrite <- (sort_map_snd ltb raw). rewrite !map_map. simpl.
      f_equal. apply map_ext_in. intros x Hx. rewrite Forall_forall in H, H2. f_equal. auto.
    - reflexivity.
  Qed.

  Lemma valid_canon_x st t : valid st t -> valid st (canon_x ltb t).
  Proof.
    induction t using xt_ind2; intro Hv; inversion Hv; subst; simpl; try assumption; constructor.
    - rewrite Forall_map. rewrite Forall_forall in *. auto.
    - rewrite <- sort_perm, Forall_map. simpl. rewrite Forall_forall in *. auto.
  Qed.

  Lemma wfx_canon_x t : wfx t -> wfx (canon_x ltb t).
  Proof.
    induction t using xt_ind2; intro Hw; inversion Hw; subst; simpl; try assumption; constructor.
    - rewrite Forall_map. rewrite Forall_forall in *. auto.
    - apply uniqb_sort. now rewrite uniqb_map.
    - rewrite <- sort_perm, Forall_map. simpl. rewrite Forall_forall in *. auto.
  Qed.
End Canon.
