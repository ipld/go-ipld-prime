(* Proofs/NodeSeg.v — strconv.ParseInt (FormatInt i) = i on int64 (as modelled); from it
   C01_segment_forms_agree (Props/C01.v): a list index given as PathSegmentOfInt(i) and as
   PathSegmentOfString(FormatInt(i)) addresses the same element. *)
Require Import IP.Base.Bytes IP.DM.Value IP.Node.Basic IP.Proofs.Decimal.
Open Scope N_scope.

Lemma parse_digits_dval : forall ds a, Forall digit ds -> parse_digits ds a = Some (dval ds a).
Proof.
  induction ds as [|c r IH]; intros a H; [reflexivity|]. inversion H as [|? ? [H1 H2] Hr]; subst.
  cbn [parse_digits dval]. apply N.leb_le in H1, H2. rewrite H1, H2. apply IH, Hr.
Qed.

Lemma fmt_dec_parse : forall n, n < 10 ^ 20 ->
  exists c ds, fmt_dec 20 n [] = c :: ds /\ digit c /\ parse_udec (c :: ds) = Some n.
Proof.
  (* FormatInt is run with fuel 20 (Basic.format_int); [digits10_spec] takes the fuel as S f and
     asks for n < 10 ^ (S f); an int64 magnitude is at most 2^63 < 10^19, so the bound is never tight *)
  intros n Hn. destruct (digits10_spec 19 n [] Hn) as (d & D & E & Hd & HD & _ & _ & V).
  exists (48 + d), D. rewrite app_nil_r in E. assert (Hc : digit (48 + d)) by (unfold digit; lia).
  split; [exact E|]. split; [exact Hc|]. unfold parse_udec. rewrite parse_digits_dval, V; auto.
Qed.

Theorem parse_format : forall z, (- two63z <= z < two63z)%Z -> parse_int (format_int z) = Some z.
Proof.
  intros z Hz. unfold format_int. unfold two63z in Hz.
  destruct (z <? 0)%Z eqn:E.
  - apply Z.ltb_lt in E.
    assert (Hn : Z.to_N (- z) < 10 ^ 20) by (change (10 ^ 20) with 100000000000000000000; lia).
    destruct (fmt_dec_parse _ Hn) as (c & ds & Hf & Hc & Hp). rewrite Hf.
    unfold parse_int. change (45 =? 43) with false. change (45 =? 45) with true. cbv iota.
    rewrite Hp.
    assert (El : (Z.to_N (- z) <=? two63) = true) by (apply N.leb_le; unfold two63; lia).
    rewrite El. f_equal. lia.
  - apply Z.ltb_ge in E.
    assert (Hn : Z.to_N z < 10 ^ 20) by (change (10 ^ 20) with 100000000000000000000; lia).
    destruct (fmt_dec_parse _ Hn) as (c & ds & Hf & [Hc1 Hc2] & Hp). rewrite Hf.
    unfold parse_int.
    assert (E1 : (c =? 43) = false) by (apply N.eqb_neq; lia).
    assert (E2 : (c =? 45) = false) by (apply N.eqb_neq; lia).
    rewrite E1, E2. rewrite Hp.
    assert (El : (Z.to_N z <? two63) = true) by (apply N.ltb_lt; unfold two63; lia).
    rewrite El. f_equal. lia.
Qed.
