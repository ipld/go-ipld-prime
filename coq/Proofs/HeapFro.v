(* "Loads frozen cells only", as a judgment on programs.  [fro tg h Q p]: in the state
   (tg, h) the program [p] loads frozen cells only, uses of a reader cell nothing but what survives a move
   of its position, stores and allocates nothing, and returns values that satisfy [Q].  Two consequences:
   run now, [p] meets the specification whose postcondition is [Q] in this state ([fro_wp]); run in any later state
   it returns the same ([fro_later]).  The accessors of finished nodes are such programs (HeapOps.acc_fro). *)
Require Import IP.Base.Bytes IP.DM.Value IP.Heap.GoMem IP.Heap.BasicHeap.
Require Import IP.Proofs.BytesFacts IP.Proofs.HeapMem IP.Proofs.HeapLogic IP.Proofs.HeapSteps.
From Coq Require Import List Arith Bool.
Import ListNotations.
Local Open Scope nat_scope.

Section Fro.
  Variables (tg : tags) (h : mheap).

  Inductive fro {A} (Q : A -> Prop) : mprog A -> Prop :=
  | fro_ret : forall a, Q a -> fro Q (Ret a)
  | fro_crash : fro Q Crash
  | fro_rd : forall x k c, tg x = TFrozen -> hget h x = Some c ->
      (forall c', cell_eqv c c' -> k c' = k c) -> fro Q (k c) -> fro Q (Rd x k).

  Lemma fro_rd_plain : forall A (Q : A -> Prop) x k c, tg x = TFrozen -> hget h x = Some c ->
    (forall r, c <> CRdr r) -> fro Q (k c) -> fro Q (Rd x k).
  Proof.
    intros * Tx G N Hk. eapply fro_rd; eauto. intros c' E. apply cell_eqv_nonrdr in E; [subst; reflexivity | assumption].
  Qed.

  Lemma fro_bind : forall A B (Q1 : A -> Prop) (Q : B -> Prop) (p : mprog A) (f : A -> mprog B),
    fro Q1 p -> (forall a, Q1 a -> fro Q (f a)) -> fro Q (pbind p f).
  Proof.
    induction 1 as [a Ha| |x k c Tx G E Hk IH]; cbn; intros Hf; auto using fro_crash.
    eapply fro_rd; eauto. intros c' Ec. rewrite (E c' Ec). reflexivity.
  Qed.

  Lemma fro_wp : forall A (Q : A -> assertion) (p : mprog A), fro (fun a => Q a tg h) p -> wp p Q tg h.
  Proof. induction 1; [apply wp_ret; assumption | apply wp_crash | eapply wp_rd_at; eauto]. Qed.

  Lemma fro_later : forall A (Q : A -> Prop) (p : mprog A), fro Q p -> forall tg' h', Ext tg h tg' h' ->
    forall ar, fst (exec ar p h) = fst (exec ar p h').
  Proof.
    induction 1 as [a Ha| |x k c Tx G E Hk IH]; intros tg' h' HE ar; try reflexivity.
    destruct (ext_cell _ _ _ _ _ _ HE Tx G) as (c' & G' & Ec). rewrite !exec_rd, G, G', (E c' Ec). eapply IH; eauto.
  Qed.

  Hypothesis HI : Inv tg h.

  Lemma read_bytes_fro : forall s, bslice_ok tg h s -> fro (fun _ => True) (read_bytes s).
  Proof.
    intros s. unfold read_bytes, bslice_ok. destruct (s_arr s); [|constructor; exact I].
    intros [Tb [bs G]]. eapply fro_rd_plain; eauto; [discriminate | constructor; exact I].
  Qed.

  Lemma read_slice_fro : forall s, slice_ok tg h TFrozen s -> fro (Forall (slot_ok tg h)) (read_slice s).
  Proof.
    intros s. unfold read_slice, slice_ok. destruct (s_arr s); [|repeat constructor].
    intros [Tb [l G]]. pose proof (inv_frozen_at _ _ _ _ HI Tb G) as Fc.
    eapply fro_rd_plain; eauto; [discriminate|]. constructor. apply Forall_firstn, Forall_skipn. exact Fc.
  Qed.

  Lemma rd_content_fro : forall fuel x, tg x = TFrozen /\ (exists rd, hget h x = Some (CRdr rd)) ->
    fro (fun _ => True) (rd_content fuel x).
  Proof.
    induction fuel; intros x [Tx [rd Gx]]; cbn [rd_content]; [constructor|].
    pose proof (inv_frozen_at _ _ _ _ HI Tx Gx) as Fc.
    eapply fro_rd; eauto.
    - intros [| | | |rd'] Ec; cbn in Ec; try contradiction.
      destruct rd, rd'; cbn in Ec; try contradiction; [subst | destruct Ec as (-> & -> & ->) |]; reflexivity.
    - destruct rd; cbn in *; [apply read_bytes_fro; exact Fc | | constructor].
      eapply fro_bind; [apply IHfuel; exact Fc | intros; constructor; exact I].
  Qed.
End Fro.
