(* Induction principle for selectors, the inner loops of Selector.v and QuirkFree.v under names, and basic facts
   about Match and Explore. *)
Require Import IP.Base.Bytes IP.DM.Value IP.Trav.Selector IP.Trav.Walk IP.Trav.Controls IP.Trav.QuirkFree.
Open Scope Z_scope.

Section sel_ind2.
  Variable P : sel -> Prop.
  Hypothesis Hm : forall sl, P (SMatch sl).
  Hypothesis Ha : forall nx, P nx -> P (SAll nx).
  Hypothesis Hf : forall fs, Forall (fun kv => P (snd kv)) fs -> P (SFields fs).
  Hypothesis Hi : forall i nx, P nx -> P (SIndex i nx).
  Hypothesis Hr : forall a b nx, P nx -> P (SRange a b nx).
  Hypothesis Hu : forall ms, Forall P ms -> P (SUnion ms).
  Hypothesis Hrec : forall sq cur lim stop, P sq -> P cur -> P (SRec sq cur lim stop).
  Hypothesis He : P SEdge.
  Fixpoint sel_ind2 (s : sel) : P s :=
    match s with
    | SMatch sl => Hm sl
    | SAll nx => Ha nx (sel_ind2 nx)
    | SFields fs => Hf fs ((fix go (l : list (bytes * sel)) : Forall (fun kv => P (snd kv)) l :=
                              match l with [] => Forall_nil _ | kv :: r => Forall_cons _ (sel_ind2 (snd kv)) (go r) end) fs)
    | SIndex i nx => Hi i nx (sel_ind2 nx)
    | SRange a b nx => Hr a b nx (sel_ind2 nx)
    | SUnion ms => Hu ms ((fix go (l : list sel) : Forall P l :=
                             match l with [] => Forall_nil _ | x :: r => Forall_cons _ (sel_ind2 x) (go r) end) ms)
    | SRec sq cur lim stop => Hrec sq cur lim stop (sel_ind2 sq) (sel_ind2 cur)
    | SEdge => He
    end.
End sel_ind2.

Lemma flat_map_ext_in {A B} (f g : A -> list B) l : (forall x, In x l -> f x = g x) -> flat_map f l = flat_map g l.
Proof.
  induction l as [|x l IH]; intros H; [reflexivity|]. cbn. rewrite (H x (or_introl eq_refl)), IH; [reflexivity|].
  intros; apply H; right; assumption.
Qed.

Lemma map_flat_map_ext_in {A B C} (h : B -> C) (f g : A -> list B) l :
  (forall x, In x l -> map h (f x) = map h (g x)) -> map h (flat_map f l) = map h (flat_map g l).
Proof.
  induction l as [|x l IH]; intros H; [reflexivity|]. cbn. rewrite !map_app, (H x (or_introl eq_refl)), IH; [reflexivity|].
  intros; apply H; right; assumption.
Qed.

Lemma assoc_In {V} k (l : list (bytes * V)) v : assoc k l = Some v -> exists k', In (k', v) l.
Proof.
  induction l as [|[k' v'] l IH]; cbn; [discriminate|].
  destruct (bytes_eqb k k'); [intros H; inversion H; subst; eauto|].
  intros H. destruct (IH H) as [k'' Hk]. eauto.
Qed.

Lemma assoc_Forall {V} (P : V -> Prop) k (l : list (bytes * V)) v :
  Forall (fun kv => P (snd kv)) l -> assoc k l = Some v -> P v.
Proof.
  intros H Ha. destruct (assoc_In _ _ _ Ha) as [k' Hin]. rewrite Forall_forall in H. exact (H _ Hin).
Qed.
Lemma assoc_forallb {V} (p : V -> bool) k (l : list (bytes * V)) v :
  forallb (fun kv => p (snd kv)) l = true -> assoc k l = Some v -> p v = true.
Proof. rewrite forallb_forall, <- Forall_forall. apply (assoc_Forall (fun x => p x = true)). Qed.

(* Selector.v and QuirkFree.v write the loops over union members and field lists as anonymous inner fixpoints.
   Stated over a list function of the same shape, each equation below holds by conversion. *)
Section Loops.
  Variables (q : quirks) (n : dm) (p : seg).
  Fixpoint explore_all (ms : list sel) : xr (list sel) :=
    match ms with
    | [] => XOk []
    | m :: t => match explore q m n p with
                | XOk r => match explore_all t with
                           | XOk rs => XOk (match r with Some x => x :: rs | None => rs end)
                           | XErr => XErr
                           | XPanic => XPanic
                           end
                | XErr => XErr
                | XPanic => XPanic
                end
    end.
  Fixpoint match_any (ms : list sel) : option dm :=
    match ms with [] => None | m :: t => match match_sel m n with Some r => Some r | None => match_any t end end.
End Loops.
Lemma explore_union q ms n p :
  explore q (SUnion ms) n p =
  match explore_all q n p ms with XOk l => XOk (union_of l) | XErr => XErr | XPanic => XPanic end.
Proof. reflexivity. Qed.
Lemma union_of_closed (Q : sel -> Prop) rs c :
  (forall m t, Forall Q (m :: t) -> Q (SUnion (m :: t))) -> Forall Q rs -> union_of rs = Some c -> Q c.
Proof.
  intros HU H E. destruct rs as [|x [|y t]]; cbn in E; inversion E; subst; [inversion H; assumption|apply HU, H].
Qed.
Lemma match_sel_union ms n : match_sel (SUnion ms) n = match_any n ms.
Proof. reflexivity. Qed.

(* replaceRecursiveEdge and the repaired wrapping rewrite a union member by member and drop the members that come
   back nil *)
Section Omap.
  Context {A B : Type} (f : A -> option B).
  Fixpoint omap (l : list A) : list B :=
    match l with [] => [] | m :: t => match f m with Some m' => m' :: omap t | None => omap t end end.
  Lemma Forall_omap (Q : B -> Prop) l : (forall x c, In x l -> f x = Some c -> Q c) -> Forall Q (omap l).
  Proof.
    induction l as [|x l IH]; intros H; [constructor|]. cbn [omap].
    assert (Hl : Forall Q (omap l)) by (apply IH; intros y c Hy; apply H; right; exact Hy).
    destruct (f x) as [c|] eqn:E; [constructor; [exact (H x c (or_introl eq_refl) E)|exact Hl]|exact Hl].
  Qed.
  Lemma flat_map_omap {C} (g : B -> list C) l :
    flat_map g (omap l) = flat_map (fun x => match f x with Some y => g y | None => [] end) l.
  Proof. induction l as [|x l IH]; [reflexivity|]. cbn [omap flat_map]. rewrite <- IH. destruct (f x); reflexivity. Qed.
End Omap.
Lemma wrap_members_union sq lim stop m ms :
  wrap_members sq lim stop (SUnion (m :: ms)) = union_of (omap (wrap_members sq lim stop) (m :: ms)).
Proof. reflexivity. Qed.
Lemma replace_edge_union r ms : replace_edge (SUnion ms) r = union_of (omap (fun m => replace_edge m r) ms).
Proof. reflexivity. Qed.

Fixpoint interests_all (ms : list sel) : option (list seg) :=
  match ms with
  | [] => Some []
  | m :: t => match interests m, interests_all t with Some a, Some b => Some (a ++ b) | _, _ => None end
  end.
Lemma interests_union ms : interests (SUnion ms) = interests_all ms.
Proof. reflexivity. Qed.

Lemma dedup_segs_cons seen p r :
  dedup_segs seen (p :: r) =
  if mem_bytes (seg_string p) seen then dedup_segs seen r else p :: dedup_segs (seg_string p :: seen) r.
Proof. reflexivity. Qed.

Lemma has_edge_union ms : has_edge (SUnion ms) = existsb has_edge ms.
Proof. reflexivity. Qed.
Lemma all_edges_union m ms : all_edges (SUnion (m :: ms)) = forallb all_edges (m :: ms).
Proof. reflexivity. Qed.
Lemma emptyrep_union m ms : emptyrep (SUnion (m :: ms)) = forallb emptyrep (m :: ms).
Proof. reflexivity. Qed.
Lemma noempty_union m ms : noempty (SUnion (m :: ms)) = forallb noempty (m :: ms).
Proof. reflexivity. Qed.
Lemma noempty_fields fs : noempty (SFields fs) = forallb (fun kv => noempty (snd kv)) fs.
Proof. reflexivity. Qed.
Lemma nsd_union ms : nsd_rec (SUnion ms) = forallb nsd_rec ms.
Proof. reflexivity. Qed.
Lemma nsd_fields fs : nsd_rec (SFields fs) = forallb (fun kv => nsd_rec (snd kv)) fs.
Proof. reflexivity. Qed.
Lemma quirk_free_union q ms n p : quirk_free q (SUnion ms) n p = forallb (fun m => quirk_free q m n p) ms.
Proof. reflexivity. Qed.
Lemma ed_union d ms : edge_depths d (SUnion ms) = flat_map (edge_depths d) ms.
Proof. reflexivity. Qed.
Lemma ed_fields d fs : edge_depths d (SFields fs) = flat_map (fun kv => edge_depths (S d) (snd kv)) fs.
Proof. reflexivity. Qed.

(* What replaceRecursiveEdge keeps.  P is asked of the selector it is applied to and passes to union members; Q is
   concluded of the result: of the replacement, of every member that is neither edge nor union (from P), of unions. *)
Definition leaf (s : sel) : bool := match s with SEdge | SUnion _ => false | _ => true end.
Lemma replace_edge_pres (P Q : sel -> Prop) r :
  (forall m t, Forall Q (m :: t) -> Q (SUnion (m :: t))) ->
  (forall l, P (SUnion l) -> Forall P l) ->
  (forall s, leaf s = true -> P s -> Q s) ->
  (forall x, r = Some x -> Q x) ->
  forall nx c, P nx -> replace_edge nx r = Some c -> Q c.
Proof.
  intros HU HI Hleaf Hr.
  induction nx as [sl|nx IH|fs IH|i nx IH|a b nx IH|ms IH|sq cur lim stop IH1 IH2|] using sel_ind2;
    intros c Hp E; try (inversion E; subst; apply Hleaf; [reflexivity|exact Hp]).
  - rewrite replace_edge_union in E. apply HI in Hp. refine (union_of_closed Q _ c HU _ E).
    rewrite Forall_forall in IH, Hp. apply Forall_omap. intros x c' Hx. exact (IH x Hx c' (Hp x Hx)).
  - apply Hr, E.
Qed.

Lemma replace_some_not_none r s : has_edge s = true -> replace_edge s (Some r) <> None.
Proof.
  induction s as [sl|nx IH|fs IH|i nx IH|a b' nx IH|ms IH|sq cur lim stop IH1 IH2|] using sel_ind2;
    intros H; try discriminate.
  rewrite has_edge_union in H. rewrite replace_edge_union.
  assert (E : omap (fun m => replace_edge m (Some r)) ms <> []).
  { induction IH as [|m t Hx _ IHt]; [discriminate|]. cbn in H. cbn [omap]. destruct (has_edge m) eqn:Em.
    - specialize (Hx eq_refl). destruct (replace_edge m (Some r)); [discriminate|]. exfalso. apply Hx; reflexivity.
    - destruct (replace_edge m (Some r)); [discriminate|]. apply IHt; assumption. }
  destruct (omap _ ms) as [|x [|y t]]; [congruence|discriminate|discriminate].
Qed.

Lemma match_sel_shape s : forall n m, match_sel s n = Some m -> m = n \/ exists ft, slice_node ft n = Some m.
Proof.
  induction s as [sl|nx IH|fs IH|i nx IH|a b nx IH|ms IH|sq cur lim stop IH1 IH2|] using sel_ind2;
    intros n m H; try discriminate.
  - destruct sl as [ft|]; cbn in H; [right; exists ft; exact H|left; congruence].
  - rewrite match_sel_union in H. induction IH as [|x t Hx Ht IHt]; [discriminate|].
    cbn in H. destruct (match_sel x n) eqn:E; [inversion H; subst; apply Hx; exact E|apply IHt; exact H].
  - cbn in H. apply IH2; exact H.
Qed.

Definition conts (s : sel) : list sel :=
  match s with
  | SAll nx | SIndex _ nx | SRange _ _ nx => [nx]
  | SFields fs => map snd fs
  | _ => []
  end.
(* the second hypothesis says that the clause hands p down to its continuations; it holds by conversion for noempty,
   nsd_rec, norec *)
Lemma conts_forallb (p : sel -> bool) s s' :
  p s = true ->
  match s with
  | SAll nx | SIndex _ nx | SRange _ _ nx => p s = p nx
  | SFields fs => p s = forallb (fun kv => p (snd kv)) fs
  | _ => True
  end -> In s' (conts s) -> p s' = true.
Proof.
  destruct s; cbn [conts]; intros H Heq Hin; try (destruct Hin as [<-|[]]; rewrite <- Heq; exact H); try destruct Hin.
  rewrite Heq, forallb_forall in H. apply in_map_iff in Hin. destruct Hin as (kv & <- & Hin). exact (H _ Hin).
Qed.
