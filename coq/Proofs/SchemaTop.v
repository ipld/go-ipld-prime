(* Proofs/SchemaTop.v — the property-level statements of C08 / C09 / C13 assembled from the step
   developments (SchemaBuild, SchemaRepr, SchemaRound) at the fuel the model runs with, and the full statements
   about the pinned tree ([accept_iff_pinned], [no_panic_pinned], [equiv_pinned]), which fail. *)
Require Import IP.Base.Bytes IP.DM.Value IP.Schema.Types IP.Schema.View IP.Schema.Conform IP.Schema.Sem
  IP.Proofs.SchemaBase IP.Proofs.SchemaBuild IP.Proofs.SchemaRepr IP.Proofs.SchemaRound IP.Proofs.SchemaRefute.
From Coq Require Import Lia.
Open Scope N_scope.

Lemma ov_to_dm_of_dm d : ov_to_dm (ov_of_dm d) = Some d.
Proof.
  induction d using dm_ind2; try reflexivity.
  - cbn [ov_of_dm ov_to_dm].
    match goal with |- context [?f (indexed 0%Z _)] => set (go := f) end.
    assert (G : forall i, (0 <= i)%Z -> go (indexed i (map ov_of_dm l)) = Some l).
    { induction H as [|x l Hx Hl IH]; intros i Hi; [reflexivity|].
      cbn [map indexed]. unfold go. cbn [fst snd]. fold go.
      replace (i =? lookup_only)%Z with false by (unfold lookup_only; symmetry; apply Z.eqb_neq; lia).
      rewrite Hx, IH by lia. reflexivity. }
    now rewrite G by lia.
  - cbn [ov_of_dm ov_to_dm].
    match goal with |- context [?f (map _ m)] => set (go := f) end.
    assert (G : go (map (fun kv => (fst kv, ov_of_dm (snd kv))) m) = Some m).
    { induction H as [|[k x] l Hx Hl IH]; [reflexivity|].
      cbn [map]. unfold go. cbn [fst snd]. fold go. cbn [snd] in Hx. rewrite Hx, IH. reflexivity. }
    now rewrite G.
Qed.

Theorem views_top e q t v : views_off e q -> wf t = true -> has_type t v = true ->
  repr_view e q t v = ov_of_dm (repr_spec t v) /\
  repr e q t v = Some (repr_spec t v) /\
  type_view e q t v = tview_spec t v.
Proof.
  intros Hv Hwf Hh.
  assert (E : repr_view e q t v = ov_of_dm (repr_spec t v)) by (apply views_ok; auto).
  repeat split; auto.
  - unfold repr. rewrite E. apply ov_to_dm_of_dm.
  - apply tview_ok; auto. apply Hv.
Qed.

Lemma repr_round_top t v : wf t = true -> has_type t v = true -> conforms_r t (repr_spec t v) = Some v.
Proof. intros Hwf Hh. exact (repr_round (fuel_of t) t v Hh Hwf). Qed.

Lemma tdm_round_top t v : wf t = true -> has_type t v = true -> conforms_t t (tdm_spec t v) = Some v.
Proof. intros Hwf Hh. exact (tdm_round (fuel_of t) t v Hh Hwf). Qed.

Theorem accept_iff_top e t d v : wf t = true ->
  (rbuild e qoff t d = BOk v <-> conforms_r t d = Some v) /\
  (tbuild e qoff t d = BOk v <-> conforms_t t d = Some v).
Proof.
  intros Hwf. split; apply sim_iff; [apply rbuild_sim|apply tbuild_sim]; auto using strict_qoff.
Qed.

Theorem two_routes_top e t v : wf t = true -> has_type t v = true ->
  tbuild e qoff t (tdm_spec t v) = BOk v /\ rbuild e qoff t (repr_spec t v) = BOk v /\
  conforms_t t (tdm_spec t v) = Some v /\ conforms_r t (repr_spec t v) = Some v.
Proof.
  intros Hwf Hh.
  pose proof (repr_round_top t v Hwf Hh) as Hr. pose proof (tdm_round_top t v Hwf Hh) as Ht.
  repeat split; [apply (accept_iff_top e t _ v Hwf)|apply (accept_iff_top e t _ v Hwf)|..]; assumption.
Qed.

(* [reproduced] holds of a representation whose maps are in the codec's canonical order.  The last conjunct
   of the conclusion repeats the encoding hypothesis: the rebuilt value being v itself, its bytes are the
   bytes one started from *)
Section Bytes.
  Variable encode : dm -> option bytes.
  Variable decode : bytes -> option dm.

  Definition reproduced (d : dm) : Prop := forall bs, encode d = Some bs -> decode bs = Some d.

  Theorem bytes_top e t v bs : wf t = true -> has_type t v = true ->
    reproduced (repr_spec t v) ->
    match repr e qoff t v with Some d => encode d | None => None end = Some bs ->
    exists d', decode bs = Some d' /\ rbuild e qoff t d' = BOk v /\
               match repr e qoff t v with Some d => encode d | None => None end = Some bs.
  Proof.
    intros Hwf Hh Hrep Henc.
    destruct (views_top e qoff t v (views_off_qoff e) Hwf Hh) as [_ [Hr _]].
    rewrite Hr in *. exists (repr_spec t v). repeat split; auto.
    now apply two_routes_top.
  Qed.
End Bytes.

Theorem no_panic_top e t d : wf t = true ->
  rbuild e qoff t d <> BPanic /\ tbuild e qoff t d <> BPanic.
Proof.
  intros Hwf. split; eapply sim_no_panic; [apply rbuild_sim|apply tbuild_sim]; auto using strict_qoff.
Qed.

Theorem reject_top e t d : wf t = true ->
  (conforms_r t d = None -> exists c, rbuild e qoff t d = BErr c) /\
  (conforms_t t d = None -> exists c, tbuild e qoff t d = BErr c).
Proof.
  intros Hwf. split; intros Hn; apply sim_reject; rewrite <- Hn;
    [apply rbuild_sim|apply tbuild_sim]; auto using strict_qoff.
Qed.

(* under [pinned] — the switch setting that stands for /repo at its snapshot 3e45851, before any fix — the
   full statements are false (for [equiv_pinned]: C13_full_refuted in Props/C13.v) *)
Definition accept_iff_pinned : Prop :=
  forall t d v, wf t = true -> (rbuild Bind pinned t d = BOk v <-> conforms_r t d = Some v).

Lemma accept_iff_pinned_false : ~ accept_iff_pinned.
Proof.
  intros H. destruct refuted_dup_field as [Hwf [[v Hv] Hn]].
  apply (H _ _ v Hwf) in Hv.
  assert (E : Some v = None) by (rewrite <- Hv; exact Hn). discriminate E.
Qed.

Definition no_panic_pinned : Prop := forall t d, wf t = true -> rbuild Bind pinned t d <> BPanic.

Lemma no_panic_pinned_false : ~ no_panic_pinned.
Proof. intros H. destruct refuted_listpairs_unknown_panic as [Hwf Hp]. exact (H _ _ Hwf Hp). Qed.

Definition equiv_pinned : Prop :=
  forall lvl t d, wf t = true -> gen_supported t = true ->
    bres_sim (observe Bind pinned lvl t d) (observe Gen pinned lvl t d).
