(* Proofs/CborBound.v — C10 (decoder part): the value a successful decode builds is no deeper than the configured
   maximum and [cost v] never exceeds the allocation budget.  Both are read off CborDec.dec_rel: a container is only
   entered below the maximum, the decoder charges exactly [cost v], and a charge the budget cannot bear is an error. *)
Require Import IP.Base.Bytes IP.DM.Value IP.Codec.Cid IP.Codec.Cbor IP.Gen.FromGo.
Require Import IP.Proofs.BytesFacts IP.Proofs.CborEnc IP.Proofs.CborRel IP.Proofs.CborDec.
From Coq Require Import ZifyN ZifyNat ZifyBool.
Open Scope N_scope.

Section Bound.
  Variable o : dopts.
  Local Notation maxd := (max_depth o).

  Definition okb (bud b : Z) (pre : option Z) (c : Z) : Prop :=
    (b = bud - pcost pre - c)%Z /\ (0 <= pcost pre + c -> 0 < pcost pre + c -> 0 <= b)%Z.

  Theorem decode_bounded bs v rest : decode o bs = Ok (v, rest) ->
    (Z.of_nat (dm_depth v) <= maxd)%Z /\ (0 <= budget0 o -> cost v <= budget0 o)%Z.
  Proof.
    intros H. apply decode_ok_rel in H as (_ & Hd & Hb & _). auto.
  Qed.
End Bound.
