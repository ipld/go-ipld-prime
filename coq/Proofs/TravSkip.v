(* C15, SkipMe: when the unrestricted walk completes, the walk whose loader answers SkipMe for the links in K yields
   exactly the unrestricted trace minus the events beneath a skipped link (the load attempt of the skipped link
   itself stays): skip_closed. *)
Require Import IP.Base.Bytes IP.DM.Value IP.Trav.Selector IP.Trav.Walk IP.Trav.Controls IP.Trav.ControlsSpec
  IP.Proofs.TravFacts IP.Proofs.TravCtl.
From Coq Require Import Lia.
Open Scope Z_scope.

Definition skip_ctl (k : list bytes) : ctl := {| c_start := []; c_once := false; c_skip := k |}.

Lemma skip_spec_app k a b : skip_spec k (a ++ b) = skip_spec k a ++ skip_spec k b.
Proof. apply filter_app. Qed.

Lemma skip_spec_cons K ev t :
  skip_spec K (ev :: t) =
  if existsb (fun c => mem_bytes c K) (ev_stack ev) then skip_spec K t else ev :: skip_spec K t.
Proof. unfold skip_spec, under_skipped. cbn [filter]. destruct (existsb _ (ev_stack ev)); reflexivity. Qed.

(* below a skipped link the specification keeps nothing of the plain trace (and the skipping walk does not get
   there); elsewhere the skipping walk yields what the specification keeps *)
Definition skip_rel (K ls : list bytes) (y : res) (st : wst) (r : cres) : Prop :=
  w_budget st = None -> forall t, y = (t, OOk) ->
  if existsb (fun c => mem_bytes c K) ls then skip_spec K t = [] else r = (skip_spec K t, OOk, st).

Lemma skip_closed K : ctl_closed (skip_ctl K) (skip_rel K).
Proof.
  unfold skip_rel. split; [|split; [|split]].
  - intros ls o st _ t H. inversion H. destruct (existsb _ ls); reflexivity.
  - intros ls [e1 o1] [e2 o2] x2 st r1 H1 H2 Hb t H. destruct o1; try discriminate. inversion H; subst.
    specialize (H1 Hb e1 eq_refl). specialize (H2 st Hb e2 eq_refl). rewrite skip_spec_app.
    destruct (existsb _ ls); [rewrite H1; exact H2|]. rewrite H1. cbn [cthen]. rewrite H2. reflexivity.
  - intros ls ev e o x st _ Hs Hx Hb t H. inversion H; subst. specialize (Hx st Hb e eq_refl).
    rewrite skip_spec_cons. destruct (existsb _ (ev_stack ev)); [exact Hx|].
    unfold check_node. rewrite Hb, Hx. reflexivity.
  - intros ls P l e o x st Hx Hb t H. inversion H; subst. specialize (Hx st Hb e eq_refl). cbn [existsb] in Hx.
    rewrite skip_spec_cons. cbn [ev_stack]. destruct (existsb _ ls).
    + rewrite orb_true_r in Hx. exact Hx.
    + rewrite orb_false_r in Hx. cbn [c_once skip_ctl andb c_skip]. unfold check_link. rewrite Hb.
      destruct (mem_bytes l K); rewrite Hx; reflexivity.
Qed.

