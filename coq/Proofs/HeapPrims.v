(* Builders, value/key assemblers, the subset matcher and the dispatch of one API call: each preserves
   the ownership invariant, given what [legal] demands. *)
Require Import IP.Base.Bytes IP.DM.Value IP.Gen.FromGo IP.Heap.GoMem IP.Heap.BasicHeap.
Require Import IP.Proofs.HeapMem IP.Proofs.HeapLogic IP.Proofs.HeapSteps IP.Proofs.HeapFro IP.Proofs.HeapOps.
From Coq Require Import List Arith Bool Lia ZArith.
Import ListNotations.
Local Open Scope nat_scope.

Definition a_bslice (s : slice) : assertion := fun tg h => bslice_ok tg h s.

Lemma bytes_cell_ok : forall tg h a v, Inv tg h -> hget h a = Some (CPtr v) -> is_asm_val v ->
  tg a = TAsm /\ asm_ok tg h a v.
Proof. intros; eapply inv_asm; eauto. Qed.

Lemma t_wr_asm : forall A a v (p : mprog A) (P : assertion) (Q : A -> assertion),
  (forall tg h c0, Inv tg h -> P tg h -> hget h a = Some c0 -> tg a = TAsm /\ asm_ok tg h a v) ->
  stable P -> triple P p Q -> triple P (wrv a v p) Q.
Proof.
  intros * Hok Hst T. apply triple_wp. intros tg h HP. apply wp_inv; intros HI. apply wp_wr_some. intros c0 Ga.
  destruct (Hok tg h c0 HI HP Ga) as [Ta Ha]. eapply wp_wr_asm; eauto. intros S.
  eapply triple_wp; [exact T|]. eapply Hst; eauto. exact (proj2 S).
Qed.

Lemma wp_new_frozen_ret : forall B (Q : B -> assertion) tg h c (f : addr -> B), frozen_ok tg h c ->
  (forall x tg1 h1, tg1 x = TFrozen -> hget h1 x = Some c -> Q (f x) tg1 h1) ->
  wp (New c (fun x => Ret (f x))) Q tg h.
Proof.
  intros * Fc HQ. apply (wp_new_data _ _ _ _ _ TFrozen); [exact Fc|]. intros x h1 O1 N1 M1.
  apply wp_ret. auto using set_tag_same.
Qed.

Lemma wp_new_data_wr_done : forall tg h a v c t (vf : addr -> val) (x : pout),
  hget h a = Some (CPtr v) -> is_asm_val v -> data_for t tg h c ->
  (forall s tg1 h1, tg1 s = t -> hget h1 s = Some c -> asm_ok tg1 h1 a (vf s)) ->
  wp (New c (fun s => wrv a (vf s) (Ret x))) tt_post tg h.
Proof.
  intros * Ga Hv Dc Hok. apply (wp_new_data _ _ _ _ _ t); [exact Dc|]. intros s h1 O1 N1 M1.
  eapply wp_asm_done; [exact (M1 _ _ Ga) | exact Hv | auto using set_tag_same].
Qed.

Lemma wp_bytes_assign_node : forall a r w tg h, fref tg h r -> hget h a = Some (CPtr (VBytesB w)) ->
  wp (bytes_assign_node a r) tt_post tg h.
Proof.
  intros a r w tg h HP Ga. unfold bytes_assign_node.
  destruct r as [| | |sl|x| | |d]; try apply wp_crash; try (apply wp_ret; exact I).
  - refine (wp_new_data_wr_done _ _ _ _ (CRdr (RdBytes sl 0)) TFrozen (fun y => VBytesB (RStream y)) _ Ga I HP _).
    intros x tg1 h1 Tx Gx. cbn. eauto.
  - eapply wp_asm_done; [exact Ga | exact I | exact HP].
  - destruct d; try (apply wp_ret; exact I).
    refine (wp_new_data_wr_done _ _ _ _ (CBytes s) TFrozen
              (fun y => VBytesB (RBytesP {| s_arr := Some y; s_off := 0; s_len := length s; s_cap := length s |})) _ Ga I I _).
    intros y tg1 h1 Ty Gy. cbn. unfold bslice_ok; cbn. eauto.
Qed.

Definition handle_ok (hd : handle) : assertion := fun tg h =>
  match hd with
  | HNode r => fref tg h r
  | HSlice s => bslice_ok tg h s
  | HReader x => rdr_at x tg h
  | _ => True
  end.

Definition pout_ok (o : pout) : assertion := fun tg h =>
  match o with
  | POk hd => handle_ok hd tg h
  | PErr _ => True
  | PAcc x => ares_ok x tg h
  end.

Lemma masm0_ok : forall tg h a, masm_ok tg h a masm0.
Proof. intros. unfold masm_ok; cbn. split; [discriminate | split; [discriminate | exact I]]. Qed.
Lemma lasm0_ok : forall tg h a, lasm_ok tg h a lasm0.
Proof. intros. unfold lasm_ok; cbn. split; [discriminate | exact I]. Qed.

Lemma wp_new_builder : forall p tg h, wp (new_builder p) tt_post tg h.
Proof.
  intros p tg h. unfold new_builder. apply wp_inv; intros HI.
  assert (Hasm : forall v, (forall tg1 h1 x, asm_ok tg1 h1 x v) ->
            wp (newv v (fun a => Ret (POk (HBuilder a)))) tt_post tg h).
  { intros v Hv. apply (wp_new _ _ _ _ TAsm); [|intros; apply wp_ret; exact I].
    intros ar x h1 Ha. eapply step_new; eauto. intros tg1 -> HE Gx.
    unfold cell_ok_at. rewrite set_tag_same. eauto. }
  destruct p; unfold newv at 1.
  - apply Hasm. intros. cbn. split; [apply masm0_ok|]. split; [apply lasm0_ok|]. split; [exact I|]. auto.
  - apply wp_new_struct_asm; [exact I | | intros; apply wp_ret; exact I].
    intros s a tg2 h2 Ts Gs. cbn. eapply masm_ok_unfinished; cbn; eauto; try congruence; exact I.
  - apply wp_new_struct_asm; [exact I | | intros; apply wp_ret; exact I].
    intros s a tg2 h2 Ts Gs. cbn. eapply lasm_ok_unfinished; cbn; eauto; try congruence; exact I.
  - apply wp_new_struct_asm; [exact I | | intros; apply wp_ret; exact I].
    intros s a tg2 h2 Ts Gs. cbn. eauto.
  - apply Hasm. intros. exact I.
Qed.

Definition bop_args_ok (o : bop) : assertion := fun tg h =>
  match o with
  | BAssignBytes s => bslice_ok tg h s
  | BAssignNode r => fref tg h r
  | _ => True
  end.

(* what [legal] demands: no Begin on a finished assembler, no second Assign on a scalar builder *)
Definition builder_legal (v : val) (o : bop) : Prop :=
  match v, o with
  | VMapB m, BBeginMap _ => m_st m <> MFinished
  | VListB l, BBeginList _ => l_st l <> LFinished
  | VAnyB _ m l _, BBeginMap _ | VAnyB _ m l _, BBeginList _ => m_st m <> MFinished /\ l_st l <> LFinished
  | VScalB _ _ done, BAssign _ | VScalB _ _ done, BAssignNode _ | VScalB _ _ done, BAssignBytes _ => done = false
  | _, _ => True
  end.

Definition bop_prim (hd : handle) (o : bop) : prim :=
  match o with
  | BBeginMap hint => PBeginMap hd hint
  | BBeginList hint => PBeginList hd hint
  | BAssign v => PAssign hd v
  | BAssignBytes s => PAssignBytes hd (HSlice s)
  | BAssignNode r => PAssignNode hd (HNode r)
  end.

Lemma legal_builder : forall h a o v, legal_heap h (bop_prim (HBuilder a) o) = true -> hget h a = Some (CPtr v) -> builder_legal v o.
Proof.
  intros h a o v Hl Gv. unfold legal_heap, cell_val in Hl.
  destruct o; cbn in Hl; rewrite Gv in Hl; destruct v; cbn; auto;
    try (destruct done; [discriminate | reflexivity]);
    try (intros E; rewrite E in Hl; discriminate);
    (apply andb_true_iff in Hl; destruct Hl as [H1 H2]; split; intros E; rewrite E in *; discriminate).
Qed.

Lemma wp_builder_op : forall cf tg h a o, bop_args_ok o tg h -> legal_heap h (bop_prim (HBuilder a) o) = true ->
  wp (builder_op cf a o) tt_post tg h.
Proof.
  intros cf tg h a o Hargs Hleg. apply wp_inv; intros HI. unfold builder_op.
  apply wp_rdv. intros v Ga. apply legal_builder with (v := v) in Hleg; [|exact Ga].
  destruct v; try apply wp_crash.
  - destruct o; try (apply wp_ret; exact I).
    + eapply wp_map_begin; [exact Ga | reflexivity | exact Hleg].
    + apply wp_map_assign_node; exact Hargs.
  - destruct o; try (apply wp_ret; exact I).
    + eapply wp_list_begin; [exact Ga | reflexivity | exact Hleg].
    + apply wp_list_assign_node; exact Hargs.
  - destruct k; try apply wp_crash.
    destruct (inv_asm _ _ _ _ HI Ga I) as [Ta (Hm & Hl & Hsc & Hd & Hk)].
    destruct (Hk eq_refl) as [Wm Wl].
    assert (Hcarry : forall k' sc', fref tg h sc' ->
              wp (wrv a (VAnyB k' m l sc') (Ret (POk HNone))) tt_post tg h).
    { intros k' sc' Hsc'. eapply wp_asm_done; [exact Ga | exact I |]. cbn. tauto. }
    destruct o.
    + destruct Hleg as [Lm Ll]. unfold newv.
      apply (wp_new_data _ _ _ _ _ (TOwned a)); [exact I|]. intros s h1 O1 N1 M1. pose proof (M1 _ _ Ga) as Ga1. apply wp_inv; intros HI1.
      destruct (inv_asm _ _ _ _ HI1 Ga1 I) as [Ta1 ((F1 & F2 & _) & Hl1 & Hsc1 & _ & _)].
      eapply wp_wr_asm; [exact Ta1 | exact Ga1 | |intros S2].
      { cbn. split; [|split; [assumption|split; [assumption|split; [right; assumption | discriminate]]]].
        eapply masm_ok_unfinished; cbn; eauto using set_tag_same; exact I. }
      eapply wp_map_begin; [eapply hget_hset_same; eauto | reflexivity | exact Lm].
    + destruct Hleg as [Lm Ll]. unfold newv.
      apply (wp_new_data _ _ _ _ _ (TOwned a)); [exact I|]. intros s h1 O1 N1 M1. pose proof (M1 _ _ Ga) as Ga1. apply wp_inv; intros HI1.
      destruct (inv_asm _ _ _ _ HI1 Ga1 I) as [Ta1 (Hm1 & (F1 & _) & Hsc1 & _ & _)].
      eapply wp_wr_asm; [exact Ta1 | exact Ga1 | |intros S2].
      { cbn. split; [assumption|]. split; [|split; [assumption|split; [left; assumption | discriminate]]].
        eapply lasm_ok_unfinished; cbn; eauto using set_tag_same; exact I. }
      eapply wp_list_begin; [eapply hget_hset_same; eauto | reflexivity | exact Ll].
    + destruct v as [|sv]; [exact (Hcarry AKNull sc Hsc)|].
      unfold new_scalar_node, newv. cbn [pbind].
      apply (wp_new_data _ _ _ _ _ TFrozen); [exact I|]. intros x h1 O1 N1 M1. pose proof (M1 _ _ Ga) as Ga1. apply wp_inv; intros HI1.
      destruct (inv_asm _ _ _ _ HI1 Ga1 I) as [Ta1 (Hm1 & Hl1 & Hsc1 & Hd1 & _)].
      eapply wp_asm_done; [exact Ga1 | exact I |]. cbn.
      split; [assumption|split; [assumption|split; [|split; [assumption|discriminate]]]].
      split; [apply set_tag_same | eauto].
    + exact (Hcarry AKCarry (RBytesP s) Hargs).
    + exact (Hcarry AKCarry r Hargs).
  - (* scalar builders: `*na.w = v` *)
    assert (Hset : forall sv, done = false ->
              wp (wrv w (VScalar sv) (wrv a (VScalB k w true) (Ret (POk HNone)))) tt_post tg h).
    { intros sv ->. destruct (inv_asm _ _ _ _ HI Ga I) as [Ta [Tw [sv0 Gw]]].
      eapply wp_shortcut; eauto; [exact I|]. intros tg' h2 _ T G. cbn. eauto. }
    destruct o; try (apply wp_ret; exact I).
    + destruct v as [|sv]; [apply wp_ret; exact I|].
      destruct (skind_eqb k (scalar_kind sv)); [exact (Hset sv Hleg) | apply wp_ret; exact I].
    + apply wp_wfree_bind; [apply acc_wfree; destruct r; reflexivity|]. intros x.
      destruct x; try (apply wp_ret; exact I). exact (Hset s Hleg).
  - destruct o; try (apply wp_ret; exact I).
    + eapply wp_asm_done; [exact Ga | exact I | exact Hargs].
    + eapply wp_bytes_assign_node; eauto.
Qed.

(* Build on a scalar builder needs a done builder (else the live cell would be handed out) *)
Lemma wp_builder_build : forall tg h a, (forall k w done, hget h a = Some (CPtr (VScalB k w done)) -> done = true) ->
  wp (builder_build a) pout_ok tg h.
Proof.
  intros tg h a HP. apply wp_inv; intros HI. unfold builder_build.
  apply wp_rdv. intros v Ga.
  assert (Hmap : forall m, masm_ok tg h a m ->
            wp (if mst_eqb (m_st m) MFinished
                then match m_w m with Some s => Ret (POk (HNode (RMap s))) | None => Crash end else Crash) pout_ok tg h).
  { intros m (_ & _ & Hw). destruct (mst_eqb (m_st m) MFinished) eqn:St; [|apply wp_crash]. apply mst_eqb_eq in St.
    destruct (m_w m) as [s|]; [|apply wp_crash]. apply wp_ret. rewrite St in Hw. exact Hw. }
  assert (Hlist : forall l, lasm_ok tg h a l ->
            wp (if lst_eqb (l_st l) LFinished
                then match l_w l with Some s => Ret (POk (HNode (RList s))) | None => Crash end else Crash) pout_ok tg h).
  { intros l (_ & Hw). destruct (lst_eqb (l_st l) LFinished) eqn:St; [|apply wp_crash]. apply lst_eqb_eq in St.
    destruct (l_w l) as [s|]; [|apply wp_crash]. apply wp_ret. rewrite St in Hw. exact Hw. }
  destruct v; try apply wp_crash; destruct (inv_asm _ _ _ _ HI Ga I) as [Ta Hok].
  - exact (Hmap m Hok).
  - exact (Hlist l Hok).
  - destruct Hok as (Hm & Hl & Hsc & _).
    destruct k; try apply wp_crash; [exact (Hmap m Hm) | exact (Hlist l Hl) | apply wp_ret; exact I | apply wp_ret; exact Hsc].
  - destruct Hok as [Tw Gw]. apply wp_ret. cbn. rewrite (HP k w done Ga) in Tw. split; assumption.
  - apply wp_ret. exact Hok.
Qed.

Lemma wp_builder_reset : forall a tg h, wp (builder_reset a) tt_post tg h.
Proof.
  intros a tg h. unfold builder_reset.
  apply wp_rdv. intros v Ga.
  destruct v; try apply wp_crash; unfold newv.
  - refine (wp_new_data_wr_done _ _ _ _ (CPtr (VMapHdr nil_slice None)) (TOwned a) _ _ Ga I I _). intros s tg1 h1 Ts Gs.
    cbn. eapply masm_ok_unfinished; cbn; eauto; try congruence; exact I.
  - refine (wp_new_data_wr_done _ _ _ _ (CPtr (VListHdr nil_slice)) (TOwned a) _ _ Ga I I _). intros s tg1 h1 Ts Gs.
    cbn. eapply lasm_ok_unfinished; cbn; eauto; try congruence; exact I.
  - eapply wp_asm_done; [exact Ga | exact I |]. cbn.
    split; [apply masm0_ok|]. split; [apply lasm0_ok|]. split; [exact I|]. auto.
  - refine (wp_new_data_wr_done _ _ _ _ (CPtr (VScalar (zero_scalar k))) (TOwned a) (fun s => VScalB k s false) _ Ga I I _).
    intros s tg1 h1 Ts Gs. cbn. eauto.
  - eapply wp_asm_done; [exact Ga | exact I | exact I].
Qed.

Lemma wp_value_op : forall cf pf a o tg h, bop_args_ok o tg h -> wp (value_op cf pf a o) tt_post tg h.
Proof.
  intros cf pf a o tg h HP. destruct o; cbn [value_op].
  - apply wp_val_begin_map.
  - apply wp_val_begin_list.
  - eapply wp_bind; [apply wp_sval_node|].
    intros r tg1 h1 _ Hr. apply wp_va_assign; exact Hr.
  - apply wp_va_assign; exact HP.
  - apply wp_va_assign; exact HP.
Qed.

Lemma wp_key_op : forall cf a o tg h, wp (key_op cf a o) tt_post tg h.
Proof.
  intros cf a o tg h. unfold key_op.
  destruct o; try (apply wp_ret; exact I).
  - destruct v as [|[]]; try (apply wp_ret; exact I). apply wp_key_assign_string.
  - apply wp_wfree_bind; [apply acc_wfree; destruct r; reflexivity|]. intros x.
    destruct x; try (apply wp_ret; exact I). destruct s; try (apply wp_ret; exact I).
    apply wp_key_assign_string.
Qed.

Lemma wp_asm_op : forall cf tg h hd o, bop_args_ok o tg h -> legal_heap h (bop_prim hd o) = true ->
  wp (asm_op cf hd o) tt_post tg h.
Proof.
  intros cf tg h hd o Ha Hb. destruct hd; cbn [asm_op]; try apply wp_crash.
  - apply wp_builder_op; auto.
  - apply wp_key_op.
  - apply wp_value_op; exact Ha.
  - apply wp_value_op; exact Ha.
Qed.

(* Seek(0, End); Seek(0, Start) on the reader in cell x (how Slice.Slice learns its length) *)
Lemma wp_after_seeks : forall A (Q : A -> assertion) tg h x (k : nat -> mprog A), rdr_at x tg h ->
  (forall len tg2 h2, rdr_at x tg2 h2 -> wp (k len) Q tg2 h2) ->
  wp (let* len := rd_seek_end x in let* _ := rd_seek x 0 in k len) Q tg h.
Proof.
  intros * Rx Hk.
  eapply wp_bind; [apply wp_rd_seek_end; exact Rx|].
  intros len tg1 h1 S1 _. pose proof (rdr_at_stable x _ _ _ _ Rx (proj2 S1)) as Rx1.
  eapply wp_bind; [apply wp_rd_seek; exact Rx1|].
  intros [] tg2 h2 S2 _. apply Hk. exact (rdr_at_stable x _ _ _ _ Rx1 (proj2 S2)).
Qed.

(* io.NewSectionReader over the reader in cell x, when the bounds are in range *)
Lemma wp_new_section : forall tg h x from to n, rdr_at x tg h ->
  wp (let '(ok, f, t) := go_sliceBounds from to n in
      if ok then New (CRdr (RdSect x 0 (clampZ f) (clampZ f) (clampZ t))) (fun y => Ret (POk (HNode (RStream y))))
      else Ret (POk HNone)) pout_ok tg h.
Proof.
  intros * Rx. destruct (go_sliceBounds from to n) as [[ok f] t]. destruct ok; [|apply wp_ret; exact I].
  apply wp_new_frozen_ret; [exact Rx|]. intros y tg3 h3 Ty Gy. cbn. eauto.
Qed.

Lemma wp_match_subset : forall cf r from to tg h, fref tg h r -> wp (match_subset cf r from to) pout_ok tg h.
Proof.
  intros cf r from to tg h HP. unfold match_subset.
  destruct (nref_kind r) eqn:Kr; try (apply wp_ret; exact I); try apply wp_crash.
  - apply wp_wfree_bind; [apply acc_wfree; destruct r; reflexivity|]. intros x.
    destruct x; try (apply wp_ret; exact I). destruct s; try (apply wp_ret; exact I).
    destruct (go_sliceBounds from to (Z.of_nat (length s))) as [[ok f] t]. destruct ok; [|apply wp_ret; exact I].
    eapply wp_bind; [apply wp_new_scalar_node|].
    intros n tg1 h1 S1 Fn. apply wp_ret. exact Fn.
  - destruct r as [| | |sl|rd| | |d]; try discriminate; try apply wp_crash.
    + (* plainBytes: a fresh bytes.Reader *)
      apply (wp_new_data _ _ _ _ _ TFrozen); [exact HP|]. intros x h1 O1 N1 M1.
      apply wp_after_seeks; [split; eauto using set_tag_same|]. intros; apply wp_new_section; assumption.
    + destruct (cf_stream_shared cf); [apply wp_after_seeks; [exact HP|]; intros; apply wp_new_section; assumption|].
      apply wp_wfree_bind; [apply wfree_rd_content|]. intros data. apply wp_new_section. exact HP.
    + destruct d; try discriminate; try apply wp_crash.
      destruct (go_sliceBounds from to (Z.of_nat (length s))) as [[ok f] t]. destruct ok; [|apply wp_ret; exact I].
      apply wp_new_frozen_ret; [exact I|]. intros y tg3 h3 Ty Gy. cbn. unfold bslice_ok; cbn. eauto.
Qed.

Definition prim_pre (p : prim) : assertion := fun tg h =>
  Forall (fun hd => handle_ok hd tg h) (prim_operands p) /\ legal_heap h p = true.

Lemma slice_handle_ok : forall tg h s sl, handle_ok s tg h -> is_slice_handle s = Some sl -> bslice_ok tg h sl.
Proof.
  intros tg h s sl H E. destruct s; cbn in E; try discriminate.
  - destruct r; try discriminate. inversion E; subst. exact H.
  - inversion E; subst. exact H.
Qed.

(* a call that hands out nothing may end in any state; one that does returns frozen things *)
Definition prim_post (p : prim) : pout -> assertion := if returns_caps p then pout_ok else tt_post.

Lemma t_prim_prog : forall cf p, triple (prim_pre p) (prim_prog cf p) (prim_post p).
Proof.
  intros cf p. apply triple_wp. intros tg h [Hop Hl].
  assert (Hops : forall hd, In hd (prim_operands p) -> handle_ok hd tg h) by (apply Forall_forall; exact Hop).
  clear Hop. destruct p; cbn [prim_prog prim_post returns_caps]; cbn [prim_operands In] in Hops.
  - apply wp_new_builder.
  - apply wp_asm_op; [exact I | exact Hl].
  - apply wp_asm_op; [exact I | exact Hl].
  - destruct h0; try apply wp_crash. apply wp_map_assemble_entry.
  - destruct h0; try apply wp_crash. apply wp_map_assemble_key.
  - destruct h0; try apply wp_crash;
      (apply wp_map_assemble_value || apply wp_list_assemble_value).
  - apply wp_asm_op; [exact I | exact Hl].
  - destruct (is_slice_handle s) as [sl|] eqn:Es; [|apply wp_crash].
    apply wp_asm_op.
    + eapply slice_handle_ok; eauto.
    + exact Hl.
  - destruct n; try apply wp_crash.
    apply wp_asm_op; [exact (Hops _ (or_intror (or_introl eq_refl))) | exact Hl].
  - destruct h0; try apply wp_crash;
      (apply wp_map_finish || apply wp_list_finish).
  - destruct h0; try apply wp_crash. apply wp_builder_build.
    intros k w done Ga. unfold legal_heap, cell_val in Hl. rewrite Ga in Hl. exact Hl.
  - destruct h0; try apply wp_crash. apply wp_builder_reset.
  - destruct n; try apply wp_crash.
    eapply wp_bind; [apply wp_acc_prog; exact (Hops _ (or_introl eq_refl))|].
    intros x tg1 h1 S1 Hx. apply wp_ret. exact Hx.
  - apply wp_new_frozen_ret; [exact I|].
    intros y tg1 h1 Ty Gy. cbn. unfold bslice_ok; cbn. eauto.
  - destruct (is_slice_handle s) as [sl|] eqn:Es; [|apply wp_crash].
    apply wp_ret. cbn. eapply slice_handle_ok; eauto.
  - destruct (is_slice_handle s) as [sl|] eqn:Es; [|apply wp_crash].
    apply wp_new_frozen_ret; [exact (slice_handle_ok _ _ _ _ (Hops _ (or_introl eq_refl)) Es)|].
    intros y tg1 h1 Ty Gy. cbn. eauto.
  - eapply wp_bind; [apply wp_sval_node|].
    intros r tg1 h1 S1 Hr. apply wp_ret. exact Hr.
  - apply wp_ret. exact I.
  - destruct n; try apply wp_crash. apply wp_match_subset. exact (Hops _ (or_introl eq_refl)).
  - pose proof (Hops _ (or_introl eq_refl)) as Hn.
    destruct n; try apply wp_crash. destruct r; try apply wp_crash; try (apply wp_ret; exact I).
    + (* plainBytes: a fresh bytes.Reader *)
      apply wp_new_frozen_ret; [exact Hn|]. intros y tg1 h1 Ty Gy. cbn. split; eauto.
    + (* streamBytes: the node's one reader, or a cursor of its own *)
      destruct (cf_stream_shared cf); [apply wp_ret; exact Hn|].
      apply wp_new_frozen_ret; [exact Hn|]. intros y tg1 h1 Ty Gy. cbn. split; eauto.
  - destruct r; try apply wp_crash.
    eapply wp_bind; [apply wp_rd_read; exact (Hops _ (or_introl eq_refl))|].
    intros; apply wp_ret; exact I.
  - destruct r; try apply wp_crash.
    eapply wp_bind; [apply wp_rd_seekw; exact (Hops _ (or_introl eq_refl))|].
    intros; apply wp_ret; exact I.
  - (* CallerWrite: never legal *) discriminate Hl.
Qed.
