(* C07: the conditions on graphs (unique map keys, strings shorter than 2^63) and the induction shared by the
   walk = denote theorems: if every Explore along a walk is the specification's step on the threads the selector
   stands for, the walk is the denotation, for all fuel. *)
Require Import IP.Base.Bytes IP.DM.Value IP.Base.GoSem IP.Trav.Selector IP.Trav.Walk IP.Trav.SelectorSpec
  IP.Trav.Path IP.Proofs.TravFacts IP.Proofs.TravSel IP.Proofs.TravPath IP.Proofs.TravSlice IP.Proofs.TravDenote.
From Coq Require Import Lia.
Open Scope Z_scope.

Definition keys_graph (g : list (bytes * dm)) : bool := forallb (fun cb => keys_ok (snd cb)) g.

(* strings and byte strings shorter than 2^63 (every Go string is) *)
Fixpoint small_dm (v : dm) : bool :=
  match v with
  | DString s | DBytes s => len64 s <? two63
  | DList l => forallb small_dm l
  | DMap m => forallb (fun kv => small_dm (snd kv)) m
  | _ => true
  end.
Definition small_graph (g : list (bytes * dm)) : bool := forallb (fun cb => small_dm (snd cb)) g.

Lemma small_dm_top n : small_dm n = true -> small_top n.
Proof. destruct n; cbn; auto; intros H; apply Z.ltb_lt in H; exact H. Qed.

Lemma lookup_small n ps v : small_dm n = true -> lookup_seg n ps = Some v -> small_dm v = true.
Proof.
  intros Hk Hl. apply (values_forallb small_dm n v); [|exact Hk|exact (lookup_values _ _ _ Hl)].
  destruct n; try exact I; exact (fun H => H).
Qed.

Definition lands (g : list (bytes * dm)) (v b : dm) : Prop :=
  match v with DLink c => assoc c g = Some b | _ => b = v end.

(* E is the relation up to which thread lists are compared (one the specification cannot see through); I is what is
   known of a fuel, node and selector the walk is at. *)
Section WalkSim.
  Variable q : quirks.
  Variable g : list (bytes * dm).
  Hypothesis Hg : keys_graph g = true.
  Hypothesis Hsg : small_graph g = true.
  Variable E : list thr -> list thr -> Prop.
  Hypothesis E_denote : forall f ls P n A B, E A B -> denote g f ls P n A = denote g f ls P n B.
  Hypothesis E_nil : forall A B, E A B -> (A = [] <-> B = []).
  Variable I : nat -> dm -> sel -> Prop.
  (* [children repaired]: the children with repeated interests dropped, which is what the specification walks *)
  Hypothesis I_children : forall f n s, I (S f) n s -> is_container n = true -> children q n s = children repaired n s.
  Hypothesis I_step : forall f n s ps v,
    I (S f) n s -> is_container n = true -> rt false s -> In (ps, v) (children q n s) -> lookup_seg n ps = Some v ->
    exists r, explore q s n ps = XOk r /\ E (lrep_opt r []) (flat_map (sstep n ps v) (rep s [])) /\
              forall s', r = Some s' -> rt false s' /\ forall b, lands g v b -> I f b s'.

  Theorem walk_sim f : forall ls P n s,
    I f n s -> rt false s -> keys_ok n = true -> small_dm n = true ->
    walk q g f ls P n s = denote g f ls P n (rep s []).
  Proof.
    induction f as [|f IH]; intros ls P n s Hi Hrt Hk Hsm; [reflexivity|].
    rewrite walk_S, denote_S. unfold visit_event. rewrite (match_rep s false [] n Hrt (small_dm_top n Hsm)).
    destruct (is_container n) eqn:Ec; [|reflexivity].
    rewrite <- (children_rep n s []), <- (I_children f n s Hi Ec).
    rewrite (seqk_ext_in (explore_step q g (walk q g f) ls P n s)
                         (denote_step g (denote g f) ls P n (rep s []))); [reflexivity|].
    intros [ps v] Hin.
    pose proof (children_lookup q n s ps v Hk Hin) as Hl.
    destruct (I_step f n s ps v Hi Ec Hrt Hin Hl) as (r & Er & Lr & Rr).
    unfold explore_step, denote_step; cbn [fst snd]. rewrite Er.
    destruct r as [s'|].
    - destruct (Rr s' eq_refl) as [Rs Is]. cbn [lrep_opt] in Lr.
      rewrite (lrep_noedge s' [] (rt_closed s' Rs)) in Lr.
      (* s' stands for some thread, so the specification continues into the child as well *)
      destruct (flat_map (sstep n ps v) (rep s [])) as [|t0 l0] eqn:Ef.
      { exfalso. apply (rep_closed_nonempty s' [] Rs). apply (E_nil _ _ Lr). reflexivity. }
      pose proof (lookup_keys_ok n ps v Hk Hl) as Hkv. pose proof (lookup_small n ps v Hsm Hl) as Hsv.
      destruct v; try (rewrite (IH _ _ _ s' (Is _ eq_refl) Rs Hkv Hsv); apply E_denote; exact Lr).
      destruct (assoc c g) as [b|] eqn:Eb; [|reflexivity].
      rewrite (IH (c :: ls) (P ++ [ps]) b s' (Is b Eb) Rs (assoc_forallb keys_ok c g b Hg Eb) (assoc_forallb small_dm c g b Hsg Eb)).
      rewrite (E_denote f (c :: ls) (P ++ [ps]) b _ _ Lr). reflexivity.
    - cbn [lrep_opt] in Lr. rewrite (proj1 (E_nil _ _ Lr) eq_refl). reflexivity.
  Qed.
End WalkSim.

Lemma rep_enter_closed s fr : srcw false s -> rep s fr = enter s fr.
Proof.
  intros H. rewrite <- (lrep_src s false fr H). symmetry. apply lrep_noedge, rt_closed, srcw_rt, H.
Qed.
