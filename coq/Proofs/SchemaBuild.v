(* Proofs/SchemaBuild.v — with every leniency switched off, the assemblers of the impl-model accept
   exactly the conforming trees and rebuild the value the specification assigns (C09_accept_iff,
   C09_no_panic).  An assembler fed entry by entry is followed through the state every prefix of the
   entries leaves ([fold_spec]). *)
Require Import IP.Base.Bytes IP.DM.Value IP.Schema.Types IP.Schema.View IP.Schema.Conform IP.Schema.Sem
  IP.Proofs.SchemaBase.
From Coq Require Import Lia.
Open Scope N_scope.

(* a panic matches nothing *)
Definition sim {A} (r : bres A) (o : option A) : Prop :=
  match r, o with
  | BOk a, Some b => a = b
  | BErr _, None => True
  | _, _ => False
  end.

(* every leniency that changes acceptance is off for the engine at hand *)
Definition strict (e : engine) (q : quirks) : Prop :=
  on e q q_dup_field = false /\ on e q q_dup_mapkey = false /\ on e q q_union_two = false /\
  on e q q_rename_alias = false /\ on e q q_member_alias = false /\ on e q q_listpairs_dup = false /\
  on e q q_listpairs_short = false /\ on e q q_listpairs_unknown_panic = false /\
  on e q q_enum_name_alias = false /\ on e q q_enum_type_unchecked = false /\
  on e q q_nullable_sum_panic = false /\ on e q q_int_narrow = false /\
  ong e q qg_tuple_missing = false /\ ong e q qg_nullable_kinded_null = false /\
  ong e q qg_stringprefix_split = false /\ ong e q qg_map_kv_dup = false.

Lemma strict_qoff e : strict e qoff.
Proof. destruct e; repeat split. Qed.

Lemma sim_bbind {A B} (r : bres A) (o : option A) (f : A -> bres B) (g : A -> option B) :
  sim r o -> (forall a, sim (f a) (g a)) ->
  sim (bbind r f) (match o with Some a => g a | None => None end).
Proof.
  destruct r, o; cbn; intros H Hf; try contradiction; subst; auto.
Qed.

Lemma sim_bmap {A B} (r : bres A) (o : option A) (f : A -> B) :
  sim r o -> sim (bmap f r) (match o with Some a => Some (f a) | None => None end).
Proof. destruct r, o; cbn; intros H; try contradiction; subst; auto. Qed.

Lemma sim_mapM {X Y} (f : X -> bres Y) (g : X -> option Y) l :
  (forall x, sim (f x) (g x)) -> sim (b_mapM f l) (mapM g l).
Proof.
  intros H. induction l as [|x l IH]; cbn; [reflexivity|].
  apply sim_bbind; [apply H|]. intros y. apply sim_bbind; [exact IH|]. intros ys. reflexivity.
Qed.

Lemma sim_iff {A} (r : bres A) (o : option A) v : sim r o -> (r = BOk v <-> o = Some v).
Proof.
  destruct r, o; cbn; intros H; try contradiction; subst; split; intros E; try discriminate; inversion E; auto.
Qed.

Lemma sim_no_panic {A} (r : bres A) (o : option A) : sim r o -> r <> BPanic.
Proof. destruct r; cbn; try discriminate. intros []. Qed.

Lemma sim_reject {A} (r : bres A) : sim r None -> exists c, r = BErr c.
Proof. destruct r; cbn; try contradiction. eauto. Qed.

Lemma set_nth_length {A} i (x : A) l : length (set_nth i x l) = length l.
Proof. revert i; induction l as [|y l IH]; destruct i; cbn; auto. Qed.

Lemma st0_length fs : length (st0 fs) = length fs.
Proof. unfold st0. now rewrite map_length. Qed.

Lemma b_fold_ext {S X} (f g : S -> X -> bres S) :
  (forall st x, f st x = g st x) -> forall l st, b_fold f st l = b_fold g st l.
Proof. intros H. induction l as [|x l IH]; intros st; cbn; auto. rewrite H. destruct (g st x); cbn; auto. Qed.

Lemma bbind_ret {A} (r : bres A) : bbind r (fun a => BOk a) = r.
Proof. destruct r; reflexivity. Qed.

(* the slot table of the struct-as-map assembler indexed by key instead of position *)
Section Slots.
  Variable key : finfo -> bytes.

  Definition kslots (fs : list (finfo * ty)) (st : list (maybe tv)) : list (bytes * maybe tv) :=
    zip (map (fun f => key (fst f)) fs) st.

  Definition put (fs : list (finfo * ty)) (k : bytes) (v : maybe tv) (st : list (maybe tv)) : list (maybe tv) :=
    map (fun x => if bytes_eqb k (fst x) then v else snd x) (kslots fs st).
End Slots.

Lemma b_fold_snoc {S X} (step : S -> X -> bres S) l x : forall st,
  b_fold step st (l ++ [x]) = bbind (b_fold step st l) (fun st' => step st' x).
Proof. induction l as [|y l IH]; intros st; cbn; [apply bbind_ret|]. destruct (step st y); cbn; auto. Qed.

Lemma fold_spec {S X} (step : S -> X -> bres S) (spec : list X -> option S) st0 :
  spec [] = Some st0 ->
  (forall l x, match spec l with
               | Some st => sim (step st x) (spec (l ++ [x]))
               | None => spec (l ++ [x]) = None
               end) ->
  forall l, sim (b_fold step st0 l) (spec l).
Proof.
  intros H0 H l. induction l as [|x l IH] using rev_ind; [now rewrite H0|].
  rewrite b_fold_snoc. specialize (H l x).
  destruct (b_fold step st0 l), (spec l); cbn in *; try contradiction; subst; auto. now rewrite H.
Qed.

Lemma mapM_upd {A B} (key : A -> bytes) k (g g' : A -> option B) (dflt : B) l :
  NoDup (map key l) -> (forall x, bytes_eqb (key x) k = false -> g' x = g x) ->
  forall st i f, mapM g l = Some st -> find_idx (fun x => bytes_eqb (key x) k) l = Some (i, f) ->
  g f = Some (nth i st dflt) /\
  mapM g' l = match g' f with Some v => Some (set_nth i v st) | None => None end.
Proof.
  intros Hnd Hg. induction l as [|a l IH]; intros st i f; cbn; [discriminate|].
  inversion Hnd as [|? ? Hni Hnd']; subst.
  destruct (g a) as [y|] eqn:Ea; [|discriminate]. destruct (mapM g l) as [st'|] eqn:El; [|discriminate].
  intros E; inversion E; subst st. destruct (bytes_eqb (key a) k) eqn:Ek.
  - intros E'; inversion E'; subst i f. split; [exact Ea|]. apply bytes_eqb_eq in Ek.
    rewrite (mapM_ext g' g l), El; [reflexivity|]. intros x Hx. apply Hg, bytes_eqb_neq. intros Ex.
    apply Hni. rewrite Ek, <- Ex. now apply in_map.
  - destruct (find_idx _ l) as [[i' f']|]; [|discriminate]. intros E'; inversion E'; subst i f.
    destruct (IH Hnd' st' i' f' eq_refl eq_refl) as [H1 H2]. split; [exact H1|].
    rewrite (Hg a Ek), Ea, H2. now destruct (g' f').
Qed.

Section Step.
  Variables (e : engine) (q : quirks) (lvl : level).
  Hypothesis Hs : strict e q.
  Variable rb : ty -> bool -> dm -> bres tv.
  Variable rc : ty -> dm -> option tv.
  Hypothesis Hrec : forall c ptr d, wf c = true -> sim (rb c ptr d) (rc c d).

  Local Ltac strict_hyps :=
    destruct Hs as (Hdf&Hdm&Hut&Hra&Hma&Hld&Hls&Hlu&Hea&Het&Hnp&Hin&Hgt&Hgk&Hsp&Hgd).

  Lemma maybe_sim nul c d :
    wf c = true -> sim (b_maybe e q lvl rb nul c d) (conf_maybe rc nul c d).
  Proof.
    intros Hc. unfold b_maybe, conf_maybe. strict_hyps.
    destruct d; try (apply (sim_bmap _ _ MVal); apply Hrec; exact Hc).
    destruct nul; cbn; auto.
    destruct lvl; cbn; auto. destruct c; cbn; auto. destruct r; cbn; auto. rewrite Hgk. cbn. auto.
  Qed.

  Lemma maybe_not_absent nul c d v : conf_maybe rc nul c d = Some v -> is_absent v = false.
  Proof.
    unfold conf_maybe. destruct d; try (destruct (rc c _); intros H; inversion H; reflexivity).
    destruct nul; intros H; inversion H; reflexivity.
  Qed.

  Section Fields.
    Variable key : finfo -> bytes.
    Variable fs : list (finfo * ty).
    Hypothesis Hnd : NoDup (map (fun f => key (fst f)) fs).
    Hypothesis Hwf : Forall (fun f => wf (snd f) = true) fs.

    Definition slot (m : list (bytes * dm)) (f : finfo * ty) : option (maybe tv) :=
      match assoc (key (fst f)) m with
      | None => Some MAbsent
      | Some d => conf_maybe rc (f_nul (fst f)) (snd f) d
      end.

    (* the assembler's state after the entries m *)
    Definition run_spec (m : list (bytes * dm)) : option (list (maybe tv)) :=
      if nodupb (map fst m) && forallb (fun kv => existsb (fun f => bytes_eqb (key (fst f)) (fst kv)) fs) m
      then mapM (slot m) fs else None.

    Lemma run_spec_nil : run_spec [] = Some (st0 fs).
    Proof. apply mapM_Some. Qed.

    Lemma slot_snoc m k d f :
      slot (m ++ [(k, d)]) f =
      match assoc (key (fst f)) m with
      | Some _ => slot m f
      | None => if bytes_eqb (key (fst f)) k then conf_maybe rc (f_nul (fst f)) (snd f) d else Some MAbsent
      end.
    Proof. unfold slot. rewrite assoc_snoc. destruct (assoc _ m); [reflexivity|]. now destruct (bytes_eqb _ k). Qed.

    Lemma field_step m k d :
      match run_spec m with
      | Some st => sim (b_field e q lvl rb false st (find_field key fs k) d) (run_spec (m ++ [(k, d)]))
      | None => run_spec (m ++ [(k, d)]) = None
      end.
    Proof.
      unfold run_spec. rewrite map_app, forallb_app. cbn [map fst forallb]. rewrite nodupb_snoc, existsb_assoc, andb_true_r.
      destruct (nodupb (map fst m)); [|reflexivity]. destruct (forallb _ m); cbn [andb]; [|now rewrite andb_false_r].
      destruct (mapM (slot m) fs) as [st|] eqn:Est.
      2:{ (* a field whose value was refused stays refused *)
          destruct (_ && _); [|reflexivity]. revert Est. apply mapM_None_mono. intros f _. rewrite slot_snoc.
          unfold slot. now destruct (assoc _ m). }
      unfold find_field. rewrite existsb_find_idx.
      destruct (find_idx _ fs) as [[i f]|] eqn:E; [|now rewrite andb_false_r]. rewrite andb_true_r.
      assert (Ho : forall x, bytes_eqb (key (fst x)) k = false -> slot (m ++ [(k, d)]) x = slot m x).
      { intros x Hx. rewrite slot_snoc, Hx. unfold slot. now destruct (assoc _ m). }
      destruct (mapM_upd (fun f => key (fst f)) k _ _ MAbsent fs Hnd Ho st i f Est E) as [Hy Hupd].
      apply find_idx_some in E as (En & Ek & _). apply bytes_eqb_eq in Ek.
      rewrite Hupd, slot_snoc, Ek, bytes_eqb_refl. unfold slot in Hy. rewrite Ek in Hy. unfold b_field.
      destruct (assoc k m) as [d0|].
      - (* the slot is taken *) now rewrite (maybe_not_absent _ _ _ _ Hy).
      - injection Hy as <-. cbn [is_absent negb andb].
        apply sim_bbind; [|reflexivity]. apply maybe_sim. rewrite Forall_forall in Hwf. exact (Hwf f (nth_error_In _ _ En)).
    Qed.

    Lemma fold_fields m :
      sim (b_fold (fun st kv => b_field e q lvl rb false st (find_field key fs (fst kv)) (snd kv)) (st0 fs) m)
          (run_spec m).
    Proof. apply fold_spec; [exact run_spec_nil|]. intros l [k d]. apply field_step. Qed.

    Lemma finish_mapM m l :
      mapM (fun f => match assoc (key (fst f)) m with
                     | None => if f_opt (fst f) then Some MAbsent else None
                     | Some d => conf_maybe rc (f_nul (fst f)) (snd f) d
                     end) l =
      match mapM (slot m) l with
      | Some st => if forallb (fun x => f_opt (fst (fst x)) || negb (is_absent (snd x))) (zip l st)
                   then Some st else None
      | None => None
      end.
    Proof.
      induction l as [|f l IH]; [reflexivity|]. cbn [mapM]. rewrite IH. unfold slot at 2.
      destruct (assoc (key (fst f)) m) as [d|].
      - destruct (conf_maybe rc (f_nul (fst f)) (snd f) d) as [v|] eqn:Ev; [|reflexivity].
        destruct (mapM (slot m) l) as [vs|]; [|reflexivity]. cbn [zip forallb fst snd].
        rewrite (maybe_not_absent _ _ _ _ Ev). cbn [negb]. rewrite orb_true_r. cbn [andb]. now destruct (forallb _ _).
      - destruct (mapM (slot m) l) as [vs|]; [|now destruct (f_opt (fst f))].
        cbn [zip forallb fst snd is_absent negb]. rewrite orb_false_r.
        destruct (f_opt (fst f)); cbn [andb]; [now destruct (forallb _ _)|reflexivity].
    Qed.

    Lemma finish_spec m :
      conf_fields rc key fs m =
      match run_spec m with
      | Some st => if forallb (fun x => f_opt (fst (fst x)) || negb (is_absent (snd x))) (zip fs st)
                   then Some (VStruct st) else None
      | None => None
      end.
    Proof.
      unfold conf_fields, run_spec. destruct (_ && _); [|reflexivity]. rewrite finish_mapM.
      destruct (mapM (slot m) fs) as [st|]; [|reflexivity]. now destruct (forallb _ _).
    Qed.

    Lemma run_finish r m : sim r (run_spec m) -> sim (bbind r (b_finish fs)) (conf_fields rc key fs m).
    Proof.
      intros H. rewrite finish_spec. apply (sim_bbind _ _ _ _ H). intros st. unfold b_finish. now destruct (forallb _ _).
    Qed.

    Lemma fields_sim m :
      sim (bbind (b_fold (fun st kv => b_field e q lvl rb false st (find_field key fs (fst kv)) (snd kv))
                         (st0 fs) m) (b_finish fs))
          (conf_fields rc key fs m).
    Proof. apply run_finish, fold_fields. Qed.
  End Fields.

  Lemma map_fold_sim nul c m : wf c = true ->
    sim (b_fold (b_map_entry e q lvl rb nul c) [] m)
        (if nodupb (map fst m) then mapM (map_entry_spec rc nul c) m else None).
  Proof.
    intros Hc. strict_hyps.
    apply (fold_spec _ (fun m => if nodupb (map fst m) then mapM (map_entry_spec rc nul c) m else None)); [reflexivity|].
    intros l [k d]. rewrite map_app. cbn [map fst]. rewrite nodupb_snoc, mapM_snoc.
    destruct (nodupb (map fst l)); [|reflexivity]. cbn [andb].
    destruct (mapM _ l) as [st|] eqn:Em; [|now destruct (negb _)].
    unfold b_map_entry, map_entry_spec. cbn [fst snd].
    (* the keys assembled so far are those of the entries fed *)
    replace (existsb (fun x => bytes_eqb (fst x) k) st) with (existsb (bytes_eqb k) (map fst l)).
    2:{ rewrite <- (map_entry_keys _ _ _ _ _ Em). clear. induction st as [|x st IH]; cbn; [reflexivity|].
        now rewrite IH, bytes_eqb_sym. }
    destruct (existsb _ (map fst l)); cbn [negb]; [now rewrite Hdm, Hgd|].
    pose proof (maybe_sim nul c d Hc) as Hm.
    destruct (b_maybe e q lvl rb nul c d), (conf_maybe rc nul c d); cbn in *; try contradiction; subst; auto.
  Qed.

  Lemma map_sim nul c m : wf c = true ->
    sim (bmap VMap (b_fold (b_map_entry e q lvl rb nul c) [] m))
        (if nodupb (map fst m) then
           match mapM (fun kv => match conf_maybe rc nul c (snd kv) with
                                 | Some v => Some (fst kv, v) | None => None end) m with
           | Some vs => Some (VMap vs) | None => None end
         else None).
  Proof.
    intros Hc. pose proof (sim_bmap _ _ VMap (map_fold_sim nul c m Hc)) as H.
    fold (map_entry_spec rc nul c). now destruct (nodupb (map fst m)).
  Qed.

  Lemma conf_tuple_nil fs :
    conf_tuple rc fs [] =
    if forallb (fun x => f_opt (fst (fst x)) || negb (is_absent (snd x))) (zip fs (st0 fs))
    then Some (st0 fs) else None.
  Proof.
    unfold st0. induction fs as [|f l IH]; [reflexivity|]. cbn. rewrite orb_false_r, IH.
    destruct (f_opt (fst f)); cbn; [now destruct (forallb _ _)|reflexivity].
  Qed.

  Lemma b_tuple_nil fs : b_tuple e q lvl rb fs [] = BOk (st0 fs).
  Proof. destruct fs; reflexivity. Qed.
  Lemma b_tuple_cons f fr d l :
    b_tuple e q lvl rb (f :: fr) (d :: l) =
    bbind (b_maybe e q lvl rb (f_nul (fst f)) (snd f) d) (fun v =>
    bbind (b_tuple e q lvl rb fr l) (fun vs => BOk (v :: vs))).
  Proof. reflexivity. Qed.

  Lemma tuple_sim l : forall fs, Forall (fun f => wf (snd f) = true) fs ->
    sim (bbind (b_tuple e q lvl rb fs l) (b_finish fs))
        (match conf_tuple rc fs l with Some vs => Some (VStruct vs) | None => None end).
  Proof.
    induction l as [|d l IH]; intros fs Hwf.
    - rewrite b_tuple_nil, conf_tuple_nil. cbn [bbind]. unfold b_finish. now destruct (forallb _ _).
    - destruct fs as [|f fr]; [cbn; exact I|].
      inversion Hwf as [|? ? Hf Hfr]; subst.
      rewrite b_tuple_cons. cbn [conf_tuple].
      pose proof (maybe_sim (f_nul (fst f)) (snd f) d Hf) as Hm.
      destruct (b_maybe e q lvl rb (f_nul (fst f)) (snd f) d) as [v| |];
        destruct (conf_maybe rc (f_nul (fst f)) (snd f) d) as [v'|] eqn:Ev; cbn in Hm; try contradiction;
        cbn [bbind]; auto.
      subst v'. specialize (IH fr Hfr).
      destruct (b_tuple e q lvl rb fr l) as [vs| |]; cbn [bbind] in *.
      + unfold b_finish in *. cbn [zip forallb fst snd].
        rewrite (maybe_not_absent _ _ _ _ Ev). cbn [negb]. rewrite orb_true_r. cbn [andb].
        destruct (forallb _ (zip fr vs)); destruct (conf_tuple rc fr l); cbn in *; try contradiction; auto.
        inversion IH; subst. reflexivity.
      + destruct (conf_tuple rc fr l); cbn in *; try contradiction; auto.
      + contradiction.
  Qed.

  (* an entry with a third element is refused only after its value was built: that this is no panic is read
     off [Hf] *)
  Lemma pair_step fs st x (o : bytes * dm -> option (list (maybe tv))) :
    (forall k d, sim (b_field e q lvl rb false st (find_field f_name fs k) d) (o (k, d))) ->
    sim (b_pair e q lvl rb fs st x) (match pair_of x with Some y => o y | None => None end).
  Proof.
    intros Hf. strict_hyps. unfold pair_of, b_pair. rewrite Hld, Hls, Hlu.
    destruct x; try exact I. destruct l as [|a l]; [exact I|]. destruct a; try exact I.
    destruct l as [|b l]; [exact I|]. specialize (Hf s b).
    destruct (find_field f_name fs s) as [hit|]; [|destruct l; [exact Hf|exact I]].
    destruct l; [now rewrite bbind_ret|].
    destruct (b_field e q lvl rb false st (Some hit) b); [exact I..|contradiction].
  Qed.

  Lemma pairs_fold fs l :
    NoDup (map (fun f => f_name (fst f)) fs) -> Forall (fun f => wf (snd f) = true) fs ->
    sim (b_fold (b_pair e q lvl rb fs) (st0 fs) l)
        (match mapM pair_of l with Some m => run_spec f_name fs m | None => None end).
  Proof.
    intros Hnd Hwf.
    apply (fold_spec _ (fun l => match mapM pair_of l with Some m => run_spec f_name fs m | None => None end));
      [apply run_spec_nil|].
    clear l. intros l x. rewrite mapM_snoc. destruct (mapM pair_of l) as [m|]; [|reflexivity].
    pose proof (field_step f_name fs Hnd Hwf m) as Hf. revert Hf.
    destruct (run_spec f_name fs m) as [st|]; intros Hf.
    - generalize (pair_step fs st x (fun y => run_spec f_name fs (m ++ [y])) Hf). now destruct (pair_of x).
    - destruct (pair_of x) as [[k d]|]; [apply Hf|reflexivity].
  Qed.

  Lemma join_sim fs : forall parts, Forall (fun f => wf (snd f) = true) fs ->
    sim (b_join rb fs parts) (conf_join rc fs parts).
  Proof.
    induction fs as [|f fr IH]; intros parts Hwf; destruct parts as [|p pr]; cbn; auto.
    inversion Hwf as [|? ? Hf Hfr]; subst.
    apply sim_bbind; [now apply Hrec|]. intros v. apply sim_bbind; [now apply IH|]. intros vs. reflexivity.
  Qed.

  Lemma conf_join_length fs : forall parts vs, conf_join rc fs parts = Some vs -> length parts = length fs.
  Proof.
    induction fs as [|f fr IH]; intros parts vs; destruct parts as [|p pr]; cbn; try discriminate; auto.
    destruct (rc (snd f) (DString p)); try discriminate.
    destruct (conf_join rc fr pr) eqn:E; try discriminate. intros _. f_equal. eapply IH; eauto.
  Qed.

  Lemma union_sim ms (p : bytes -> minfo -> bool) m :
    (forall i x, nth_error ms i = Some x -> wf (snd x) = true) ->
    sim (bbind (b_fold (b_union_entry e q rb ms p) None m) b_union_finish)
        (match m with [(k, x)] => conf_member rc ms (fun mi => p k mi) x | _ => None end).
  Proof.
    intros Hwf. strict_hyps. rename Hut into Hu.
    destruct m as [|[k x] m]; [cbn; exact I|].
    cbn [b_fold]. unfold b_union_entry at 1. cbn [fst snd]. unfold conf_member.
    destruct (find_idx (fun m0 => p k (fst m0)) ms) as [[i mi]|] eqn:E.
    2:{ cbn. destruct m; exact I. }
    pose proof (Hrec (snd mi) false x (Hwf _ _ (proj1 (find_idx_some _ _ _ _ E)))) as Hm.
    destruct (rb (snd mi) false x) as [v| |]; destruct (rc (snd mi) x) as [v'|]; cbn in Hm; try contradiction; cbn [bbind].
    - subst v'. destruct m as [|[k2 x2] m].
      + cbn. reflexivity.
      + cbn [b_fold]. unfold b_union_entry at 1. cbn [fst snd].
        destruct (find_idx (fun m0 => p k2 (fst m0)) ms) as [[i2 m2]|]; cbn; [rewrite Hu; cbn|]; exact I.
    - destruct m; exact I.
  Qed.

  Lemma p_disc_find ms k :
    find_idx (fun m => p_disc e q ms k (fst m)) ms = find_idx (fun m => bytes_eqb (m_disc (fst m)) k) ms.
  Proof.
    strict_hyps. rename Hma into Ha.
    apply find_idx_ext. intros x Hx. unfold p_disc. rewrite Ha. cbn [andb].
    destruct (existsb (fun m' => bytes_eqb (m_disc (fst m')) k) ms) eqn:E; auto.
    symmetry. destruct (bytes_eqb (m_disc (fst x)) k) eqn:E2; auto.
    assert (existsb (fun m' => bytes_eqb (m_disc (fst m')) k) ms = true) by (apply existsb_exists; eauto).
    congruence.
  Qed.

  Lemma in_int8_64 z : in_int8 z = true -> in_int64 z = true.
  Proof.
    unfold in_int8, in_int64, two63z. rewrite !andb_true_iff, !Z.leb_le, !Z.ltb_lt. lia.
  Qed.

  Lemma scalar_sim t d :
    kind_eqb (kind_of d) KNull = false ->
    sim (b_scalar e q t d) (conf_scalar t d).
  Proof.
    intros Hk. strict_hyps. rename Hin into Hn.
    destruct t; destruct d; cbn [b_scalar conf_scalar kind_of kind_eqb negb andb] in *; auto; try discriminate;
      try (destruct (dm_wf _); cbn; auto; fail);
      try (destruct w; cbn; exact I); try (cbn; auto; fail).
    unfold b_int. rewrite Hn.
    destruct w; cbn.
    - destruct (in_int64 z); cbn; auto.
    - destruct (in_int8 z) eqn:E8.
      + rewrite (in_int8_64 z E8). cbn. auto.
      + destruct (in_int64 z); cbn; auto.
  Qed.

  Lemma step_sim t ptr d :
    wf t = true -> sim (b_step e q lvl rb t ptr d) (conf_step lvl rc t d).
  Proof.
    intros Hwf. strict_hyps. unfold b_step, conf_step.
    destruct (kind_eqb (kind_of d) KNull) eqn:Hk.
    { destruct d; try discriminate. cbn. exact I. }
    assert (Hd : match d with DNull => False | _ => True end) by (destruct d; auto; discriminate).
    destruct t.
    1-7: (destruct d; try contradiction; apply scalar_sim; exact Hk).
    - destruct d; try contradiction; try exact I.
      apply (sim_bmap _ _ VList), sim_mapM. intros x. apply maybe_sim. exact Hwf.
    - destruct d; try contradiction; try exact I.
      apply map_sim. exact Hwf.
    - destruct (wf_struct_inv r fs Hwf) as (Hnames & Hch & Hloc).
      destruct lvl eqn:El.
      + destruct d; try contradiction; try (destruct r; exact I).
        rewrite Hdf. rewrite <- El. destruct r; apply fields_sim; auto.
      + destruct r.
        * destruct d; try contradiction; try exact I.
          rewrite Hdf, <- El.
          (* without the rename alias, the serial lookup is the lookup by serial key *)
          rewrite (b_fold_ext _ (fun st kv => b_field e q lvl rb false st (find_field f_key fs (fst kv)) (snd kv))).
          { apply fields_sim; auto. }
          intros st kv. unfold find_serial. rewrite Hra. now destruct (find_field f_key fs (fst kv)).
        * destruct d; try contradiction; try exact I.
          rewrite Hgt, <- El. apply tuple_sim; auto.
        * destruct d; try contradiction; try exact I.
          pose proof (join_sim fs (split delim s) Hch) as Hj.
          destruct (Nat.eqb (length (split delim s)) (length fs)) eqn:Elen.
          -- now apply (sim_bmap _ _ VStruct).
          -- destruct (conf_join rc fs (split delim s)) eqn:Ec; cbn; auto.
             apply conf_join_length in Ec. apply Nat.eqb_neq in Elen. contradiction.
        * destruct d; try contradiction; try exact I.
          pose proof (pairs_fold fs l Hnames Hch) as Hp. rewrite <- El.
          destruct (mapM pair_of l) as [m|].
          -- apply run_finish; auto.
          -- destruct (b_fold _ (st0 fs) l); cbn in *; try contradiction; auto.
    - pose proof (fun i m E => proj1 (wf_member r ms i m Hwf E)) as Hch.
      destruct lvl eqn:El.
      + destruct d; try contradiction; try (destruct r; exact I).
        pose proof (union_sim ms (p_name) m Hch) as Hu.
        destruct r; exact Hu.
      + destruct r.
        * destruct d; try contradiction; try exact I.
          pose proof (union_sim ms (p_disc e q ms) m Hch) as Hu.
          destruct m as [|[k x] [|? ?]]; try exact Hu.
          unfold conf_member in *. rewrite p_disc_find in Hu. exact Hu.
        * unfold conf_member.
          destruct (find_idx (fun m => kind_eqb (m_kind (fst m)) (kind_of d)) ms) as [[i mi]|] eqn:E.
          2:{ destruct d; try contradiction; exact I. }
          rewrite Hnp, andb_false_r.
          pose proof (sim_bmap _ _ (VUnion i) (Hrec (snd mi) false d (Hch _ _ (proj1 (find_idx_some _ _ _ _ E))))) as G.
          destruct d; try contradiction; exact G.
        * destruct d; try contradiction; try exact I.
          rewrite Hsp. cbn [andb].
          destruct (sp_parse delim ms s) as [[[i mi] rest]|] eqn:E; [|exact I].
          rewrite Hnp, andb_false_r. apply (sim_bmap _ _ (VUnion i)). apply Hrec.
          exact (Hch _ _ (sp_parse_nth _ _ _ _ _ _ E)).
    - destruct lvl eqn:El; destruct d; try contradiction; try exact I.
      + rewrite Het. cbn [orb]. destruct (existsb _ es); cbn; auto.
      + destruct int_repr; [|exact I].
        destruct (find (fun x => Z.eqb (e_int x) z) es); cbn; auto.
      + destruct int_repr; [exact I|].
        rewrite Hea. cbn [andb]. destruct (find (fun x => bytes_eqb (e_str x) s) es); cbn; auto.
  Qed.
End Step.

Theorem build_conf e q lvl : strict e q ->
  forall n t ptr d, wf t = true -> sim (build_f e q lvl n t ptr d) (conf_f lvl n t d).
Proof.
  intros Hs. induction n as [|n IH]; intros t ptr d Hwf.
  - cbn. exact I.
  - unfold build_f, conf_f. cbn [fuel_rec]. apply step_sim; auto.
Qed.

Theorem accept_iff e q lvl t d v : strict e q -> wf t = true ->
  (build e q lvl t d = BOk v <-> conf_f lvl (fuel_of t) t d = Some v).
Proof. intros Hs Hwf. apply sim_iff. apply build_conf; auto. Qed.

(* unfolding first keeps the conversion between [rbuild] / [tbuild] and [build] syntactic: left to
   unification it goes through the body of [b_step] *)
Lemma rbuild_sim e q t d : strict e q -> wf t = true -> sim (rbuild e q t d) (conforms_r t d).
Proof. unfold rbuild, conforms_r. intros Hs Hwf. now apply build_conf. Qed.

Lemma tbuild_sim e q t d : strict e q -> wf t = true -> sim (tbuild e q t d) (conforms_t t d).
Proof. unfold tbuild, conforms_t. intros Hs Hwf. now apply build_conf. Qed.
