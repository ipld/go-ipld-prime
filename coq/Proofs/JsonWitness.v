(* Proofs/JsonWitness.v — the hypotheses A1, A2 and CID of C04 (defined in Proofs/JsonMain.v) are jointly satisfiable
   (so the theorems are not vacuous): a toy float formatter that writes the bit pattern in decimal,
   as an integer for integral floats below 1e21 and as "0.<bits>" otherwise, with its parser, and
   the identity as CID string form. *)
Require Import IP.Base.Bytes IP.DM.Value IP.Codec.Utf8 IP.Codec.Base64 IP.Codec.DagJson.
Require Import IP.Proofs.Decimal IP.Proofs.JsonInt IP.Proofs.JsonMain.
From Coq Require Import ZifyN ZifyNat ZifyBool.
Open Scope N_scope.

Definition toy_fmt (f : N) : bytes := if f64_integral_small f then print_nat f else 48 :: 46 :: print_nat f.
Definition toy_parse (t : bytes) : option N :=
  match t with
  | a :: b :: ds => if (a =? 48) && (b =? 46) then Some (dval ds 0) else Some (dval t 0)
  | _ => Some (dval t 0)
  end.

Lemma toy_A1 : A1 toy_fmt toy_parse.
Proof.
  intros f _. unfold toy_fmt. destruct (f64_integral_small f).
  - unfold toy_parse. destruct (print_nat_shape f) as (d & D & E & Hd & HD & _ & _ & V).
    rewrite E in V |- *.
    destruct D as [|b D']; [now rewrite V|].
    inversion HD as [|b0 D0 Hb HD0]. unfold digit_c in Hb.
    destruct (N.eqb_spec b 46); [lia|]. rewrite andb_false_r. now rewrite V.
  - unfold toy_parse. cbn [N.eqb Pos.eqb andb]. destruct (print_nat_shape f) as (_ & _ & _ & _ & _ & _ & _ & ->). reflexivity.
Qed.

Lemma toy_A2 : A2 toy_fmt.
Proof.
  intros f _. unfold float_text_ok, toy_fmt. destruct (f64_integral_small f).
  - rewrite print_nat_number. destruct (print_nat_shape f) as (d & D & E & Hd & HD & _). rewrite E.
    apply negb_true_iff, not_true_is_false. intros Ex. apply existsb_exists in Ex. destruct Ex as (c & Hin & Hc).
    assert (digit_c c) by (destruct Hin as [<-|Hin]; [unfold digit_c; lia|rewrite Forall_forall in HD; now apply HD]).
    unfold digit_c, is_e in *. lia.
  - destruct (print_nat_shape f) as (d & D & E & Hd & HD & _). rewrite E.
    unfold float_text_frac. cbn [json_number has_dot_or_e existsb int_prefix_len lead_digits N.eqb Pos.eqb is_digit].
    change (num_start 48) with SZero. cbn [num_run num_step N.eqb Pos.eqb].
    replace (is_digit (48 + d)) with true by (symmetry; apply is_digit_iff; unfold digit_c; lia).
    now rewrite (num_run_digits SFrac D (or_intror eq_refl) HD).
Qed.

Lemma toy_CID : CID (fun c => c) (fun s => Some s) utf8_valid.
Proof. split; intros c H; [reflexivity|exact H]. Qed.
