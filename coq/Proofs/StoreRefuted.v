(* Proofs/StoreRefuted.v — the witness keys against [pinned_cfg], the faithful model of fsstore at the pinned commit of
   go-ipld-prime (escapingFunc never applied, commit("") = abort reports success; repaired in /repo by
   d6f072b, d6185ae, aa26237), [obs_of], and computations that stand for themselves: where the escaping key's path
   and file end up, what the specification demands in the refuting histories, what the repaired configuration
   answers.  The refutations (C17_*_refuted, C18_staging_collision_refuted) are computed in Props/C17.v, Props/C18.v. *)
Require Import IP.Base.Bytes IP.Base.GoSem IP.Gen.FromGo IP.Store.Storage IP.Store.FsStore IP.Store.FsCrash.
Require Import IP.Proofs.StoreBase IP.Proofs.StoreFs.
From Coq Require Import List Bool.
Import ListNotations.
Open Scope N_scope.

Definition wbase : list (list N) := [[100]; [115]].                       (* /d/s *)
Definition k_escape : list N := [46;46;47;46;46;47;120].                 (* "../../x" *)
Definition k_alias1 : list N := [97;47;98;99;100;101;102;103;104].       (* "a/bcdefgh" *)
Definition k_alias2 : list N := [97;47;47;98;99;100;101;102;103;104].    (* "a//bcdefgh" *)
Definition k_plain : list N := [107].                                    (* "k" *)
Definition k_intemp : list N := [46;46;47;46;116;101;109;112;47;122;122]. (* "../.temp/zz" *)
Definition content1 : list N := [67;79;78].                              (* "CON" *)

Lemma escape_path : forall sh, path_for_key (pinned_cfg wbase sh) k_escape = Some [[120]].
Proof. destruct sh; vm_compute; reflexivity. Qed.

Lemma not_inside_x : ~ inside wbase [[120]].
Proof. intros [rest [_ [E _]]]. unfold wbase in E. simpl in E. discriminate. Qed.

Definition obs_of (l : list (obs * fs * list ev)) : list obs := map (fun r => fst (fst r)) l.

(* Put("../../x"): the file really is created outside *)
Lemma escape_file_created : forall sh,
  fs_lookup (snd (fst (nth 1 (fs_run (pinned_cfg wbase sh) (fstate0 (pinned_cfg wbase sh)) [ONew content1; OPut k_escape 0])
                             (OUnit, [], [])))) [[120]] = Some (File content1).
Proof. destruct sh; vm_compute; reflexivity. Qed.

(* what the specification demands in the four histories of C17_refines_refuted_* *)
Lemma spec_says : 
  spec_run (@Some (list N)) true spec_empty [ONew content1; OPut k_alias1 0; OHas k_alias2; OGet k_alias2]
    = [OUnit; OOk; OBool false; OErr E404] /\
  spec_run (@Some (list N)) true spec_empty [ONew content1; OPut [] 0; OGet []] = [OUnit; OOk; OBytes content1] /\
  spec_run (@Some (list N)) true spec_empty [ONew content1; OPut k_plain 0; OHas []] = [OUnit; OOk; OBool false] /\
  spec_run (@Some (list N)) true spec_empty [ONew content1; OHas [46;46]; OPut [46;46] 0; OGet [46;46]]
    = [OUnit; OBool false; OOk; OBytes content1].
Proof. repeat split; vm_compute; reflexivity. Qed.

(* the same histories on the REPAIRED configuration agree with the specification *)
Theorem repaired_agrees :
  obs_of (fs_run (repaired_cfg wbase R12) (fstate0 (repaired_cfg wbase R12))
            [ONew content1; OPut k_alias1 0; OHas k_alias2; OGet k_alias2; OPut k_escape 0; OGet k_escape; OHas []; OGet k_alias1])
  = [OUnit; OOk; OBool false; OErr ENOENT; OOk; OBytes content1; OBool false; OBytes content1].
Proof. vm_compute; reflexivity. Qed.
