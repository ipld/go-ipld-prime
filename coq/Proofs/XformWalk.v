(* Proofs/XformWalk.v — WalkTransforming (selector fragment of Xform/WalkT.v): an identity walk over a
   link-free tree returns the tree it was given ([wt_same]); C16_walk_identity follows in Props/C16.v,
   where the witness that a walk across a link returns the *inlined* block stands too. *)
Require Import IP.Base.Bytes IP.DM.Value IP.Xform.Transform IP.Xform.WalkT IP.Proofs.BytesFacts.
Open Scope Z_scope.

(* carried through the walk bind by bind ([Fine_bind]) *)
Definition same {A L} (a : A) : res xerr (A * L) -> Prop := Fine (fun _ => True) (fun x => fst x = a).

Section WalkId.
  Variable sq : squirks.
  Variable st : store.
  Definition gsame : dm -> option dm := fun _ => None.   (* the callback hands back the node it was given *)

  Lemma load_child_link_free v : link_free v = true -> load_child st v = Ok v.
  Proof. destruct v; try reflexivity. discriminate. Qed.

  Section Loops.
    Variable rec : sel -> path -> dm -> list (path * dm) -> res xerr (dm * list (path * dm)).
    Hypothesis Hrec : forall sn pth v log, link_free v = true -> same v (rec sn pth v log).
    Variable here : path.
    Variable s : sel.
    Variable attn : option (list pseg).

    (* [cbn [wt_list]], not [simpl]: the rendering [pseg_string (PI i)] of the position must stay folded *)
    Lemma wt_list_id : forall l i log,
      forallb link_free l = true -> same l (wt_list sq st rec here s attn i l log).
    Proof.
      induction l as [|v r IH]; intros i log Hl; [reflexivity|].
      cbn [forallb] in Hl. apply andb_true_iff in Hl as [Hv Hr]. cbn [wt_list].
      (* the child is put back as it was: copied, or transformed below *)
      assert (Hcopy : same (v :: r) (do y <- wt_list sq st rec here s attn (i + 1) r log; Ok (v :: fst y, snd y))).
      { eapply Fine_bind; [now apply IH|]. now intros y <-. }
      destruct (attends attn (PI i)); [|exact Hcopy].
      destruct (explore sq s true (PI i)) as [[sn|]|e]; cbn [bind]; [|exact Hcopy|exact I].
      rewrite (load_child_link_free v Hv). cbn [bind].
      eapply Fine_bind; [now apply Hrec|]. intros x <-. eapply Fine_bind; [now apply IH|]. now intros y <-.
    Qed.

    Lemma wt_map_id : forall m log,
      forallb (fun kv => link_free (snd kv)) m = true -> same m (wt_map sq st rec here s attn m log).
    Proof.
      induction m as [|[k v] r IH]; intros log Hl; [reflexivity|].
      cbn [forallb snd] in Hl. apply andb_true_iff in Hl as [Hv Hr]. cbn [wt_map].
      assert (Hcopy : same ((k, v) :: r) (do y <- wt_map sq st rec here s attn r log; Ok ((k, v) :: fst y, snd y))).
      { eapply Fine_bind; [now apply IH|]. now intros y <-. }
      destruct (attends attn (PK k)); [|exact Hcopy].
      destruct (explore sq s false (PK k)) as [[sn|]|e]; cbn [bind]; [|exact Hcopy|exact I].
      rewrite (load_child_link_free v Hv). cbn [bind].
      eapply Fine_bind; [now apply Hrec|]. intros x <-. eapply Fine_bind; [now apply IH|]. now intros y <-.
    Qed.
  End Loops.

  Lemma wt_same : forall fuel s here n log, link_free n = true -> same n (wt sq gsame st fuel s here n log).
  Proof.
    induction fuel as [|fu IH]; intros s here n log Hn; [exact I|].
    cbn [wt]. replace (if decide s then gsame n else None) with (@None dm) by (destruct (decide s); reflexivity).
    destruct n; try reflexivity.
    - eapply Fine_bind; [apply wt_list_id; [exact IH | exact Hn]|]. now intros x <-.
    - eapply Fine_bind; [apply wt_map_id; [exact IH | exact Hn]|]. now intros x <-.
  Qed.
End WalkId.

(* the usual "match everything" selector: R(none, Union[Matcher, All(Edge)]) *)
Definition sel_all : sel := let sq := SUnion [SMatch; SAll SEdge] in SRec sq sq None.

Example walk_identity_satisfiable :
  link_free (DMap [([97%N], DList [DInt 1; DInt 2])]) = true /\
  exists r, wt sq_new gsame [] 20 sel_all [] (DMap [([97%N], DList [DInt 1; DInt 2])]) [] = Ok r.
Proof. split; [reflexivity|]. eexists. vm_compute. reflexivity. Qed.
