(* Proofs/SchemaBase.v — facts about the small definitions of Schema/Types.v, View.v and Conform.v that
   the schema cluster proofs share, and what [wf] says of a struct or union type. *)
Require Import IP.Base.Bytes IP.DM.Value IP.Schema.Types IP.Schema.View IP.Schema.Conform.
Require Export IP.Proofs.BytesFacts.
From Coq Require Import Lia.
Open Scope N_scope.

Lemma kind_eqb_eq a b : kind_eqb a b = true <-> a = b.
Proof. split; [destruct a, b; (reflexivity || discriminate) | intros ->; destruct b; reflexivity]. Qed.

Lemma kind_eqb_refl a : kind_eqb a a = true.
Proof. now apply kind_eqb_eq. Qed.

Lemma okind_eqb_eq o k : okind_eqb o k = true <-> o = Some k.
Proof.
  destruct o as [k'|]; cbn; [rewrite kind_eqb_eq|]; split; congruence.
Qed.

Lemma kind_string d : kind_of d = KString -> d = DString (str_of d).
Proof. destruct d; cbn; congruence. Qed.

Lemma nodupb_NoDup l : nodupb l = true <-> NoDup l.
Proof. exact (nodup_by_NoDup bytes_eqb l bytes_eqb_eq). Qed.

Lemma nodup_kinds_NoDup l : nodup_kinds l = true <-> NoDup l.
Proof. exact (nodup_by_NoDup kind_eqb l kind_eqb_eq). Qed.

Lemma nodupz_NoDup l : nodupz l = true <-> NoDup l.
Proof. exact (nodup_by_NoDup Z.eqb l Z.eqb_eq). Qed.

Lemma nodupb_snoc l k : nodupb (l ++ [k]) = nodupb l && negb (existsb (bytes_eqb k) l).
Proof.
  induction l as [|a l IH]; cbn; [reflexivity|]. rewrite IH, existsb_app. cbn. rewrite (bytes_eqb_sym a k).
  destruct (existsb (bytes_eqb a) l), (bytes_eqb k a), (nodupb l), (existsb (bytes_eqb k) l); reflexivity.
Qed.

Lemma assoc_In {V} k (m : list (bytes * V)) v : assoc k m = Some v -> In (k, v) m.
Proof.
  induction m as [|[k' v'] m IH]; cbn; [discriminate|].
  destruct (bytes_eqb k k') eqn:E.
  - intros H; inversion H; subst. apply bytes_eqb_eq in E; subst. now left.
  - intros H. right. auto.
Qed.

Lemma assoc_None {V} k (m : list (bytes * V)) : assoc k m = None <-> ~ In k (map fst m).
Proof.
  induction m as [|[k' v'] m IH]; cbn.
  - split; auto.
  - destruct (bytes_eqb k k') eqn:E.
    + apply bytes_eqb_eq in E; subst. split; [discriminate|]. intros H. exfalso. apply H. now left.
    + apply bytes_eqb_neq in E. rewrite IH. split.
      * intros H [H1|H1]; [congruence|contradiction].
      * intros H H1. apply H. now right.
Qed.

Lemma assoc_nodup_In {V} k (m : list (bytes * V)) v :
  NoDup (map fst m) -> In (k, v) m -> assoc k m = Some v.
Proof.
  induction m as [|[k' v'] m IH]; cbn; [contradiction|].
  intros Hnd [H|H].
  - inversion H; subst. now rewrite bytes_eqb_refl.
  - inversion Hnd; subst. destruct (bytes_eqb k k') eqn:E.
    + apply bytes_eqb_eq in E; subst. exfalso. apply H2. apply in_map_iff. exists (k', v). auto.
    + auto.
Qed.

Lemma assoc_filter {A V} (k : A -> bytes) (g : A -> V) (p : A -> bool) l x :
  NoDup (map k l) -> In x l ->
  assoc (k x) (map (fun y => (k y, g y)) (filter p l)) = if p x then Some (g x) else None.
Proof.
  induction l as [|a l IH]; [contradiction|]. intros Hnd Hx. inversion Hnd as [|? ? Hni Hnd']; subst. cbn [filter].
  destruct Hx as [->|Hx].
  - destruct (p x); cbn [map assoc fst snd]; [now rewrite bytes_eqb_refl|].
    apply assoc_None. rewrite map_map. intros Hin. apply in_map_iff in Hin as (y & Hy & Hin). apply filter_In in Hin as [Hin _].
    apply Hni. cbn in Hy. rewrite <- Hy. now apply in_map.
  - assert (Hne : bytes_eqb (k x) (k a) = false).
    { apply bytes_eqb_neq. intros E. apply Hni. rewrite <- E. now apply in_map. }
    destruct (p a); cbn [map assoc fst snd]; [rewrite Hne|]; auto.
Qed.

Lemma NoDup_map_filter {A K} (k : A -> K) (p : A -> bool) l : NoDup (map k l) -> NoDup (map k (filter p l)).
Proof.
  induction l as [|a l IH]; cbn; auto. intros Hnd. inversion Hnd as [|? ? Hni Hnd']; subst.
  destruct (p a); cbn; auto. constructor; auto. intros Hin. apply in_map_iff in Hin as (y & Hy & Hin).
  apply filter_In in Hin as [Hin _]. apply Hni. rewrite <- Hy. now apply in_map.
Qed.

Lemma assoc_snoc {V} k' (m : list (bytes * V)) k d :
  assoc k' (m ++ [(k, d)]) =
  match assoc k' m with Some x => Some x | None => if bytes_eqb k' k then Some d else None end.
Proof. induction m as [|[a b] m IH]; cbn; [reflexivity|]. now destruct (bytes_eqb k' a). Qed.

Lemma existsb_assoc {V} k (m : list (bytes * V)) :
  existsb (bytes_eqb k) (map fst m) = match assoc k m with Some _ => true | None => false end.
Proof. induction m as [|[a b] m IH]; cbn; [reflexivity|]. now destruct (bytes_eqb k a). Qed.

Lemma existsb_find_idx {A} (p : A -> bool) l :
  existsb p l = match find_idx p l with Some _ => true | None => false end.
Proof. induction l as [|a l IH]; cbn; [reflexivity|]. rewrite IH. destruct (p a); [reflexivity|]. now destruct (find_idx p l) as [[]|]. Qed.

Lemma find_idx_some {A} (p : A -> bool) l i x :
  find_idx p l = Some (i, x) -> nth_error l i = Some x /\ p x = true /\
  forall j y, (j < i)%nat -> nth_error l j = Some y -> p y = false.
Proof.
  revert i; induction l as [|a l IH]; cbn; intros i; [discriminate|].
  destruct (p a) eqn:Ea.
  - intros H; inversion H; subst. cbn. repeat split; auto. intros j y Hj. lia.
  - destruct (find_idx p l) as [[i' y']|] eqn:E; [|discriminate].
    intros H; inversion H; subst. destruct (IH i' eq_refl) as [H1 [H2 H3]].
    cbn. repeat split; auto. intros j y Hj Hn. destruct j as [|j]; cbn in Hn.
    + inversion Hn; subst. auto.
    + apply (H3 j); auto. lia.
Qed.

Lemma find_idx_none {A} (p : A -> bool) l :
  find_idx p l = None <-> forall x, In x l -> p x = false.
Proof.
  induction l as [|a l IH]; cbn.
  - split; auto. intros _ x [].
  - destruct (p a) eqn:Ea.
    + split; [discriminate|]. intros H. specialize (H a (or_introl eq_refl)). congruence.
    + destruct (find_idx p l) as [[i y]|] eqn:E.
      * split; [discriminate|]. intros H. assert (Hn : forall x, In x l -> p x = false) by (intros; apply H; now right).
        apply IH in Hn. discriminate.
      * split; auto. intros _ x [Hx|Hx]; [subst; auto|]. apply (proj1 IH eq_refl); auto.
Qed.

Lemma find_idx_intro {A} (p : A -> bool) l i x :
  nth_error l i = Some x -> p x = true ->
  (forall j y, (j < i)%nat -> nth_error l j = Some y -> p y = false) ->
  find_idx p l = Some (i, x).
Proof.
  revert i; induction l as [|a l IH]; intros i Hn Hp Hlt; [destruct i; discriminate|].
  cbn. destruct i as [|i]; cbn in Hn.
  - inversion Hn; subst. now rewrite Hp.
  - rewrite (Hlt O a ltac:(lia) eq_refl).
    rewrite (IH i Hn Hp); auto. intros j y Hj Hy. apply (Hlt (S j) y); [lia|exact Hy].
Qed.

Lemma find_idx_ext {A} (p p' : A -> bool) l :
  (forall x, In x l -> p x = p' x) -> find_idx p l = find_idx p' l.
Proof.
  induction l as [|a l IH]; cbn; auto. intros H.
  rewrite (H a (or_introl eq_refl)), IH; auto.
Qed.

Lemma find_idx_unique_gen {A K} (key : A -> K) (eqb : K -> K -> bool) l i x :
  (forall a b, eqb a b = true <-> a = b) ->
  NoDup (map key l) -> nth_error l i = Some x ->
  find_idx (fun y => eqb (key y) (key x)) l = Some (i, x).
Proof.
  intros Heq Hnd Hn. apply find_idx_intro; auto; [now apply Heq|].
  intros j y Hj Hy. destruct (eqb (key y) (key x)) eqn:E; auto. apply Heq in E.
  (* positions j < i of the key list would hold the same key *)
  assert (j = i); [|lia]. apply (proj1 (NoDup_nth_error (map key l)) Hnd).
  - rewrite map_length. apply nth_error_Some. congruence.
  - now rewrite (map_nth_error key _ _ Hy), (map_nth_error key _ _ Hn), E.
Qed.

Lemma find_idx_unique {A} (key : A -> bytes) l i x :
  NoDup (map key l) -> nth_error l i = Some x ->
  find_idx (fun y => bytes_eqb (key y) (key x)) l = Some (i, x).
Proof. apply find_idx_unique_gen. exact bytes_eqb_eq. Qed.

Lemma find_unique_gen {A K} (key : A -> K) (eqb : K -> K -> bool) l x :
  (forall a b, eqb a b = true <-> a = b) ->
  NoDup (map key l) -> In x l -> find (fun y => eqb (key y) (key x)) l = Some x.
Proof.
  intros Heq. induction l as [|a l IH]; intros Hnd Hin; [contradiction|].
  inversion Hnd as [|? ? Hni Hnd']; subst. cbn. destruct Hin as [->|Hin].
  - now rewrite (proj2 (Heq _ _) eq_refl).
  - destruct (eqb (key a) (key x)) eqn:E; auto.
    apply Heq in E. exfalso. apply Hni. rewrite E. now apply in_map.
Qed.

Lemma existsb_find {A} (p : A -> bool) l : existsb p l = true -> exists x, find p l = Some x /\ p x = true.
Proof.
  induction l as [|a l IH]; cbn; [discriminate|].
  destruct (p a) eqn:E; [intros _; eauto|]. cbn. auto.
Qed.

Lemma mapM_length {A B} (f : A -> option B) l r : mapM f l = Some r -> length r = length l.
Proof.
  revert r; induction l as [|x l IH]; cbn; intros r.
  - intros H; inversion H; reflexivity.
  - destruct (f x); [|discriminate]. destruct (mapM f l); [|discriminate].
    intros H; inversion H; subst. cbn. f_equal. auto.
Qed.

Lemma mapM_ext {A B} (f g : A -> option B) l :
  (forall x, In x l -> f x = g x) -> mapM f l = mapM g l.
Proof.
  induction l as [|x l IH]; cbn; auto. intros H.
  rewrite (H x (or_introl eq_refl)), IH; auto.
Qed.

Lemma mapM_Some {A B} (g : A -> B) l : mapM (fun x => Some (g x)) l = Some (map g l).
Proof. induction l as [|x l IH]; cbn; [|rewrite IH]; reflexivity. Qed.

Lemma mapM_map {A B C} (f : B -> option C) (g : A -> B) l : mapM f (map g l) = mapM (fun x => f (g x)) l.
Proof. induction l as [|x l IH]; cbn; [|rewrite IH]; reflexivity. Qed.

Lemma mapM_retract {A B} (f : B -> option A) (g : A -> B) l :
  (forall x, In x l -> f (g x) = Some x) -> mapM f (map g l) = Some l.
Proof.
  induction l as [|x l IH]; cbn; auto. intros H.
  rewrite (H x (or_introl eq_refl)), IH; auto.
Qed.

Lemma mapM_In_None {A B} (f : A -> option B) l x : In x l -> f x = None -> mapM f l = None.
Proof.
  induction l as [|a l IH]; [contradiction|]. intros [->|H] E; cbn; [now rewrite E|].
  rewrite IH by auto. now destruct (f a).
Qed.

Lemma mapM_forallb {A B} (f : A -> option B) (P : B -> bool) l r :
  mapM f l = Some r -> (forall x y, In x l -> f x = Some y -> P y = true) -> forallb P r = true.
Proof.
  revert r; induction l as [|x l IH]; intros r; cbn.
  - intros H; inversion H; reflexivity.
  - destruct (f x) as [y|] eqn:E; [|discriminate]. destruct (mapM f l) as [ys|] eqn:E2; [|discriminate].
    intros H Hp; inversion H; subst. cbn. rewrite (Hp x y (or_introl eq_refl) E). cbn.
    apply IH; auto. intros x0 y0 Hx0 Hf0. apply (Hp x0 y0); auto.
Qed.

Lemma mapM_snoc {A B} (f : A -> option B) l x :
  mapM f (l ++ [x]) =
  match mapM f l with
  | Some r => match f x with Some y => Some (r ++ [y]) | None => None end
  | None => None
  end.
Proof.
  induction l as [|a l IH]; cbn; [now destruct (f x)|]. rewrite IH.
  destruct (f a); [|reflexivity]. destruct (mapM f l); [|reflexivity]. now destruct (f x).
Qed.

Lemma mapM_None_mono {A B} (f g : A -> option B) l :
  (forall x, In x l -> f x = None -> g x = None) -> mapM f l = None -> mapM g l = None.
Proof.
  induction l as [|a l IH]; cbn; [discriminate|]. intros H.
  destruct (f a) eqn:Ea; [|now rewrite (H a (or_introl eq_refl) Ea)].
  destruct (mapM f l); [discriminate|]. intros _. rewrite IH by auto. now destruct (g a).
Qed.

Lemma zip_combine {A B} (a : list A) (b : list B) : zip a b = combine a b.
Proof. revert b; induction a as [|x a IH]; destruct b; cbn; auto. now rewrite IH. Qed.

Lemma zip_length {A B} (a : list A) (b : list B) : length a = length b -> length (zip a b) = length a.
Proof. intros H. rewrite zip_combine, combine_length. lia. Qed.

Lemma zip_In_fst {A B} (fs : list A) (vs : list B) x : In x (zip fs vs) -> In (fst x) fs.
Proof. rewrite zip_combine. destruct x. apply in_combine_l. Qed.

Lemma zip_map_fst {A B} (a : list A) (b : list B) : length a = length b -> map fst (zip a b) = a.
Proof.
  revert b; induction a as [|x a IH]; destruct b; cbn; intros H; try discriminate; auto.
  f_equal. auto.
Qed.

Lemma zip_map_snd {A B} (a : list A) (b : list B) : length a = length b -> map snd (zip a b) = b.
Proof.
  revert b; induction a as [|x a IH]; destruct b; cbn; intros H; try discriminate; auto.
  f_equal. auto.
Qed.

Lemma mapM_zip {A B} (F : A -> option B) (fs : list A) (vs : list B) :
  length vs = length fs -> (forall x, In x (zip fs vs) -> F (fst x) = Some (snd x)) -> mapM F fs = Some vs.
Proof.
  revert vs; induction fs as [|f fs IH]; intros vs Hl H; destruct vs as [|v vs]; try discriminate; auto.
  pose proof (H (f, v) (or_introl eq_refl)) as H0. cbn [fst snd] in H0.
  cbn [mapM]. rewrite H0. cbn in Hl. rewrite (IH vs); auto.
  intros x Hx. apply H. now right.
Qed.

(* one entry of a typed map as [conf_step] reads it *)
Definition map_entry_spec (rc : ty -> dm -> option tv) nul c (kv : bytes * dm) : option (bytes * maybe tv) :=
  match conf_maybe rc nul c (snd kv) with Some v => Some (fst kv, v) | None => None end.

Lemma map_entry_keys rc nul c m : forall st, mapM (map_entry_spec rc nul c) m = Some st -> map fst st = map fst m.
Proof.
  induction m as [|kv m IH]; cbn; intros st; [intros E; now inversion E|]. unfold map_entry_spec at 1.
  destruct (conf_maybe rc nul c (snd kv)); [|discriminate]. destruct (mapM _ m); [|discriminate].
  intros E; inversion E. cbn. f_equal. auto.
Qed.

Lemma forallb_map_in {A B} (p : B -> bool) (g : A -> B) l :
  (forall x, In x l -> p (g x) = true) -> forallb p (map g l) = true.
Proof. intros H. apply forallb_forall. intros y Hy. apply in_map_iff in Hy as [x [<- Hx]]. auto. Qed.

Lemma all_absent_present {F} (gs : list F) (ws : list (maybe tv)) :
  forallb (fun b => b) (map is_absent ws) = true -> present gs ws = [].
Proof.
  unfold present. revert gs; induction ws as [|w ws IH]; intros [|g gs] H; cbn in *; auto.
  apply andb_true_iff in H as [Hw H]. rewrite Hw. cbn. now apply IH.
Qed.

Lemma has_fields_zip hs fs vs :
  has_fields hs fs vs = true <->
  length vs = length fs /\
  forall x, In x (zip fs vs) -> has_maybe hs (f_opt (fst (fst x))) (f_nul (fst (fst x))) (snd (fst x)) (snd x) = true.
Proof.
  revert vs; induction fs as [|f fs IH]; intros [|v vs]; cbn;
    try (split; [discriminate|intros [H _]; discriminate]).
  - intuition.
  - rewrite andb_true_iff, IH. split.
    + intros [H1 [H2 H3]]. split; [now f_equal|]. intros x [<-|Hx]; auto.
    + intros [H1 H2]. split; [apply (H2 (f, v)); now left|]. split; [now inversion H1|]. intros x Hx. apply H2. now right.
Qed.

Lemma has_fields_length hs fs vs : has_fields hs fs vs = true -> length vs = length fs.
Proof. intros H. now apply has_fields_zip in H. Qed.

Lemma has_fields_all hs fs vs :
  Forall (fun f => wf (snd f) = true) fs -> has_fields hs fs vs = true ->
  forall x, In x (zip fs vs) ->
    has_maybe hs (f_opt (fst (fst x))) (f_nul (fst (fst x))) (snd (fst x)) (snd x) = true /\ wf (snd (fst x)) = true.
Proof.
  intros Hwf Hh x Hx. split; [now apply (has_fields_zip hs fs vs)|].
  rewrite Forall_forall in Hwf. apply Hwf. eapply zip_In_fst; eauto.
Qed.

Lemma wf_struct_eq r fs : wf (TStruct r fs) = wf_struct_local r fs && forallb (fun f => wf (snd f)) fs.
Proof. reflexivity. Qed.

Lemma wf_union_eq r ms : wf (TUnion r ms) = wf_union_local r ms && forallb (fun m => wf (snd m)) ms.
Proof. reflexivity. Qed.

Lemma wf_struct_inv r fs : wf (TStruct r fs) = true ->
  NoDup (map (fun f => f_name (fst f)) fs) /\ Forall (fun f => wf (snd f) = true) fs /\
  match r with
  | SMap => NoDup (map (fun f => f_key (fst f)) fs)
  | SStringjoin d =>
      (exists c, d = [c]) /\ fs <> [] /\
      Forall (fun f => f_opt (fst f) = false /\ f_nul (fst f) = false /\ repr_kind (snd f) = Some KString) fs
  | _ => True
  end.
Proof.
  rewrite wf_struct_eq. unfold wf_struct_local. rewrite !andb_true_iff, nodupb_NoDup, forallb_forall.
  intros [[Hn Hl] Hc]. split; [exact Hn|]. split; [now apply Forall_forall|]. destruct r; auto.
  - now apply nodupb_NoDup.
  - rewrite !andb_true_iff in Hl. destruct Hl as [[Hd Hne] Hj]. split; [|split].
    + destruct delim as [|c [|? ?]]; try discriminate. now exists c.
    + now destruct fs.
    + apply Forall_forall. intros f Hf. rewrite forallb_forall in Hj. specialize (Hj f Hf).
      rewrite !andb_true_iff, !negb_true_iff, okind_eqb_eq in Hj. tauto.
Qed.

Lemma wf_union_inv r ms : wf (TUnion r ms) = true ->
  NoDup (map (fun m => m_name (fst m)) ms) /\
  match r with
  | UKeyed => NoDup (map (fun m => m_disc (fst m)) ms)
  | UKinded => NoDup (map (fun m => m_kind (fst m)) ms)
  | UStringprefix [] => prefix_free (map (fun m => m_disc (fst m)) ms) = true
  | UStringprefix _ => NoDup (map (fun m => m_disc (fst m)) ms)
  end.
Proof.
  rewrite wf_union_eq. unfold wf_union_local. rewrite !andb_true_iff, nodupb_NoDup.
  intros [[Hn Hl] _]. split; [exact Hn|]. destruct r.
  - now apply nodupb_NoDup.
  - apply andb_true_iff in Hl as [Hk _]. now apply nodup_kinds_NoDup.
  - apply andb_true_iff in Hl as [Hd _]. destruct delim; [exact Hd|].
    apply andb_true_iff in Hd as [Hd _]. now apply nodupb_NoDup.
Qed.

(* by position: every reader of a union holds the member by its index *)
Lemma wf_member r ms i m : wf (TUnion r ms) = true -> nth_error ms i = Some m ->
  wf (snd m) = true /\
  match r with
  | UKeyed => True
  | UKinded => repr_kind (snd m) = Some (m_kind (fst m))
  | UStringprefix dl =>
      repr_kind (snd m) = Some KString /\
      match dl with [] => True | _ => first_delim_ok dl (m_disc (fst m)) = true end
  end.
Proof.
  rewrite wf_union_eq. unfold wf_union_local. rewrite !andb_true_iff, !forallb_forall.
  intros [[_ Hl] Hc] En. apply nth_error_In in En. split; [now apply Hc|]. destruct r; [exact I|..].
  - rewrite andb_true_iff, forallb_forall in Hl. destruct Hl as [_ Hm]. specialize (Hm m En).
    rewrite andb_true_iff, okind_eqb_eq in Hm. tauto.
  - rewrite andb_true_iff, forallb_forall in Hl. destruct Hl as [Hd Hs]. split; [now apply okind_eqb_eq, Hs|].
    destruct delim; [exact I|]. rewrite andb_true_iff, forallb_forall in Hd. now apply Hd.
Qed.

Lemma sp_parse_nth dl (ms : list (minfo * ty)) s i m rest :
  sp_parse dl ms s = Some (i, m, rest) -> nth_error ms i = Some m.
Proof.
  unfold sp_parse. intros E. destruct dl.
  - destruct (find_idx _ ms) as [[i' m']|] eqn:E2; [|discriminate]. inversion E; subst. now apply find_idx_some in E2.
  - destruct (split_first _ _ _) as [[p0 r0]|]; [|discriminate].
    destruct (find_idx _ ms) as [[i' m']|] eqn:E2; [|discriminate]. inversion E; subst. now apply find_idx_some in E2.
Qed.
