(* Proofs/XformLaws.v — the property-level consequences of [ft_corr]: FocusedTransform = SPEC,
   store monotonicity, the SPEC under the identity callback, runs of transforms, and when the defect
   switches of [quirks] do not matter.  What the callback sees, the identity law and the laws of runs
   are concluded from these in Props/C16.v. *)
Require Import IP.Base.Bytes IP.DM.Value IP.Xform.Transform IP.Proofs.BytesFacts IP.Proofs.XformBase IP.Proofs.XformFocus.
From Coq Require Import Lia.
Open Scope Z_scope.

(* Progress.FocusedTransform around focusedTransform: the builder of the root's own prototype, and
   the Null root, for which nullPrototype.NewBuilder is unimplemented (switch q_null_root_panic) *)
Definition null_root_panics (q : quirks) (root : dm) : bool :=
  match root with DNull => q_null_root_panic q | _ => false end.

Lemma focus_unfold ltb mklink q f cp fault fuel st root p :
  focused_transform ltb mklink q f cp fault fuel st root p =
  if null_root_panics q root then Err EPanic else
  do sw <- ft ltb mklink q f cp fault fuel (Some root) (ARoot (kind_of root)) p (st, []);
  match fst sw with Put v => Ok (v, snd sw) | Skip => Err EPanic end.
Proof. destruct root; reflexivity. Qed.

Lemma null_root_fixed root : null_root_panics q_fixed root = false.
Proof. now destruct root. Qed.

Lemma assign_root q root v w :
  assign_node q (ARoot (kind_of root)) (Some v) w =
  if root_accepts root v then Ok (Put v, w)
  else Err (if kind_eqb (kind_of v) (kind_of root) then EOther else EWrongKind).
Proof.
  unfold root_accepts. cbn [assign_node]. destruct (kind_eqb (kind_of v) (kind_of root)); [|reflexivity].
  destruct v; reflexivity.
Qed.

Section Laws.
  Variable ltb : bytes -> bytes -> bool.
  Variable mklink : dm -> cid.
  Variable f : option dm -> option dm.
  Variable cp : bool.
  Variable fault : bool.
  Hypothesis f_wf : forall x v, owf x -> f x = Some v -> wf_dm v = true.

  Notation FT := (ft ltb mklink q_fixed f cp fault).
  Notation XU := (xupd ltb mklink f cp).
  Notation FOCUS := (focused_transform ltb mklink q_fixed f cp fault).

  (* [corr] read at the root, plus what the root builder adds when the root itself is the target: it
     refuses a value of another kind and panics on a removal. *)
  Definition focus_rel (st : store) (root : dm) (p : path) (out : res xerr (dm * world)) (sres : xres) : Prop :=
    match sres, out with
    | XNeedLoad, _ => True
    | XOk (Some t') seen, Ok (res, (st', log)) =>
        res = raw t' /\ extends st st' /\
        (forall S, extends st' S -> coherent mklink S -> valid S t') /\ wfx t' /\
        (exists k, (1 <= k)%nat /\ log = repeat seen k) /\
        (p = [] -> root_accepts root res = true)
    | XOk (Some t') _, Err e =>
        (e = EFuel \/ e = EStore) \/
        p = [] /\ root_accepts root (raw t') = false /\ (e = EWrongKind \/ e = EOther)
    | XOk None _, Ok _ => False
    | XOk None _, Err e => (e = EFuel \/ e = EStore) \/ p = [] /\ e = EPanic
    | XErr _, Ok _ => False
    | XErr e', Err e => (e = EFuel \/ e = EStore) \/ e = e'
    end.

  Theorem focus_spec fuel st t p :
    valid st t -> wfx t ->
    focus_rel st (raw t) p (FOCUS fuel st (raw t) p) (xupdate ltb mklink f cp st t p).
  Proof.
    intros Hv Hw. rewrite focus_unfold, null_root_fixed. unfold focus_rel, xupdate.
    destruct p as [|s p2].
    - destruct fuel as [|fu]; cbn [ft xupd option_map bind].
      { destruct (f (Some (raw t))); cbn; auto. }
      pose proof (good_call mklink f f_wf (st, []) (Some t) (conj Hv Hw)) as G. cbn [option_map] in G.
      destruct (f (Some (raw t))) as [v|]; cbn [option_map] in *; [|cbn; auto].
      rewrite assign_root, raw_inject. destruct (root_accepts (raw t) v) eqn:Ea; cbn [bind fst snd log_call app].
      + destruct G as (_ & G). repeat split; auto; apply G.
      + right. repeat split. destruct (kind_eqb (kind_of v) (kind_of (raw t))); auto.
    - assert (Hna : na_ok (ARoot (kind_of (raw t))) (s :: p2)) by discriminate.
      pose proof (ft_corr ltb mklink f cp fault f_wf fuel (Some t) _ (s :: p2) (st, []) Hna (conj Hv Hw)) as Hc.
      cbn [option_map w_store fst] in Hc.
      pose proof (xupd_cons_some ltb mklink f cp st t s p2) as Hnn.
      destruct (XU st (Some t) (s :: p2)) as [[t'|] seen| e |]; [| now destruct (Hnn seen) | | exact I];
        destruct (FT fuel (Some (raw t)) _ (s :: p2) (st, [])) as [[s0 [st' log]]|e0]; cbn [corr bind] in *; auto; try contradiction.
      destruct Hc as (-> & H2 & H3 & H4 & k & Hk & H5). cbn [slot_of fst snd w_store w_log app] in *.
      repeat split; auto. now exists k.
  Qed.

End Laws.

(* Every piece of focusedTransform [keeps] the store it starts from, and [bind] composes them by
   transitivity; so, like [agree] below, the property is carried through the model bind by bind. *)
Definition keeps {A} (st : store) : res xerr (A * world) -> Prop :=
  Fine (fun _ => True) (fun x => extends st (w_store (snd x))).

Lemma keeps_bind {A B} st (a : res xerr (A * world)) (k : A * world -> res xerr (B * world)) :
  keeps st a -> (forall x, keeps (w_store (snd x)) (k x)) -> keeps st (bind a k).
Proof.
  intros H1 H2. eapply Fine_bind; [exact H1|]. intros x Hx.
  eapply Fine_impl; [apply H2|]. intro y. now apply extends_trans.
Qed.

Section Monotone.
  Variable ltb : bytes -> bytes -> bool.
  Variable mklink : dm -> cid.
  Variable q : quirks.
  Variable f : option dm -> option dm.
  Variable cp : bool.
  Variable fault : bool.
  Notation FTq := (ft ltb mklink q f cp fault).

  Section LoopKeeps.
    Variable rec : option dm -> asm -> path -> world -> res xerr (slot * world).
    Hypothesis Hrec : forall n na p w, keeps (w_store w) (rec n na p w).

    Lemma map_loop_keeps seg e n2 p2 : forall m w, keeps (w_store w) (map_loop rec seg e n2 p2 m w).
    Proof.
      induction m as [|[k v] r IH]; intros w; simpl; [apply extends_refl|].
      destruct (bytes_eqb k seg); [destruct n2; [|destruct e]|].
      1,2,4: apply keeps_bind; [apply IH | intros [[r' b] w']; apply extends_refl].
      apply keeps_bind; [apply Hrec|]. intros [s w1].
      apply keeps_bind; [apply IH | intros [[r' b] w']; apply extends_refl].
    Qed.

    Lemma list_loop_keeps ti p2 : forall l i w, keeps (w_store w) (list_loop rec ti p2 i l w).
    Proof.
      induction l as [|v r IH]; intros i w; simpl; [apply extends_refl|].
      destruct (ti =? i).
      - apply keeps_bind; [apply Hrec|]. intros [s w1].
        apply keeps_bind; [apply IH | intros [[r' b] w']; apply extends_refl].
      - apply keeps_bind; [apply IH | intros [[r' b] w']; apply extends_refl].
    Qed.
  End LoopKeeps.

  Lemma assign_node_keeps na n2 w : keeps (w_store w) (assign_node q na n2 w).
  Proof.
    pose proof (extends_refl (w_store w)) as H. unfold assign_node. destruct n2 as [v|], na; simpl; auto;
      destruct (kind_eqb (kind_of v) k); simpl; auto; destruct v; simpl; auto; destruct (z <? two63z); simpl; auto.
  Qed.

  Lemma ft_keeps : forall fuel n na p w, keeps (w_store w) (FTq fuel n na p w).
  Proof.
    induction fuel as [|fu IH]; intros n na p w; [exact I|].
    (* what every branch ends with once its loop missed the target: a new entry built below no node *)
    assert (Hnew : forall na' p' w' (mk : slot -> dm),
              keeps (w_store w') (do sw <- FTq fu None na' p' w'; let '(s, w2) := sw in Ok (Put (mk s), w2))).
    { intros. apply keeps_bind; [apply IH | intros [s w2]; apply extends_refl]. }
    destruct p as [|seg p2]; cbn [ft].
    { exact (assign_node_keeps na (f n) (log_call n w)). }
    destruct n as [[]|]; try exact I.
    - destruct (lookup c (w_store w)); [|exact I].
      apply keeps_bind; [apply IH|]. intros [[v|] w1]; [|exact I].
      destruct (q_any_nil q && has_nil v); [exact I|]. destruct (fault || has_refused v); [exact I|].
      apply put_extends.
    - (* an index and "-" run the same loop and end alike *)
      destruct (list_seg seg) as [z| |]; [destruct ((z <? 0) && _); [exact I|] | | exact I];
        (apply keeps_bind; [apply list_loop_keeps, IH|];
         intros [[l' [|]] w1]; [apply extends_refl|];
         destruct (0 <=? _); [exact I|]; destruct (_ && negb (q_append_parents q)); [exact I|];
         apply Hnew).
    - apply keeps_bind.
      { destruct (is_empty p2); exact (map_loop_keeps _ IH _ _ _ _ _ _). }
      intros [[m' [|]] w1]; [apply extends_refl|]. cbn [snd].
      destruct (negb (is_empty p2) && negb cp); [exact I|].
      destruct (is_empty p2 && is_none _ && negb (q_missing_delete_nil q)); [apply extends_refl | apply Hnew].
    - apply Hnew.
  Qed.

  Theorem focus_mono fuel st root p res st' log :
    focused_transform ltb mklink q f cp fault fuel st root p = Ok (res, (st', log)) -> extends st st'.
  Proof.
    intro E. assert (H : keeps st (focused_transform ltb mklink q f cp fault fuel st root p)).
    { rewrite focus_unfold. destruct (null_root_panics q root); [exact I|].
      apply keeps_bind; [apply (ft_keeps _ _ _ _ (st, []))|]. intros [[v|] w1]; [apply extends_refl | exact I]. }
    rewrite E in H. exact H.
  Qed.
End Monotone.

Section Identity.
  Variable ltb : bytes -> bytes -> bool.
  Variable mklink : dm -> cid.
  Variable cp : bool.
  Definition fid : option dm -> option dm := fun x => x.
  Notation XUid := (xupd ltb mklink fid cp).

  (* true of any store that was filled through LinkSystem.Store *)
  Definition store_wf (st : store) : Prop :=
    forall c b, lookup c st = Some b -> c = mklink b /\ canon ltb b = b.

  Lemma fid_wf : forall x v, owf x -> fid x = Some v -> wf_dm v = true.
  Proof. unfold fid. intros x v H E; subst. exact H. Qed.

  Lemma splice_same_raw l : forall j x c', nth_error l j = Some x -> raw c' = raw x ->
    map raw (firstn j l ++ [c'] ++ skipn (S j) l) = map raw l.
  Proof.
    induction l as [|y r IH]; intros j x c' Hn Hr; [destruct j; discriminate|].
    destruct j; simpl in *.
    - inversion Hn; subst. now rewrite Hr.
    - f_equal. eapply IH; eassumption.
  Qed.

  Lemma xupd_id_raw st : store_wf st -> forall p t tx,
    cur_ok st (Some t) -> xfocus (Some t) p = Some tx ->
    exists t', XUid st (Some t) p = XOk (Some t') (Some (raw tx)) /\ raw t' = raw t.
  Proof.
    intros Hst. induction p as [|a p IH]; intros t tx.
    { cbn. intros _ E; inversion E; subst. exists (inject (raw tx)). split; [reflexivity | apply raw_inject]. }
    induction t as [v|l|m|c t1 IHt]; intro Hcur.
    - discriminate.
    - cbn [xfocus xupd strip fst rewrap].
      destruct (list_seg a) as [z| |]; try discriminate.
      destruct (0 <=? z) eqn:E0; [|discriminate].
      pose proof (cur_ok_nth _ l (Z.to_nat z) Hcur) as Hx.
      destruct (nth_error l (Z.to_nat z)) as [x|] eqn:En; [|now rewrite xfocus_none].
      intro Hf.
      assert (Hlt : (z <? Z.of_nat (length l)) = true).
      { apply Z.ltb_lt. assert (Z.to_nat z < length l)%nat by (apply nth_error_Some; congruence).
        apply Z.leb_le in E0. lia. }
      rewrite Hlt. cbn [andb].
      destruct (IH x tx Hx Hf) as [c' [-> Hr]].
      eexists. split; [reflexivity|]. cbn [raw opt_list]. f_equal.
      eapply splice_same_raw; eassumption.
    - cbn [xfocus xupd strip fst rewrap].
      destruct (find_kv a m) as [c|] eqn:Ef; [|now rewrite xfocus_none].
      destruct (find_kv_split _ _ _ Ef) as (m1 & m2 & -> & Hm1). destruct Hcur as [Hv Hw].
      apply valid_middle in Hv as [Hv _]. apply wfx_middle in Hw as [Hw _]. intro Hf.
      destruct (IH c tx (conj Hv Hw) Hf) as [c' [-> Hr]].
      eexists. split; [reflexivity|].
      rewrite (replace_kv_split _ _ _ _ _ Hm1). cbn [raw]. rewrite !map_app. cbn [map fst snd]. now rewrite Hr.
    - (* one link of the chain: the block comes back as it was stored, so under the link it had *)
      apply cur_ok_block in Hcur as [Hlk Ht1]. rewrite xfocus_block, xupd_block. intro Hf.
      destruct (IHt Ht1 Hf) as (t' & -> & Hr). eexists. split; [reflexivity|].
      unfold reblock. cbn [raw]. rewrite Hr. destruct (Hst _ _ Hlk) as [-> ->]. reflexivity.
  Qed.

End Identity.

Section Sequences.
  Variable ltb : bytes -> bytes -> bool.
  Variable mklink : dm -> cid.

  (* path, callback, createParents, storage fault *)
  Definition tstep := (path * (option dm -> option dm) * bool * bool)%type.
  Definition step_wf (s : tstep) : Prop := forall x v, owf x -> snd (fst (fst s)) x = Some v -> wf_dm v = true.

  Fixpoint mseq (fuel : nat) (steps : list tstep) (st : store) (root : dm) : res xerr (dm * store) :=
    match steps with
    | [] => Ok (root, st)
    | (p, f, cp, fault) :: r =>
        do x <- focused_transform ltb mklink q_fixed f cp fault fuel st root p;
        mseq fuel r (fst (snd x)) (fst x)
    end.

  (* the store plays no part in the SPEC ([xupd_ok]), hence [] *)
  Fixpoint xseq (steps : list tstep) (t : xt) : option xt :=
    match steps with
    | [] => Some t
    | (p, f, cp, _) :: r =>
        match xupdate ltb mklink f cp [] t p with
        | XOk (Some t') _ => xseq r t'
        | _ => None
        end
    end.

  Lemma coherent_down st S : extends st S -> coherent mklink S -> coherent mklink st.
  Proof. intros He Hc b v H. apply (Hc b v). now apply He. Qed.

  Lemma mseq_mono fuel : forall steps st root res st', mseq fuel steps st root = Ok (res, st') -> extends st st'.
  Proof.
    induction steps as [|[[[p f] cp] fault] r IH]; intros st root res st'; cbn [mseq].
    - intro E; inversion E; subst. apply extends_refl.
    - destruct (focused_transform ltb mklink q_fixed f cp fault fuel st root p) as [[r1 [st1 l1]]|e0] eqn:EF; [|discriminate].
      cbn. intro E. eapply extends_trans; [eapply focus_mono; eassumption | eapply IH; eassumption].
  Qed.


  (* A run that skips the transforms that fail is the run of those that succeeded, so C16_sequence
     applies to it (C16_failed_steps_are_noops). *)
  Fixpoint mseq_tol (fuel : nat) (steps : list tstep) (st : store) (root : dm) : dm * store :=
    match steps with
    | [] => (root, st)
    | (p, f, cp, fault) :: r =>
        match focused_transform ltb mklink q_fixed f cp fault fuel st root p with
        | Ok x => mseq_tol fuel r (fst (snd x)) (fst x)
        | Err _ => mseq_tol fuel r st root
        end
    end.
  Fixpoint survivors (fuel : nat) (steps : list tstep) (st : store) (root : dm) : list tstep :=
    match steps with
    | [] => []
    | (p, f, cp, fault) :: r =>
        match focused_transform ltb mklink q_fixed f cp fault fuel st root p with
        | Ok x => (p, f, cp, fault) :: survivors fuel r (fst (snd x)) (fst x)
        | Err _ => survivors fuel r st root
        end
    end.

End Sequences.

Section Quirks.
  Variable ltb : bytes -> bytes -> bool.
  Variable mklink : dm -> cid.
  Variable q : quirks.
  Variable f : option dm -> option dm.
  Variable cp : bool.
  Variable fault : bool.
  Hypothesis f_some : forall x, f x <> None.     (* the callback never asks for a removal *)

  Notation FTq := (ft ltb mklink q f cp fault).
  Notation FT0 := (ft ltb mklink q_fixed f cp fault).

  Definition seg_ok (s : bytes) : bool := match parse_int s with Some z => 0 <=? z | None => true end.
  Fixpoint dash_last (p : path) : bool :=
    match p with
    | [] => true
    | s :: p2 => (negb (bytes_eqb s dash) || is_empty p2) && dash_last p2
    end.
  Definition path_ok (p : path) : Prop := forallb seg_ok p = true /\ (cp = true \/ dash_last p = true).

  Lemma path_ok_tail s p : path_ok (s :: p) -> path_ok p.
  Proof.
    intros [H1 H2]. simpl in H1. apply andb_true_iff in H1 as [_ H1]. split; [exact H1|].
    destruct H2 as [H2|H2]; [now left | right]. simpl in H2. now apply andb_true_iff in H2 as [_ H2].
  Qed.

  (* one-sided: [a] (a run under [q]) panics or is [b] (the run under [q_fixed]) *)
  Definition agree {A} (a b : res xerr A) : Prop := a = Err EPanic \/ a = b.

  Lemma agree_bind {A B} (a b : res xerr A) (k1 k2 : A -> res xerr B) :
    agree a b -> (forall x, agree (k1 x) (k2 x)) -> agree (bind a k1) (bind b k2).
  Proof.
    intros [->| ->] Hk; [now left|]. destruct b as [x|e]; simpl; [apply Hk | now right].
  Qed.
  Lemma agree_refl {A} (a : res xerr A) : agree a a.
  Proof. now right. Qed.

  Section LoopAgree.
    Variables rec1 rec2 : option dm -> asm -> path -> world -> res xerr (slot * world).
    Variable p2 : path.
    Hypothesis Hrec : forall n na w, agree (rec1 n na p2 w) (rec2 n na p2 w).

    Lemma map_loop_agree seg e n2 : forall m w,
      agree (map_loop rec1 seg e n2 p2 m w) (map_loop rec2 seg e n2 p2 m w).
    Proof.
      induction m as [|[k v] r IH]; intro w; simpl; [apply agree_refl|].
      destruct (bytes_eqb k seg).
      - destruct n2.
        + apply agree_bind; [apply IH | intro; apply agree_refl].
        + destruct e.
          * apply agree_bind; [apply IH | intro; apply agree_refl].
          * apply agree_bind; [apply Hrec|]. intros [s w1].
            apply agree_bind; [apply IH | intro; apply agree_refl].
      - apply agree_bind; [apply IH | intro; apply agree_refl].
    Qed.

    Lemma list_loop_agree ti : forall l i w,
      agree (list_loop rec1 ti p2 i l w) (list_loop rec2 ti p2 i l w).
    Proof.
      induction l as [|v r IH]; intros i w; simpl; [apply agree_refl|].
      destruct (ti =? i).
      - apply agree_bind; [apply Hrec|]. intros [s w1].
        apply agree_bind; [apply IH | intro; apply agree_refl].
      - apply agree_bind; [apply IH | intro; apply agree_refl].
    Qed.
  End LoopAgree.

  Lemma list_seg_idx s z : list_seg s = LIdx z -> parse_int s = Some z.
  Proof. unfold list_seg. destruct (parse_int s); [intro E; inversion E; reflexivity|]. destruct (bytes_eqb s dash); discriminate. Qed.
  Lemma list_seg_append s : list_seg s = LAppend -> bytes_eqb s dash = true.
  Proof. unfold list_seg. destruct (parse_int s); [discriminate|]. destruct (bytes_eqb s dash); [reflexivity | discriminate]. Qed.

  Lemma ft_agree : forall fuel n na p w, path_ok p -> agree (FTq fuel n na p w) (FT0 fuel n na p w).
  Proof.
    induction fuel as [|fu IH]; intros n na p w Hp; [apply agree_refl|].
    destruct p as [|seg p2]; cbn [ft].
    - destruct (f n) as [v|] eqn:Ef; [right; reflexivity | exfalso; now apply (f_some n)].
    - pose proof (path_ok_tail _ _ Hp) as Hp2.
      destruct n as [v|].
      + destruct v; try apply agree_refl.
        * destruct (lookup c (w_store w)); [|apply agree_refl].
          apply agree_bind; [now apply IH|]. intros [s w1]. destruct s; [|apply agree_refl].
          cbn [q_any_nil q_fixed q_list_delete_nil q_append_nil q_missing_delete_nil orb andb].
          destruct (q_any_nil q && has_nil v); [now left | apply agree_refl].
        * destruct (list_seg seg) as [z| |] eqn:Els; [| |apply agree_refl].
          -- apply list_seg_idx in Els. destruct Hp as [Hp _]. simpl in Hp.
             apply andb_true_iff in Hp as [Hs _]. unfold seg_ok in Hs. rewrite Els in Hs.
             assert (Ez : (z <? 0) = false) by (apply Z.ltb_ge; now apply Z.leb_le).
             rewrite Ez. cbn [andb].
             apply agree_bind; [apply list_loop_agree; intros; now apply IH|].
             intros [[l' b] w1]. destruct b; [apply agree_refl|]. rewrite Hs. apply agree_refl.
          -- cbn [negb andb]. simpl (-1 <? 0). cbn [andb].
             apply agree_bind; [apply list_loop_agree; intros; now apply IH|].
             intros [[l' b] w1]. destruct b; [apply agree_refl|]. simpl (0 <=? -1). cbn iota.
             assert (Hpar : negb (is_empty p2) && negb cp = false).
             { destruct Hp as [_ [->|Hd]]; [apply andb_false_r|]. simpl in Hd.
               apply andb_true_iff in Hd as [Hd _]. rewrite (list_seg_append _ Els) in Hd.
               simpl in Hd. now rewrite Hd. }
             rewrite Hpar. cbn [andb].
             apply agree_bind; [now apply IH | intro; apply agree_refl].
        * set (e_ := is_empty p2). set (n2 := if e_ then f (find_kv seg m) else None).
          apply agree_bind; [apply map_loop_agree; intros; now apply IH|].
          intros [[m' b] w1]. destruct b; [apply agree_refl|].
          destruct (negb e_ && negb cp); [apply agree_refl|].
          assert (Hn : e_ && is_none n2 = false).
          { unfold n2. destruct e_; [|reflexivity]. simpl.
            destruct (f (find_kv seg m)) eqn:Ef; [reflexivity | exfalso; now apply (f_some _ Ef)]. }
          rewrite Hn. cbn [andb].
          apply agree_bind; [now apply IH | intro; apply agree_refl].
      + apply agree_bind; [now apply IH | intro; apply agree_refl].
  Qed.

  Theorem focus_agree fuel st root p :
    path_ok p ->
    agree (focused_transform ltb mklink q f cp fault fuel st root p)
          (focused_transform ltb mklink q_fixed f cp fault fuel st root p).
  Proof.
    intro Hp. rewrite !focus_unfold, null_root_fixed.
    destruct (null_root_panics q root); [now left|].
    apply agree_bind; [now apply ft_agree | intro; apply agree_refl].
  Qed.
End Quirks.
