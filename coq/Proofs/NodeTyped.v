(* Proofs/NodeTyped.v — the typed engines (Node/Typed.v) on the PINNED quirk setting: the scripts,
   with their legality, on which the all-scripts statement (Proofs/NodeTypedAll.v, proved for every
   setting with the protocol defects off) fails there, one per known finding, and the runs that are
   conjuncts of a refutation; the refutations are concluded in Props/C12.v. *)
Require Import IP.Base.Bytes IP.DM.Value IP.Node.Basic IP.Node.Typed IP.Node.TypedProtocol
  IP.Proofs.NodeTypedAll.
Open Scope N_scope.

Definition typed_dup_statement (e : engine) (q : tquirks) : Prop :=
  (forall done vals r f k, field_index k = Some f -> has f done = true ->
     tstep e q (TOpen (TStruct done vals TsInitial :: r)) (AssembleEntry k) =
       TErr TERepeated (TOpen (TStruct done vals TsInitial :: r)) /\
     tstep e q (TOpen (TStruct done vals TsMidKey :: r)) (AssignString k) =
       TErr TERepeated (TOpen (TStruct done vals TsInitial :: r))) /\
  (forall vt t r k, mem_key k t = true ->
     tstep e q (TOpen (TMap vt t TmInitial :: r)) (AssembleEntry k) =
       TErr TERepeated (TOpen (TMap vt t TmInitial :: r)) /\
     tstep e q (TOpen (TMap vt t TmMidKey :: r)) (AssignString k) =
       TErr TERepeated (TOpen (TMap vt t TmInitial :: r))).

Lemma tq_ok_repaired : forall e, tq_ok e trepaired.
Proof. destruct e; split; reflexivity. Qed.

(* what the repaired grammar admits, run on the pinned models *)
Definition typed_all_scripts_pinned (e : engine) : Prop :=
  forall ty v aops, TScript e trepaired ty v aops ->
  trun_tol e tpinned (tinit ty) (map fst aops) = (map snd aops, Some (TDone v)).

Definition s123 : svals := [(0%nat, 1%Z); (1%nat, 2%Z); (2%nat, 3%Z)].

Definition dup_field_script : list (aop * tsres) :=
  [tok (BeginMap 3); tok (AssembleEntry f_whee); tok (AssignInt 1);
   (AssembleEntry f_whee, TSErr TERepeated);
   tok (AssembleEntry f_woot); tok (AssignInt 2); tok (AssembleEntry f_waga); tok (AssignInt 3); tok Finish].

Lemma dup_field_script_legal : forall e q, TScript e q TyS (TVS s123) dup_field_script.
Proof.
  intros. simpl. apply (SS_begin e [] 3 s123). { constructor. }
  apply (SB_entry e [] [] s123 f_whee 0%nat [] (AssignInt 1) 1%Z); try reflexivity; try constructor.
  apply (SB_dup_entry e [0%nat] _ s123 f_whee 0%nat); try reflexivity.
  apply (SB_entry e [0%nat] _ s123 f_woot 1%nat [] (AssignInt 2) 2%Z); try reflexivity; try constructor.
  apply (SB_entry e [1%nat; 0%nat] _ s123 f_waga 2%nat [] (AssignInt 3) 3%Z); try reflexivity; try constructor.
  reflexivity.
Qed.

Definition k_a : bytes := [97].
Definition msg3_entries (h : Z) : list (aop * tsres) :=
  [tok (BeginMap h); tok (AssembleEntry f_whee); tok (AssignInt 1); tok (AssembleEntry f_woot); tok (AssignInt 2);
   tok (AssembleEntry f_waga); tok (AssignInt 3); tok Finish].

Lemma msg3_entries_legal : forall e q h, TScript e q TyS (TVS s123) (msg3_entries h).
Proof.
  intros. simpl. apply (SS_begin e [] h s123). { constructor. }
  apply (SB_entry e [] [] s123 f_whee 0%nat [] (AssignInt 1) 1%Z); try reflexivity; try constructor.
  apply (SB_entry e [0%nat] _ s123 f_woot 1%nat [] (AssignInt 2) 2%Z); try reflexivity; try constructor.
  apply (SB_entry e [1%nat; 0%nat] _ s123 f_waga 2%nat [] (AssignInt 3) 3%Z); try reflexivity; try constructor.
  reflexivity.
Qed.

Definition dup_mapkey_entry_script : list (aop * tsres) :=
  tok (BeginMap 1) :: tok (AssembleEntry k_a) :: msg3_entries 3 ++
  [(AssembleEntry k_a, TSErr TERepeated); tok Finish].
Definition dup_mapkey_key_script : list (aop * tsres) :=
  tok (BeginMap 1) :: tok (AssembleEntry k_a) :: msg3_entries 3 ++
  [tok AssembleKey; (AssignString k_a, TSErr TERepeated); tok Finish].

Lemma dup_mapkey_entry_legal : forall e q,
  TScript e q (TyM TyS) (TVM [(k_a, TVS s123)]) dup_mapkey_entry_script.
Proof.
  intros. simpl. apply (MST_begin e q _ TyS [] 1 [(k_a, TVS s123)]). { constructor. }
  apply (MBT_entry _ [] _ k_a (TVS s123) (msg3_entries 3)); [reflexivity|apply (msg3_entries_legal e q 3)|].
  apply (MBT_dup_entry _ [(k_a, TVS s123)] _ k_a); [reflexivity|]. constructor.
Qed.

Lemma dup_mapkey_key_legal : forall e q,
  TScript e q (TyM TyS) (TVM [(k_a, TVS s123)]) dup_mapkey_key_script.
Proof.
  intros. simpl. apply (MST_begin e q _ TyS [] 1 [(k_a, TVS s123)]). { constructor. }
  apply (MBT_entry _ [] _ k_a (TVS s123) (msg3_entries 3)); [reflexivity|apply (msg3_entries_legal e q 3)|].
  apply (MBT_dup_key _ [(k_a, TVS s123)] _ k_a [] (AssignString k_a)); [reflexivity|constructor|constructor|].
  constructor.
Qed.

(* bind_map_dup_accepted *)
Lemma bind_map_dup_refuted :
  trun_tol EBind tpinned (tinit (TyM TyS)) (map fst dup_mapkey_entry_script) <>
  (map snd dup_mapkey_entry_script, Some (TDone (TVM [(k_a, TVS s123)]))).
Proof. vm_compute. discriminate. Qed.

Lemma gen_map_entrypath_ok :
  trun_tol EGen tpinned (tinit (TyM TyS)) (map fst dup_mapkey_entry_script) =
  (map snd dup_mapkey_entry_script, Some (TDone (TVM [(k_a, TVS s123)]))).
Proof. vm_compute. reflexivity. Qed.

(* gen_struct_key_not_rolled_back: the defect [tq_gen_struct_stuck] stands for (repaired in /repo by cdcca1a) *)
Definition dup_field_key_script : list (aop * tsres) :=
  [tok (BeginMap 3); tok (AssembleEntry f_whee); tok (AssignInt 1);
   tok AssembleKey; (AssignString f_whee, TSErr TERepeated);
   tok (AssembleEntry f_woot); tok (AssignInt 2); tok (AssembleEntry f_waga); tok (AssignInt 3); tok Finish].

Lemma gen_stuck_run :
  fst (trun_tol EGen tpinned (tinit TyS) (map fst dup_field_key_script)) =
    [TSOk; TSOk; TSOk; TSOk; TSErr TERepeated; TSPanic] /\
  trun_tol EGen trepaired (tinit TyS) (map fst dup_field_key_script) =
    (map snd dup_field_key_script, Some (TDone (TVS s123))).
Proof. split; vm_compute; reflexivity. Qed.

(* gen_map_assignnode_foreign_panic: AssignNode of a non-empty basicnode map *)
Definition plain_msg3 : node :=
  let t := [(f_whee, NInt 1); (f_woot, NInt 2); (f_waga, NInt 3)] in NMap t (rev t).
Definition plain_map_a : node := NMap [(k_a, plain_msg3)] [(k_a, plain_msg3)].

Lemma gen_map_node_legal :
  TScript EGen trepaired (TyM TyS) (TVM [(k_a, TVS s123)]) [tok (AssignNode plain_map_a)].
Proof.
  simpl. apply (MST_node EGen trepaired _ TyS [] plain_map_a (TVM [(k_a, TVS s123)])).
  - constructor.
  - vm_compute. reflexivity.
  - left. reflexivity.
Qed.

Lemma gen_map_node_refuted :
  trun_tol EGen tpinned (tinit (TyM TyS)) [AssignNode plain_map_a] = ([TSPanic], None) /\
  trun_tol EBind tpinned (tinit (TyM TyS)) [AssignNode plain_map_a] =
    ([TSOk], Some (TDone (TVM [(k_a, TVS s123)]))).
Proof. split; vm_compute; reflexivity. Qed.

(* every kind of injection at once, on the generated engine *)
Definition nested_value : tval := TVL [TVM [(k_a, TVS s123)]; TVM []].

Definition nested_script : list (aop * tsres) :=
  [ (AssignInt 5, TSErr TEWrong); (BeginMap 0, TSErr TEWrong); tok (BeginList 2);
      tok AssembleValue;
        (BeginList 0, TSErr TEWrong); tok (BeginMap 1);
          tok AssembleKey; (AssignInt 1, TSErr TEWrong); tok (AssignString k_a); tok AssembleValue;
            (AssignString k_a, TSErr TEWrong); tok (BeginMap 3);
              (AssembleEntry [120], TSErr TEInvalidKey);
              tok (AssembleEntry f_whee); (AssignString [49], TSErr TEWrong); tok (AssignInt 1);
              (Finish, TSErr TEMissing);
              tok AssembleKey; (AssignString f_whee, TSErr TERepeated);
              tok AssembleKey; tok (AssignNode (NString f_woot)); tok AssembleValue; tok (AssignNode (NInt 2));
              tok (AssembleEntry f_waga); tok (AssignInt 3);
            tok Finish;
          (AssembleEntry k_a, TSErr TERepeated);
        tok Finish;
      tok AssembleValue; tok (BeginMap (-1)); tok Finish;
    tok Finish ].

Definition nested_struct : list (aop * tsres) :=
  [(AssignString k_a, TSErr TEWrong); tok (BeginMap 3);
   (AssembleEntry [120], TSErr TEInvalidKey);
   tok (AssembleEntry f_whee); (AssignString [49], TSErr TEWrong); tok (AssignInt 1);
   (Finish, TSErr TEMissing);
   tok AssembleKey; (AssignString f_whee, TSErr TERepeated);
   tok AssembleKey; tok (AssignNode (NString f_woot)); tok AssembleValue; tok (AssignNode (NInt 2));
   tok (AssembleEntry f_waga); tok (AssignInt 3);
   tok Finish].
Lemma nested_struct_legal : forall q, TScript EGen q TyS (TVS s123) nested_struct.
Proof.
  intros q.
  apply (SS_begin EGen [(AssignString k_a, TSErr TEWrong)] 3 s123). { repeat constructor. }
  apply (SB_unknown_entry EGen [] [] s123 [120]); [reflexivity|reflexivity|].
  apply (SB_entry EGen [] [] s123 f_whee 0%nat [(AssignString [49], TSErr TEWrong)] (AssignInt 1) 1%Z);
    try reflexivity; [repeat constructor|constructor|].
  apply (SB_missing EGen [0%nat] _ s123); [reflexivity|].
  apply (SB_dup_key EGen [0%nat] _ s123 f_whee 0%nat [] (AssignString f_whee));
    [reflexivity|reflexivity|constructor|constructor|].
  apply (SB_key EGen [0%nat] _ s123 f_woot 1%nat [] (AssignNode (NString f_woot)) [] (AssignNode (NInt 2)) 2%Z);
    try reflexivity; [constructor|apply TKG_node; reflexivity|constructor|apply IG_node; reflexivity|].
  apply (SB_entry EGen [1%nat; 0%nat] _ s123 f_waga 2%nat [] (AssignInt 3) 3%Z);
    try reflexivity; [constructor|constructor|].
  apply SB_finish. reflexivity.
Qed.

Example nested_script_legal : forall q, TScript EGen q (TyL (TyM TyS)) nested_value nested_script.
Proof.
  intros q. simpl.
  apply (LST_begin _ (TyM TyS) [(AssignInt 5, TSErr TEWrong); (BeginMap 0, TSErr TEWrong)] 2
           [TVM [(k_a, TVS s123)]; TVM []]).
  { repeat constructor. }
  apply (LBT_value _ [] _ (TVM [(k_a, TVS s123)])
           ((BeginList 0, TSErr TEWrong) :: tok (BeginMap 1) ::
            tok AssembleKey :: (AssignInt 1, TSErr TEWrong) :: tok (AssignString k_a) :: tok AssembleValue ::
            nested_struct ++ [(AssembleEntry k_a, TSErr TERepeated); tok Finish])).
  - apply (MST_begin EGen q _ TyS [(BeginList 0, TSErr TEWrong)] 1 [(k_a, TVS s123)]).
    { repeat constructor. }
    apply (MBT_key _ [] _ k_a (TVS s123) [(AssignInt 1, TSErr TEWrong)] (AssignString k_a) nested_struct).
    + reflexivity.
    + repeat constructor.
    + constructor.
    + exact (nested_struct_legal q).
    + apply (MBT_dup_entry _ [(k_a, TVS s123)] _ k_a); [reflexivity|]. constructor.
  - apply (LBT_value _ [TVM [(k_a, TVS s123)]] _ (TVM []) [tok (BeginMap (-1)); tok Finish]).
    + apply (MST_begin EGen q _ TyS [] (-1) []). { constructor. } constructor.
    + constructor.
Qed.

Example nested_script_runs :
  trun_tol EGen trepaired (tinit (TyL (TyM TyS))) (map fst nested_script) =
  (map snd nested_script, Some (TDone nested_value)).
Proof.
  exact (tscript_run EGen trepaired (tq_ok_repaired EGen) _ _ _ (nested_script_legal trepaired) [TRoot _] eq_refl).
Qed.
