(* Proofs/SchemaEngines.v — C13: with every deviation of either engine switched off, the reflection
   binding and the generated code are the same semantics (the Gen model is the Bind model with the
   bindnode quirks masked; its own deviations are separate switches), hence observationally equal;
   and each of them then does what the specification says (SchemaBuild, SchemaRepr). *)
Require Import IP.Base.Bytes IP.DM.Value IP.Schema.Types IP.Schema.View IP.Schema.Conform IP.Schema.Sem
  IP.Proofs.SchemaBase IP.Proofs.SchemaBuild IP.Proofs.SchemaRepr.
Open Scope N_scope.

Lemma b_step_engines lvl rb t ptr d : b_step Bind qoff lvl rb t ptr d = b_step Gen qoff lvl rb t ptr d.
Proof. reflexivity. Qed.

Lemma rview_step_engines rv t v : rview_step Bind qoff rv t v = rview_step Gen qoff rv t v.
Proof. reflexivity. Qed.

Lemma tvw_step_engines rv t v : tvw_step Bind qoff rv t v = tvw_step Gen qoff rv t v.
Proof. reflexivity. Qed.

Lemma build_engines lvl n : build_f Bind qoff lvl n = build_f Gen qoff lvl n.
Proof. reflexivity. Qed.

Lemma rview_engines n : rview_f Bind qoff n = rview_f Gen qoff n.
Proof. reflexivity. Qed.

Lemma tvw_engines n : tvw_f Bind qoff n = tvw_f Gen qoff n.
Proof. reflexivity. Qed.

(* observationally equal on every input (C13_equiv in Props/C13.v adds well-formedness and feature-set hypotheses:
   they delimit where the Gen model has been validated against generated code; the equality itself needs neither) *)
Theorem observe_engines lvl t d : observe Bind qoff lvl t d = observe Gen qoff lvl t d.
Proof.
  unfold observe, build, type_view, repr_view. rewrite build_engines.
  rewrite rview_engines, tvw_engines. reflexivity.
Qed.

Theorem observe_spec e lvl t d : wf t = true ->
  match conf_f lvl (fuel_of t) t d with
  | Some v => exists o, observe e qoff lvl t d = BOk o /\ fst o = tview_spec t v
  | None => exists c, observe e qoff lvl t d = BErr c
  end.
Proof.
  intros Hwf.
  pose proof (build_conf e qoff lvl (strict_qoff e) (fuel_of t) t false d Hwf) as H.
  unfold observe, build. destruct (conf_f lvl (fuel_of t) t d) as [v|].
  - destruct (build_f e qoff lvl (fuel_of t) t false d); cbn in H; try contradiction. subst.
    eexists. split; [reflexivity|]. apply (tview_ok e qoff). now destruct e.
  - apply sim_reject in H as [c ->]. now exists c.
Qed.
