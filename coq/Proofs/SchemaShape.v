(* Proofs/SchemaShape.v — whatever the specification accepts lies in the value space of the type
   ([has_shape], [conf_shape]); C09_built_in_type ("never by silently producing a node that violates the
   type") follows in Props/C09.v from it and SchemaBuild.accept_iff. *)
Require Import IP.Base.Bytes IP.DM.Value IP.Schema.Types IP.Schema.View IP.Schema.Conform IP.Schema.Sem
  IP.Proofs.SchemaBase IP.Proofs.SchemaRound.
From Coq Require Import Lia.
Open Scope N_scope.

Definition opred {A} (P : A -> Prop) (o : option A) : Prop := forall a, o = Some a -> P a.

Lemma opred_ret {A} (P : A -> Prop) a : P a -> opred P (Some a).
Proof. intros H x E. inversion E. now subst. Qed.

Lemma opred_none {A} (P : A -> Prop) : opred P None.
Proof. intros a E. discriminate. Qed.

Lemma opred_bind {A B} (P : A -> Prop) (Q : B -> Prop) o f :
  opred P o -> (forall a, P a -> opred Q (f a)) -> opred Q (match o with Some a => f a | None => None end).
Proof. intros H Hf b. destruct o as [a|]; [|discriminate]. exact (Hf a (H a eq_refl) b). Qed.

Section ShapeStep.
  Variables (lvl : level) (rc : ty -> dm -> option tv) (hs : ty -> tv -> bool).
  Hypothesis Hrec : forall c d, opred (fun v => hs c v = true) (rc c d).

  Lemma conf_maybe_shape opt nul c d :
    opred (fun m => has_maybe hs opt nul c m = true) (conf_maybe rc nul c d).
  Proof.
    unfold conf_maybe.
    destruct d; try (apply (opred_bind (fun v => hs c v = true)); [apply Hrec|];
                     intros v Hv; now apply opred_ret).
    destruct nul; [now apply opred_ret|exact (opred_none _)].
  Qed.

  Lemma has_fields_bind f fs o o' :
    opred (fun v => has_maybe hs (f_opt (fst f)) (f_nul (fst f)) (snd f) v = true) o ->
    opred (fun vs => has_fields hs fs vs = true) o' ->
    opred (fun vs => has_fields hs (f :: fs) vs = true)
          (match o with Some v => match o' with Some vs => Some (v :: vs) | None => None end | None => None end).
  Proof.
    intros H H'. apply (opred_bind _ _ _ _ H). intros v Hv. apply (opred_bind _ _ _ _ H'). intros vs Hvs.
    apply opred_ret. cbn. now rewrite Hv.
  Qed.

  Lemma conf_fields_shape key r fs m :
    opred (fun v => shape_step hs (TStruct r fs) v = true) (conf_fields rc key fs m).
  Proof.
    unfold conf_fields. destruct (nodupb _ && forallb _ m); [|exact (opred_none _)].
    apply (opred_bind (fun vs => has_fields hs fs vs = true)); [|intros vs Hvs; now apply opred_ret].
    induction fs as [|f fs IH]; [now apply opred_ret|]. cbn [mapM]. refine (has_fields_bind f fs _ _ _ IH).
    destruct (assoc (key (fst f)) m); [apply conf_maybe_shape|].
    destruct (f_opt (fst f)) eqn:Eo; [now apply opred_ret|exact (opred_none _)].
  Qed.

  Lemma conf_tuple_shape fs : forall l, opred (fun vs => has_fields hs fs vs = true) (conf_tuple rc fs l).
  Proof.
    induction fs as [|f fs IH]; intros l; destruct l as [|d l]; cbn [conf_tuple];
      try exact (opred_none _); [now apply opred_ret|..].
    - destruct (f_opt (fst f)) eqn:Eo; [|exact (opred_none _)].
      refine (has_fields_bind f fs (Some MAbsent) _ _ (IH [])). apply opred_ret. exact Eo.
    - refine (has_fields_bind f fs _ _ _ (IH l)). apply conf_maybe_shape.
  Qed.

  Lemma conf_join_shape fs : forall parts, opred (fun vs => has_fields hs fs vs = true) (conf_join rc fs parts).
  Proof.
    induction fs as [|f fs IH]; intros parts; destruct parts as [|p pr]; cbn [conf_join];
      try exact (opred_none _); [now apply opred_ret|].
    apply (opred_bind (fun v => hs (snd f) v = true)); [apply Hrec|]. intros v Hv.
    apply (opred_bind _ _ _ _ (IH pr)). intros vs Hvs. apply opred_ret. cbn. now rewrite Hv.
  Qed.

  Lemma conf_member_shape r ms p d :
    opred (fun v => shape_step hs (TUnion r ms) v = true) (conf_member rc ms p d).
  Proof.
    unfold conf_member. destruct (find_idx _ ms) as [[i m]|] eqn:E; [|exact (opred_none _)].
    apply (opred_bind (fun w => hs (snd m) w = true)); [apply Hrec|].
    intros w Hw. apply opred_ret. cbn. apply find_idx_some in E as [-> _]. exact Hw.
  Qed.

  Lemma shape_step_ok t d : opred (fun v => shape_step hs t v = true) (conf_step lvl rc t d).
  Proof.
    unfold conf_step. destruct (kind_eqb (kind_of d) KNull); [exact (opred_none _)|].
    destruct t.
    1, 3-6: (destruct d; cbn; try exact (opred_none _); now apply opred_ret).
    - destruct d; cbn; try (destruct w; exact (opred_none _)).
      destruct w; [destruct (in_int64 z) eqn:E|destruct (in_int8 z) eqn:E]; try exact (opred_none _); now apply opred_ret.
    - cbn [conf_scalar]. destruct (negb (kind_eqb (kind_of d) KNull) && dm_wf d) eqn:E;
        [now apply opred_ret|exact (opred_none _)].
    - destruct d; try exact (opred_none _).
      apply (opred_bind (fun vs => forallb (has_maybe hs false nul t) vs = true)); [|intros vs Hvs; now apply opred_ret].
      intros vs E. apply (mapM_forallb _ _ _ _ E). intros x y _. apply conf_maybe_shape.
    - (* the keys are those of the tree *)
      destruct d; try exact (opred_none _). destruct (nodupb (map fst m)) eqn:End; [|exact (opred_none _)].
      fold (map_entry_spec rc nul t). apply (opred_bind (fun vs => map fst vs = map fst m /\
                                   forallb (fun kv => has_maybe hs false nul t (snd kv)) vs = true)).
      + intros vs E. split; [exact (map_entry_keys rc nul t m vs E)|]. apply (mapM_forallb _ _ _ _ E).
        intros x y _ Hy. unfold map_entry_spec in Hy. destruct (conf_maybe rc nul t (snd x)) as [w|] eqn:Ew; [|discriminate].
        injection Hy as <-. exact (conf_maybe_shape false nul t _ _ Ew).
      + intros vs [K1 K2]. apply opred_ret. cbn. now rewrite K1, End.
    - destruct lvl; destruct r; destruct d; try exact (opred_none _); try apply conf_fields_shape.
      + apply (opred_bind _ _ _ _ (conf_tuple_shape fs l)). intros vs Hvs. now apply opred_ret.
      + apply (opred_bind _ _ _ _ (conf_join_shape fs (split delim s))). intros vs Hvs. now apply opred_ret.
      + destruct (mapM pair_of l); [apply conf_fields_shape|exact (opred_none _)].
    - destruct lvl; destruct r.
      1-4: (destruct d as [| | | | | | | |m]; try exact (opred_none _); destruct m as [|[k x] [|? ?]];
            try exact (opred_none _); apply conf_member_shape).
      + apply conf_member_shape.
      + destruct d; try exact (opred_none _).
        destruct (sp_parse delim ms s) as [[[i m] rest]|] eqn:E; [|exact (opred_none _)].
        apply (opred_bind _ _ _ _ (Hrec (snd m) (DString rest))). intros w Hw. apply opred_ret. cbn.
        now rewrite (sp_parse_nth _ _ _ _ _ _ E).
    - assert (Hin : forall p x, find p es = Some x -> existsb (fun e => bytes_eqb (e_name e) (e_name x)) es = true).
      { intros p x E. apply find_some in E as [Hin _]. apply existsb_exists. exists x. split; auto. apply bytes_eqb_refl. }
      destruct lvl; destruct d; try exact (opred_none _).
      + destruct (existsb _ es) eqn:E; [now apply opred_ret|exact (opred_none _)].
      + destruct int_repr; [|exact (opred_none _)]. destruct (find _ es) as [x|] eqn:E; [|exact (opred_none _)].
        apply opred_ret. exact (Hin _ _ E).
      + destruct int_repr; [exact (opred_none _)|]. destruct (find _ es) as [x|] eqn:E; [|exact (opred_none _)].
        apply opred_ret. exact (Hin _ _ E).
  Qed.
End ShapeStep.

Theorem conf_shape lvl n : forall t d v, conf_f lvl n t d = Some v -> shape_f n t v = true.
Proof.
  induction n as [|n IH]; intros t d v H; [discriminate|].
  unfold conf_f, shape_f in *. cbn [fuel_rec] in *.
  exact (shape_step_ok lvl _ _ (fun c d v E => IH c d v E) t d v H).
Qed.

Theorem shape_of_has n t v : has_f n t v = true -> wf t = true -> shape_f n t v = true.
Proof. intros Hh Hwf. exact (conf_shape LRepr n t _ v (repr_round n t v Hh Hwf)). Qed.
