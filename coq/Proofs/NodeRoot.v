(* Proofs/NodeRoot.v — scripts at the root of a builder of any prototype (typed builders first see
   wrong-kind calls, each reported and without effect): every legal annotated script runs as annotated and
   builds its value ([ascript_run]; C01_build_read is its reading for scripts without injections). *)
Require Import IP.Base.Bytes IP.DM.Value IP.Node.Basic IP.Node.Protocol IP.Proofs.NodeBuild.
Open Scope N_scope.

Lemma kind_eqb_refl : forall k, kind_eqb k k = true.
Proof. destruct k; reflexivity. Qed.

Lemma root_bad_kind : forall q p o,
  root_wrong p o = true -> step q (init p) o = OErr EWrongKind (init p).
Proof.
  intros q p o H. unfold init.
  destruct p; destruct o; simpl in H; try discriminate; try reflexivity;
    destruct n; simpl in H; try discriminate; reflexivity.
Qed.

Lemma root_tries : forall q p tries, Forall (RootTry p) tries -> runs q (init p) tries (init p).
Proof.
  intros q p. apply runs_tries. intros o c H. inversion H; subst.
  exists EWrongKind. split; auto. apply root_bad_kind; auto.
Qed.

Lemma root_then : forall q p v tries a,
  Forall (RootTry p) tries -> yields q (init p) a [FRoot p] v -> yields q (init p) (tries ++ a) [FRoot p] v.
Proof. intros q p v tries a Ht. apply yields_app, root_tries, Ht. Qed.

(* Prototype.Map AssignNode, generic path (repaired tree) *)
Lemma put_all_ok : forall stk es ks t m,
  minv ks t m -> NoDup (map fst es) -> (forall k, In k (map fst es) -> ~ In k ks) ->
  Forall (fun kv => wf (snd kv)) es ->
  exists m', put_all stk t m es = OOk (SDone PMap (NMap (t ++ es) m')) /\ wf (NMap (t ++ es) m').
Proof.
  induction es as [|[k v] es]; intros ks t m Hinv Hnd Hdis Hwf; simpl.
  - exists m. rewrite app_nil_r. split; [reflexivity|apply (minv_wf _ _ _ Hinv)].
  - inversion Hnd; subst. inversion Hwf; subst. simpl in *.
    rewrite (minv_mem_false _ _ _ k Hinv) by (apply Hdis; auto).
    replace (t ++ (k, v) :: es) with ((t ++ [(k, v)]) ++ es) by (rewrite <- app_assoc; reflexivity).
    apply (IHes (k :: ks)); auto.
    + apply minv_put; auto.
    + intros k0 Hin [E|Hk]; [subst; contradiction|]. apply (Hdis k0); auto.
Qed.

Theorem ascript_run : forall q p v aops,
  AScriptP q p v aops ->
  exists n, runs q (init p) aops (SDone p n) /\ abs n = v /\ wf n.
Proof.
  intros q p v aops H. change (yields q (init p) aops [FRoot p] v).
  inversion H; subst; clear H; try (apply root_then; [assumption|]).
  - exact (value_runs v aops H0 q (FRoot PAny) [] I).
  - eapply yields_ok; [reflexivity|]. apply (map_body [] m body H1); [|exact minv_nil|exact I].
    apply Forall_forall. intros. apply value_runs.
  - destruct n; simpl in H2; try contradiction.
    + apply (yields_one q _ _ _ (NMap t m)); auto.
    + inversion H1; subst. destruct H2 as [Hq|Ht].
      * destruct (put_all_ok [FRoot PMap] t [] [] [] minv_nil H3) as (m' & Hp & Hw); auto.
        apply (yields_one q _ _ _ (NMap t m')); [|reflexivity|exact Hw].
        unfold init. simpl. rewrite Hq. exact Hp.
      * subst t. apply (yields_one q _ _ _ (NMap [] [])); [|reflexivity|apply (minv_wf _ _ _ minv_nil)].
        unfold init. simpl. destruct (q_pmap_nilmap q); reflexivity.
  - eapply yields_ok; [reflexivity|]. apply (list_body l body H1); [|exact I|constructor].
    apply Forall_forall. intros. apply value_runs.
  - inversion H1; subst; simpl in H2; try contradiction.
    all: apply (yields_one q _ _ _ (NList x)); [reflexivity|reflexivity|constructor; auto].
  - destruct p; destruct v; simpl in H1; inversion H1; subst;
      (eapply yields_one; [reflexivity|reflexivity|constructor]).
  - destruct p; simpl in H0; try discriminate; destruct v; simpl in H2; try contradiction;
      destruct n; simpl in H2; try discriminate.
    all: try (destruct (z0 <? two63z)%Z eqn:E; try discriminate).
    all: inversion H2; subst.
    all: try destruct (q_stream_oneshot q) eqn:Eq.
    all: eapply yields_one; [unfold init; simpl; try rewrite E; try rewrite Eq; reflexivity|reflexivity|constructor].
Qed.

(* the pinned Prototype.Map builder cannot take a non-empty map of another implementation *)
Lemma pmap_foreign_refuted :
  exists n, wf n /\ Scripts repaired PMap (abs n) [AssignNode n] /\ run pinned PMap [AssignNode n] = None.
Proof.
  exists (NFMap [([97], NInt 1)]). split; [|split].
  - constructor; [constructor; [simpl; tauto|constructor]|repeat constructor].
  - apply (AP_map_node repaired [] (NFMap [([97], NInt 1)])); [constructor| |left; reflexivity].
    constructor; [constructor; [simpl; tauto|constructor]|repeat constructor].
  - reflexivity.
Qed.

Example legal_script :
  Scripts pinned PAny (DMap [([97], DInt 1); ([98], DList [DNull; DString [120]])])
    [BeginMap 2; AssembleEntry [97]; AssignInt 1; AssembleKey; AssignString [98]; AssembleValue;
     BeginList (-1); AssembleValue; AssignNull; AssembleValue; AssignNode (NString [120]); Finish; Finish].
Proof.
  apply AP_any. simpl map. apply AS_map.
  apply (MB_entry AScript [] [97] (DInt 1) _ [ok (AssignInt 1)]); [simpl; tauto|constructor|].
  apply (MB_key AScript [[97]] [98] (DList [DNull; DString [120]]) [] [] (AssignString [98])
           [ok (BeginList (-1)); ok AssembleValue; ok AssignNull; ok AssembleValue; ok (AssignNode (NString [120])); ok Finish]).
  - simpl. intros [H|H]; [discriminate|auto].
  - constructor.
  - constructor.
  - apply AS_list. apply (LB_value AScript DNull _ [ok AssignNull]); [constructor|].
    apply (LB_value AScript (DString [120]) _ [ok (AssignNode (NString [120]))]); [|constructor].
    apply (AS_node (NString [120])). constructor.
  - constructor.
Qed.
