(* C07 for any setting q of the quirk switches: on every walk along which no deviation fires — a decidable
   condition, [walk_quirk_free] — the operational walk yields exactly what the selector denotes.  The condition
   says, at every step of the walk:
     - the explicit interests of the current selector name no child twice (or union de-duplication is repaired),
     - no recursion edge is Explore'd bare (or that panic is repaired),
     - whenever the current clause of a recursion hands back an edge, ALL union members it hands back are edges
       (they pass the edge together, so the shared depth counter and the wrapper dropped at exhaustion are
       unobservable) and the recursion's sequence has a live clause.
   Selectors without recursion meet it too ([norec_quirk_free]), and [repaired] meets it on every walk
   (walk_quirk_free_repaired).

   Which q is "the code".  Three settings have names (Selector.v, QuirkFree.v):
     [pinned]    all four switches on: go-ipld-prime at the commit the properties were written against (the snapshot
                 /repo started from).  Spoken of by the C07_refuted_* witnesses, C07_full_refuted, C07_fragment_norec
                 and C07_pinned_fragment_example;
     [current]   only q_shared_depth on: /repo as it stands, i.e. pinned plus the fixes b8b93dd, 873f3b3, 87fc183.
                 Spoken of by C07_walk_denotes_current_tree (TravCurrent.v) and its two refutations;
     [repaired]  all four off: the specification's behaviour.  C07_walk_denotes_repaired, _runtime, C07_explore_is_sstep.
   Only [pinned_fragment_example] below is about [pinned] in particular; everything else in this file, the no-recursion
   fragment included (norec_quirk_free, instantiated at [pinned] by C07_fragment_norec), is for every q.
   C07_walk_denotes_quirk_free holds for every q, so for all three; so do all of C15 and C14_walk_paths.  A new
   theorem about the tree a reader can run is a theorem about [current]; one about what was found, about [pinned];
   one meant to survive further fixes is stated for every q. *)
Require Import IP.Base.Bytes IP.DM.Value IP.Base.GoSem IP.Trav.Selector IP.Trav.Walk IP.Trav.Controls IP.Trav.SelectorSpec
  IP.Trav.Path IP.Trav.QuirkFree IP.Proofs.BytesFacts IP.Proofs.TravFacts IP.Proofs.TravSel IP.Proofs.TravPath IP.Proofs.TravSlice
  IP.Proofs.TravDenote IP.Proofs.TravDenoteWalk.
From Coq Require Import Lia.
Open Scope Z_scope.

(* [all_edges] and [emptyrep] (both QuirkFree.v) are one function under two names, convertible; the emptyrep_*
   lemmas of TravDenote.v are passed below where a fact about all_edges is asked for *)
Lemma all_edges_has_edge s : all_edges s = true -> has_edge s = true.
Proof. exact (emptyrep_has_edge s). Qed.

Lemma all_edges_replace_none s : all_edges s = true -> replace_edge s None = None.
Proof.
  intros H. destruct (replace_edge s None) as [c|] eqn:E; [exfalso|reflexivity]. revert H E.
  (* replace_edge_pres with nothing allowed of a result: neither the replacement nor a member provides one *)
  apply (replace_edge_pres (fun x => all_edges x = true) (fun _ => False) None); try discriminate.
  - intros m t Hf. inversion Hf; assumption.
  - intros l Hl. apply (emptyrep_members l Hl).
  - intros x Hx Ha. destruct x; discriminate.
Qed.

Lemma replace_all_edges r fr1 fr2 s :
  orep r fr2 = reenter fr1 -> all_edges s = true -> orep (replace_edge s r) fr2 = lrep s fr1.
Proof.
  intros He Hs. rewrite <- (map_id (orep _ _)), <- (map_id (lrep _ _)).
  apply (replace_rep (fun t => t) (fun x => all_edges x = true)); [rewrite He; reflexivity|exact emptyrep_members| |exact Hs].
  intros a Ha H. destruct a; discriminate.
Qed.

Lemma wrap_q q sq lim stop (Hsq : srcw true sq) nx b fr :
  rt true nx -> wrap_cond q sq lim nx = true ->
  exists r, rec_wrap q sq lim stop nx = XOk r /\ (forall w, r = Some w -> rt b w) /\
            lrep_opt r fr = lrep nx (mkframe sq lim stop :: fr).
Proof.
  intros Hn Hc. unfold rec_wrap, wrap_cond in *.
  destruct (q_shared_depth q).
  - destruct (has_edge nx) eqn:He; cbn [negb orb] in *.
    + apply andb_true_iff in Hc. destruct Hc as [Hall Hlive].
      destruct (exhausted lim) eqn:Hex.
      * pose proof (replace_all_edges None (mkframe sq lim stop :: fr) (mkframe sq lim stop :: fr) nx) as Pc.
        cbn [reenter mkframe fr_lim] in Pc. rewrite Hex, (all_edges_replace_none nx Hall) in *.
        exists None. split; [destruct (q_exhausted_unwrap q); reflexivity|]. split; [discriminate|exact (Pc eq_refl Hall)].
      * pose proof (replace_all_edges (Some sq) _ (mkframe sq (lim_pred lim) stop :: fr) nx
                      (eq_sym (reenter_live sq lim stop fr Hsq Hlive Hex)) Hall) as Pc.
        destruct (replace_edge nx (Some sq)) as [c|] eqn:Ec; [|exfalso; exact (replace_some_not_none sq nx He Ec)].
        assert (Hrsq : forall x, Some sq = Some x -> rt true x /\ emptyrep x = false).
        { intros x Ex; inversion Ex; subst. split; [apply srcw_rt, Hsq|apply negb_true_iff, Hlive]. }
        exists (Some (SRec sq c (lim_pred lim) stop)). split; [reflexivity|]. split.
        -- intros w E; inversion E; subst. constructor; [assumption|].
           apply (replace_edge_rt (Some sq) nx c); [apply Hrsq|exact Hn|exact Ec].
        -- rewrite lrep_opt_rec; [exact Pc|apply (replace_edge_live (Some sq) nx c); [apply Hrsq|exact Ec]].
    + exists (Some (SRec sq nx lim stop)). split; [reflexivity|]. split.
      * intros w E; inversion E; subst. constructor; assumption.
      * apply lrep_opt_rec_noedge, He.
  - apply negb_true_iff in Hc. rewrite Hc.
    exists (wrap_members sq lim stop nx). split; [reflexivity|]. split.
    + intros w E. exact (wrap_rt sq lim stop Hsq nx b w Hn E).
    + apply wrap_rep. exact Hsq.
Qed.

Lemma explore_sstep_q q : forall s b fr n ps v,
  rt b s -> lookup_seg n ps = Some v -> stopped fr v = false -> quirk_free q s n ps = true ->
  exists r, explore q s n ps = XOk r /\
            (forall s', r = Some s' -> rt b s') /\
            lrep_opt r fr = flat_map (sstep n ps v) (rep s fr).
Proof.
  induction s as [sl|nx IH|fs IH|i nx IH|a b' nx IH|ms IH|sq cur lim stop IH1 IH2|] using sel_ind2;
    intros b fr n ps v Hrt Hl Hs Hq; try (apply explore_clause_sstep; auto; fail).
  - destruct ms as [|m ms]; [exists None; cbn; rewrite Hs; fin; reflexivity|].
    apply (explore_union_sim q (rt b) eq).
    + reflexivity.
    + intros; subst; reflexivity.
    + apply union_of_rt.
    + rewrite quirk_free_union, forallb_forall in Hq. inversion Hrt as [| | | | |? ? Hms| |]; subst.
      rewrite Forall_forall in *. intros x Hx. apply (IH x Hx); auto.
  - inversion Hrt as [| | | | | |? ? ? ? ? Hsq Hcur|]; subst.
    pose proof (explore_rec_sim q sq cur lim stop n ps v fr Hl Hs) as H. cbv zeta in H.
    set (fr' := mkframe sq lim stop :: fr) in *.
    destruct (stopped fr' v) eqn:Est; [destruct H as [-> ->]; exists None; fin; reflexivity|].
    destruct H as (-> & -> & Hc). cbn [quirk_free] in Hq. rewrite Hl in Hq.
    assert (Hq' : (if is_edge cur then true
                   else quirk_free q cur n ps &&
                        match explore q cur n ps with XOk (Some nx) => wrap_cond q sq lim nx | _ => true end) = true)
      by (destruct stop; [rewrite Hc in Hq|]; exact Hq).
    destruct (is_edge cur) eqn:Ee; [destruct cur; try discriminate; exists None; fin; reflexivity|].
    apply andb_true_iff in Hq'. destruct Hq' as [Q1 Q2].
    destruct (IH2 true fr' n ps v Hcur Hl Est Q1) as (r & Er & Rr & Lr). rewrite Er in *.
    destruct r as [nx|]; [|exists None; fin; exact Lr].
    destruct (wrap_q q sq lim stop Hsq nx b fr (Rr nx eq_refl) Q2) as (r' & Er' & Rr' & Lr').
    exists r'. split; [exact Er'|split; [exact Rr'|]]. rewrite <- Lr. exact Lr'.
  - cbn in Hq. apply negb_true_iff in Hq. exists None. cbn. rewrite Hq. fin. reflexivity.
Qed.

Lemma dedup_nodup l : forall seen,
  nodup_strs_b (map seg_string l) = true ->
  (forall p, In p l -> mem_bytes (seg_string p) seen = false) ->
  dedup_segs seen l = l.
Proof.
  induction l as [|p r IH]; intros seen Hn Hs; [reflexivity|].
  rewrite dedup_segs_cons.
  rewrite (Hs p (or_introl eq_refl)). f_equal.
  cbn in Hn. apply andb_true_iff in Hn. destruct Hn as [Hm Hn]. apply IH; [exact Hn|].
  intros p' Hin. cbn [mem_bytes]. rewrite (Hs p' (or_intror Hin)), orb_false_r.
  destruct (bytes_eqb (seg_string p') (seg_string p)) eqn:E; [|reflexivity].
  apply bytes_eqb_eq in E. apply negb_true_iff in Hm.
  assert (mem_bytes (seg_string p) (map seg_string r) = true) as Hc; [|congruence].
  apply mem_bytes_In. rewrite <- E. apply in_map. exact Hin.
Qed.

Lemma children_q q n s : interests_ok q s = true -> children q n s = children repaired n s.
Proof.
  unfold interests_ok, children. destruct (q_union_dup q); cbn [negb orb repaired q_union_dup]; [|reflexivity].
  destruct (interests s) as [attn|]; [|reflexivity]. intros H.
  rewrite dedup_nodup; [reflexivity|exact H|]. intros; reflexivity.
Qed.

Section WQ.
  Variable q : quirks.
  Variable g : list (bytes * dm).
  Hypothesis Hg : keys_graph g = true.
  Hypothesis Hsg : small_graph g = true.

  Theorem walk_denote_q f : forall ls P n s,
    walk_quirk_free q g f n s = true ->
    rt false s -> keys_ok n = true -> small_dm n = true ->
    walk q g f ls P n s = denote g f ls P n (rep s []).
  Proof.
    apply (walk_sim q g Hg Hsg eq) with (I := fun f n s => walk_quirk_free q g f n s = true).
    - intros; subst; reflexivity.
    - intros A B ->; tauto.
    - intros f0 n s Hqf Ec. cbn [walk_quirk_free] in Hqf. rewrite Ec in Hqf.
      apply andb_true_iff in Hqf. apply children_q, Hqf.
    - intros f0 n s ps v Hqf Ec Hrt Hin Hl. cbn [walk_quirk_free] in Hqf. rewrite Ec in Hqf.
      apply andb_true_iff in Hqf. destruct Hqf as [_ Hall]. rewrite forallb_forall in Hall.
      specialize (Hall _ Hin). cbn [fst snd] in Hall. apply andb_true_iff in Hall. destruct Hall as [Hqk Hrec].
      destruct (explore_sstep_q q s false [] n ps v Hrt Hl eq_refl Hqk) as (r & Er & Rr & Lr).
      exists r. rewrite Er in Hrec. split; [exact Er|split; [exact Lr|]].
      intros s' ->. split; [apply Rr; reflexivity|]. intros b Hb.
      destruct v; cbn in Hb; subst; try exact Hrec. rewrite Hb in Hrec. exact Hrec.
  Qed.
End WQ.

Theorem walk_denote_sel_q q g f root s :
  keys_graph g = true -> small_graph g = true -> keys_ok root = true -> small_dm root = true -> srcw false s ->
  walk_quirk_free q g f root s = true ->
  walk_adv q g f root s = denote_sel g f root s.
Proof.
  intros Hg Hsg Hk Hsm Hs Hq. unfold walk_adv, denote_sel. rewrite <- (rep_enter_closed s [] Hs).
  exact (walk_denote_q q g Hg Hsg f [] [] root s Hq (srcw_rt s false Hs) Hk Hsm).
Qed.

(* the condition is not vacuous for the pinned code: the canonical "explore everything recursively and
   match everything" selector with a depth limit, over a graph with a repeated link *)
Example pinned_fragment_example :
  let g := [([1; 113; 18; 1; 170]%N, DMap [([118%N], DInt 7)])] in
  let root := DMap [([97%N], DLink [1; 113; 18; 1; 170]%N);
                    ([98%N], DList [DInt 1; DLink [1; 113; 18; 1; 170]%N; DString [104%N; 105%N]])] in
  let sq := SUnion [SMatch None; SAll SEdge] in
  walk_quirk_free pinned g 10 root (SRec sq sq (Some 2) None) = true /\
  srcw false (SRec sq sq (Some 2) None).
Proof.
  split; [vm_compute; reflexivity|].
  constructor. constructor. constructor; [constructor; exact I|]. constructor; [|constructor]. constructor. constructor.
Qed.

(* matcher / all / fields / index / range and unions of them: the only deviation that can fire is the
   union's duplicate interests *)
Fixpoint norec (s : sel) : bool :=
  match s with
  | SMatch _ => true
  | SAll nx | SIndex _ nx | SRange _ _ nx => norec nx
  | SFields fs => (fix go (l : list (bytes * sel)) : bool :=
                     match l with [] => true | kv :: t => norec (snd kv) && go t end) fs
  | SUnion ms => (fix go (l : list sel) : bool :=
                    match l with [] => true | m :: t => norec m && go t end) ms
  | SRec _ _ _ _ | SEdge => false
  end.
Lemma norec_union ms : norec (SUnion ms) = forallb norec ms.
Proof. reflexivity. Qed.

Lemma quirk_free_norec q s : forall n p, norec s = true -> quirk_free q s n p = true.
Proof.
  induction s as [sl|nx IH|fs IH|i nx IH|a b' nx IH|ms IH|sq cur lim stop IH1 IH2|] using sel_ind2;
    intros n p H; try reflexivity; try discriminate.
  rewrite quirk_free_union. rewrite norec_union in H. rewrite forallb_forall in *. rewrite Forall_forall in IH.
  intros x Hx. apply IH; auto.
Qed.

Lemma norec_conts s s' : norec s = true -> In s' (conts s) -> norec s' = true.
Proof. intros H. apply (conts_forallb norec s s' H). destruct s; exact I || reflexivity. Qed.

Lemma explore_norec q s : forall n p s', norec s = true -> explore q s n p = XOk (Some s') -> norec s' = true.
Proof.
  induction s as [sl|nx IH|fs IH|i nx IH|a b' nx IH|ms IH|sq cur lim stop IH1 IH2|] using sel_ind2;
    intros n p s' H E; try discriminate; try (apply explore_conts in E; [exact (norec_conts _ _ H E)|reflexivity]).
  rewrite explore_union in E. destruct (explore_all q n p ms) as [rs| |] eqn:Ers; try discriminate. inversion E as [E'].
  apply (union_of_closed (fun x => norec x = true) rs s'); [| |exact E'].
  - intros m t Hl. rewrite norec_union. apply forallb_forall, Forall_forall, Hl.
  - rewrite norec_union in H. clear E E'. revert rs Ers H.
    induction IH as [|m t Hm _ IHt]; intros rs Ers H; [inversion Ers; constructor|].
    cbn in Ers, H. apply andb_true_iff in H. destruct H as [H1 H2].
    destruct (explore q m n p) as [r| |] eqn:Em; try discriminate.
    destruct (explore_all q n p t) as [rs'| |]; try discriminate. inversion Ers; subst.
    destruct r; [constructor; [exact (Hm n p s H1 Em)|]|]; exact (IHt rs' eq_refl H2).
Qed.

Fixpoint walk_interests_ok (q : quirks) (g : list (bytes * dm)) (f : nat) (n : dm) (s : sel) : bool :=
  match f with
  | O => true
  | S f' =>
      if is_container n then
        interests_ok q s &&
        forallb (fun k =>
                   match explore q s n (fst k) with
                   | XOk (Some s') =>
                       match snd k with
                       | DLink c => match assoc c g with Some b => walk_interests_ok q g f' b s' | None => true end
                       | v => walk_interests_ok q g f' v s'
                       end
                   | _ => true
                   end) (children q n s)
      else true
  end.

Lemma norec_quirk_free q g f : forall n s,
  norec s = true -> walk_interests_ok q g f n s = true -> walk_quirk_free q g f n s = true.
Proof.
  induction f as [|f IH]; intros n s Hn H; [reflexivity|].
  cbn [walk_interests_ok walk_quirk_free] in *. destruct (is_container n); [|reflexivity].
  apply andb_true_iff in H. destruct H as [Hi Hall]. rewrite Hi. cbn [andb].
  rewrite forallb_forall in *. intros k Hin. specialize (Hall k Hin).
  rewrite (quirk_free_norec q s n (fst k) Hn). cbn [andb].
  destruct (explore q s n (fst k)) as [[s'|]| |] eqn:E; try reflexivity.
  pose proof (explore_norec q s n (fst k) s' Hn E) as Hn'.
  destruct (snd k); try (apply IH; assumption).
  destruct (assoc c g); [apply IH; assumption|reflexivity].
Qed.

Lemma quirk_free_repaired s : forall n p, quirk_free repaired s n p = true.
Proof.
  induction s as [sl|nx IH|fs IH|i nx IH|a b' nx IH|ms IH|sq cur lim stop IH1 IH2|] using sel_ind2;
    intros n p; try reflexivity.
  - rewrite quirk_free_union. apply forallb_forall. rewrite Forall_forall in IH. intros x Hx. apply IH, Hx.
  - cbn [quirk_free]. rewrite IH2.
    assert (E : (if is_edge cur then true
                 else true && match explore repaired cur n p with XOk (Some nx) => wrap_cond repaired sq lim nx | _ => true end) = true).
    { destruct (is_edge cur); [reflexivity|]. destruct (explore repaired cur n p) as [[nx|]| |]; reflexivity. }
    rewrite E. destruct stop; [|reflexivity]. destruct (lookup_seg n p); [|reflexivity].
    destruct (cond_match l d); reflexivity.
Qed.

Lemma walk_quirk_free_repaired g f : forall n s, walk_quirk_free repaired g f n s = true.
Proof.
  induction f as [|f IH]; intros n s; [reflexivity|].
  cbn [walk_quirk_free]. destruct (is_container n); [|reflexivity].
  replace (interests_ok repaired s) with true by reflexivity. cbn [andb].
  apply forallb_forall. intros k _. rewrite quirk_free_repaired. cbn [andb].
  destruct (explore repaired s n (fst k)) as [[s'|]| |]; try reflexivity.
  destruct (snd k); try apply IH. destruct (assoc c g); [apply IH|reflexivity].
Qed.

