(* Proofs/StoreStep.v — no system call removes a directory ([sys_eff_keeps_dir]) and every one keeps the tree
   well-formed, so [steady] holds under every execution, whatever the writers are; a writer run alone is one more
   execution, so it keeps [inv] and [steady] at every step ([reach_safe]). *)
Require Import IP.Base.Bytes IP.Base.GoSem IP.Gen.FromGo IP.Store.Storage IP.Store.FsStore IP.Store.FsCrash.
Require Import IP.Proofs.StoreBase IP.Proofs.StoreCrash IP.Proofs.StoreSeq.
From Coq Require Import Lia List Bool Arith.
Import ListNotations.

Section Steady.
  Variable cfg : fscfg.
  Variable C : key -> bytes -> Prop.

  (* with the tree well-formed, .temp brings the base chain with it ([wf_all_dirs]) *)
  Definition steady (f : fs) : Prop := fs_wf f /\ fs_lookup f (staging_dir (f_base cfg)) = Some Dir.

  Lemma sys_exec_steady : forall f s, steady f -> steady (fst (sys_exec f s)).
  Proof.
    intros f s [W T]. split. apply sys_exec_wf, W. exact (sys_eff_keeps_dir _ _ _ _ _ (sys_exec_spec f s) T).
  Qed.

  (* a failing call did nothing, or was a shorter write *)
  Lemma exec_ev_steady : forall f ws e, steady f -> steady (fst (exec_ev f ws e)).
  Proof.
    intros f ws e S.
    destruct e as [i|i err part]; simpl;
      (destruct (nth_error ws i) as [w|]; simpl; auto);
      (destruct (w_next (w_env w) (w_pc w)) as [s|]; simpl; auto).
    - pose proof (sys_exec_steady f s S) as S1. destruct (sys_exec f s). exact S1.
    - destruct s; auto. apply sys_exec_steady, S.
  Qed.

  Lemma exec_steady : forall sched f ws, steady f -> steady (fst (exec f ws sched)).
  Proof.
    induction sched; intros f ws S; simpl; auto.
    pose proof (exec_ev_steady f ws a S) as S1.
    destruct (exec_ev f ws a) as [f1 ws1]. apply IHsched, S1.
  Qed.

  Variable env : wenv.
  Variable k : key.
  Variable chunks : list bytes.

  Definition solo (pc : wpc) : writer := {| w_env := env; w_key := k; w_chunks := chunks; w_pc := pc |}.

  Lemma exec_solo : forall n f pc,
    exec f [solo pc] (repeat (SStep 0) n) = (fst (iter env n (f, pc)), [solo (snd (iter env n (f, pc)))]).
  Proof.
    induction n; intros f pc; [reflexivity|]. cbn [repeat exec iter]. unfold step1. simpl.
    destruct (w_next env pc); [destruct (sys_exec f s)|]; apply IHn.
  Qed.

  Lemma reach_safe : forall n f pc f' pc', reach env n (f, pc) (f', pc') -> inv cfg C f [solo pc] -> steady f ->
    inv cfg C f' [solo pc'] /\ steady f'.
  Proof.
    intros n0 f pc f' pc' [n [_ IT]] I S.
    pose proof (exec_inv cfg C (repeat (SStep 0) n) _ _ I) as I1. pose proof (exec_steady (repeat (SStep 0) n) _ [solo pc] S) as S1.
    rewrite exec_solo, IT in I1, S1. auto.
  Qed.
End Steady.
