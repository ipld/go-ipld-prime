(* Proofs/XformExpand.v — the executable expansion [xexpand] (used by the oracle of the C16 check)
   produces an expansion that satisfies the hypotheses of the C16 theorems. *)
Require Import IP.Base.Bytes IP.DM.Value IP.Xform.Transform IP.Proofs.BytesFacts IP.Proofs.XformBase.
Open Scope Z_scope.

Lemma xexpand_S fu st v :
  xexpand (S fu) st v =
  match v with
  | DList l => XList (map (xexpand (S fu) st) l)
  | DMap m => XMap (map (fun kv => (fst kv, xexpand (S fu) st (snd kv))) m)
  | DLink c => match lookup c st with Some b => XBlock c (xexpand fu st b) | None => XLeaf v end
  | _ => XLeaf v
  end.
Proof. destruct v; reflexivity. Qed.

Lemma xexpand_raw st : forall fuel v, raw (xexpand fuel st v) = v.
Proof.
  induction fuel as [|fu IH]; intro v; [apply raw_inject|].
  induction v using dm_ind2; rewrite xexpand_S; try reflexivity.
  - destruct (lookup c st); reflexivity.
  - cbn [raw]. f_equal. rewrite map_map. now apply map_id_Forall.
  - cbn [raw]. f_equal. rewrite map_map. now apply (map_snd_id_Forall (fun x => raw (xexpand (S fu) st x))).
Qed.

Lemma xexpand_valid st : forall fuel v, valid st (xexpand fuel st v).
Proof.
  induction fuel as [|fu IH]; intro v; [apply valid_inject|].
  induction v using dm_ind2; rewrite xexpand_S; try constructor.
  - destruct (lookup c st) eqn:E; constructor; [now rewrite xexpand_raw | apply IH].
  - rewrite Forall_map. exact H.
  - rewrite Forall_map. exact H.
Qed.

Definition store_uniq (st : store) : Prop := forall c b, lookup c st = Some b -> wf_dm b = true.

Lemma xexpand_wfx st : store_uniq st -> forall fuel v, wf_dm v = true -> wfx (xexpand fuel st v).
Proof.
  intros Hst. induction fuel as [|fu IH]; intro v; [apply wfx_inject|].
  induction v using dm_ind2; rewrite xexpand_S; intro Hw; try (constructor; reflexivity).
  - destruct (lookup c st) eqn:E; constructor; [|reflexivity]. apply IH. eapply Hst; eassumption.
  - constructor. rewrite Forall_map. simpl in Hw. rewrite forallb_forall in Hw.
    rewrite Forall_forall in *. auto.
  - simpl in Hw. apply andb_true_iff in Hw as [Hu Hw]. constructor.
    + now rewrite uniqb_map.
    + rewrite Forall_map. rewrite forallb_forall in Hw. rewrite Forall_forall in *. simpl. auto.
Qed.
