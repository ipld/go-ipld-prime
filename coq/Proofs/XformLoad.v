(* Proofs/XformLoad.v — a transform that has to go through a link whose block the storage does not hold (or
   refuses to load: the harness's read faults) fails with the load error at that point, whatever the callback,
   the options and the defects switched on; nothing is stored and the callback is not run (the result is Err). *)
Require Import IP.Base.Bytes IP.DM.Value IP.Xform.Transform.

Lemma ft_link_missing ltb mklink q f cp fault fu c na seg p2 w :
  lookup c (w_store w) = None ->
  ft ltb mklink q f cp fault (S fu) (Some (DLink c)) na (seg :: p2) w = Err ELoad.
Proof. intros H. cbn [ft]. rewrite H. reflexivity. Qed.

Lemma ft_link_empty_store ltb mklink q f cp fault fu c na seg p2 log :
  ft ltb mklink q f cp fault (S fu) (Some (DLink c)) na (seg :: p2) ([], log) = Err ELoad.
Proof. apply ft_link_missing. reflexivity. Qed.
