(* Proofs/SchemaPerm.v — conformance and representation are invariant under reordering of map entries:
   if two trees are the same up to map-entry order ([peq]) and one conforms, so does the other, and
   the typed values are the same up to typed-map order ([veq]); representations of [veq] values are
   [peq].  With SchemaRound / SchemaBuild this gives [rebuild_peq], from which the bytes round trip of C08
   follows over any codec that canonicalises map order ([bytes_full]) and over the concrete dag-cbor and
   dag-json models (Proofs/SchemaCbor.v, SchemaJson.v).  The schema side's [peq] / [dm_wf] are the codec
   side's [perm_eq] / [keys_nodup] ([peq_iff], [dm_wf_keys_nodup]). *)
Require Import IP.Base.Bytes IP.DM.Value IP.Schema.Types IP.Schema.View IP.Schema.Conform IP.Schema.Sem
  IP.Schema.Perm IP.Proofs.SchemaBase IP.Proofs.SchemaBuild IP.Proofs.SchemaRepr IP.Proofs.SchemaRound
  IP.Proofs.SchemaTop IP.Proofs.CborEnc.
From Coq Require Import Lia Permutation.
Open Scope N_scope.

Lemma meq_refl m : meq veq m m.
Proof. destruct m; constructor. apply veq_refl. Qed.

Lemma peq_kind d d' : peq d d' -> kind_of d = kind_of d'.
Proof. intros H; inversion H; reflexivity. Qed.

Lemma nodupb_perm l l' : Permutation l l' -> nodupb l = nodupb l'.
Proof.
  intros H. destruct (nodupb l) eqn:E1; destruct (nodupb l') eqn:E2; auto.
  - apply nodupb_NoDup in E1. apply (Permutation_NoDup H) in E1. apply nodupb_NoDup in E1. congruence.
  - apply nodupb_NoDup in E2. apply (Permutation_NoDup (Permutation_sym H)) in E2. apply nodupb_NoDup in E2. congruence.
Qed.

Definition orel {A B} (R : A -> B -> Prop) (o : option A) (o' : option B) : Prop :=
  forall a, o = Some a -> exists b, o' = Some b /\ R a b.

Lemma orel_ret {A B} (R : A -> B -> Prop) a b : R a b -> orel R (Some a) (Some b).
Proof. intros H x E. inversion E; subst. eauto. Qed.

Lemma orel_none {A B} (R : A -> B -> Prop) o' : orel R None o'.
Proof. intros a E. discriminate. Qed.

Lemma orel_refl {A} (R : A -> A -> Prop) o : (forall a, R a a) -> orel R o o.
Proof. intros H a E. eauto. Qed.

Lemma orel_bind {A A' B B'} (R : A -> A' -> Prop) (S : B -> B' -> Prop) o o' f g :
  orel R o o' -> (forall a a', R a a' -> orel S (f a) (g a')) ->
  orel S (match o with Some a => f a | None => None end) (match o' with Some a => g a | None => None end).
Proof.
  intros H Hf b. destruct o as [a|]; [|discriminate]. destruct (H a eq_refl) as [a' [-> Ha]]. now apply Hf.
Qed.

Lemma mapM_orel {A A' B B'} (R : A -> A' -> Prop) (S : B -> B' -> Prop) f g l l' :
  (forall x y, R x y -> orel S (f x) (g y)) -> Forall2 R l l' -> orel (Forall2 S) (mapM f l) (mapM g l').
Proof.
  intros Hf. induction 1 as [|x y l l' Hxy _ IH]; cbn; [apply orel_ret; constructor|].
  apply (orel_bind S); [now apply Hf|]. intros r r' Hr.
  apply (orel_bind (Forall2 S)); [exact IH|]. intros rs rs' Hrs. apply orel_ret. now constructor.
Qed.

Lemma mapM_perm {A B} (f : A -> option B) l l' :
  Permutation l l' -> forall rs, mapM f l = Some rs -> exists rs', mapM f l' = Some rs' /\ Permutation rs rs'.
Proof.
  induction 1 as [|x l l' _ IH|x y l|l1 l2 l3 _ IH1 _ IH2]; intros rs; cbn.
  - intros E; inversion E. exists []. auto.
  - destruct (f x) as [r|]; [|discriminate]. destruct (mapM f l) as [rr|]; [|discriminate].
    intros E; inversion E; subst. destruct (IH rr eq_refl) as [rr' [H1 H2]]. rewrite H1. eexists; split; eauto.
  - destruct (f y) as [ry|]; [|discriminate]. destruct (f x) as [rx|]; [|discriminate].
    destruct (mapM f l) as [rr|]; [|discriminate]. intros E; inversion E; subst.
    eexists; split; eauto. apply perm_swap.
  - intros E. destruct (IH1 rs E) as [r2 [H1 P1]]. destruct (IH2 r2 H1) as [r3 [H2 P2]].
    exists r3. split; auto. eapply perm_trans; eauto.
Qed.

Lemma peq_scalar d d' : peq d d' ->
  match d with DList _ | DMap _ => True | _ => d' = d end.
Proof. intros H; inversion H; subst; auto; destruct d'; auto. Qed.

Definition erel (a b : bytes * dm) : Prop := fst a = fst b /\ peq (snd a) (snd b).

(* what peq says of a list or a map, the reflexive case included *)
Lemma peq_list_inv l d' : peq (DList l) d' -> exists l', d' = DList l' /\ Forall2 peq l l'.
Proof.
  intros H; inversion H; subst; eauto. exists l. split; auto. apply F2_refl, peq_refl.
Qed.

Lemma peq_map_inv m d' : peq (DMap m) d' ->
  exists m1 m', d' = DMap m' /\ Forall2 erel m m1 /\ Permutation m1 m'.
Proof.
  intros H; inversion H; subst; eauto. exists m, m. repeat split; auto.
  apply F2_refl. intros x. split; auto. apply peq_refl.
Qed.

Lemma peq_single_inv k x d' : peq (DMap [(k, x)]) d' -> exists x', d' = DMap [(k, x')] /\ peq x x'.
Proof.
  intros H. apply peq_map_inv in H as (m1 & m' & -> & HF & HP).
  inversion HF as [|? [kb xb] ? r0 [Hk Hx] Hr0]; subst. inversion Hr0; subst.
  apply Permutation_length_1_inv in HP; subst. cbn in Hk. subst kb. eauto.
Qed.

Lemma dm_wf_list l : dm_wf (DList l) = forallb dm_wf l.
Proof. reflexivity. Qed.
Lemma dm_wf_map m : dm_wf (DMap m) = nodupb (map fst m) && forallb (fun kv => dm_wf (snd kv)) m.
Proof. reflexivity. Qed.

Lemma forallb_F2 {A B} (R : A -> B -> Prop) (p : A -> bool) (p' : B -> bool) l l' :
  Forall2 R l l' -> (forall x y, In x l -> R x y -> p x = true -> p' y = true) ->
  forallb p l = true -> forallb p' l' = true.
Proof.
  induction 1 as [|x y l l' Hxy _ IH]; cbn; auto. intros Hp. rewrite !andb_true_iff. intros [H1 H2]. split.
  - eapply Hp; eauto.
  - apply IH; auto. intros a b Ha. apply Hp. now right.
Qed.

Lemma peq_dm_wf d : forall d', peq d d' -> dm_wf d = true -> dm_wf d' = true.
Proof.
  induction d using dm_ind2; intros d' Hp Hw; try (inversion Hp; subst; exact Hw); rewrite Forall_forall in H.
  - apply peq_list_inv in Hp as (l' & -> & HF0). rewrite dm_wf_list in *.
    revert Hw. apply (forallb_F2 _ _ _ _ _ HF0). intros x y Hx. now apply H.
  - apply peq_map_inv in Hp as (m1 & m' & -> & HF0 & HP0).
    rewrite dm_wf_map in *. apply andb_true_iff in Hw as [Hnd Hall]. apply andb_true_iff. split.
    + rewrite <- (nodupb_perm _ _ (F2_perm_keys _ _ _ _ HF0 HP0)). exact Hnd.
    + rewrite <- (forallb_perm _ _ _ HP0). revert Hall. apply (forallb_F2 _ _ _ _ _ HF0).
      intros a b Ha [_ Hab]. now apply H.
Qed.

Definition conf_respects (rc : ty -> dm -> option tv) : Prop :=
  forall c d d', peq d d' -> orel veq (rc c d) (rc c d').

Section ConfPerm.
  Variables (lvl : level) (rc : ty -> dm -> option tv).
  Hypothesis Hrec : conf_respects rc.

  Lemma conf_maybe_peq nul c d d' : peq d d' ->
    orel (meq veq) (conf_maybe rc nul c d) (conf_maybe rc nul c d').
  Proof.
    intros Hp. pose proof (peq_kind _ _ Hp) as Hk. unfold conf_maybe.
    destruct d; try (destruct d'; try discriminate; apply (orel_bind veq); [now apply Hrec|];
                     intros v v' Hv; apply orel_ret; now constructor).
    destruct d'; try discriminate. destruct nul; [apply orel_ret; constructor|apply orel_none].
  Qed.

  Lemma erel_in m m1 k d : Forall2 erel m m1 -> In (k, d) m -> exists d1, In (k, d1) m1 /\ peq d d1.
  Proof.
    induction 1 as [|a b l l' [H1 H2] _ IH]; [contradiction|]. intros [E|Hin].
    - subst a. destruct b as [kb db]. cbn in *. subst kb. exists db. split; auto.
    - destruct (IH Hin) as [d1 [Hd1 Hp]]. exists d1. split; auto. now right.
  Qed.

  Lemma assoc_rel m m1 m' k : NoDup (map fst m) -> Forall2 erel m m1 -> Permutation m1 m' ->
    match assoc k m with
    | Some d => exists d', assoc k m' = Some d' /\ peq d d'
    | None => assoc k m' = None
    end.
  Proof.
    intros Hnd HF HP.
    pose proof (F2_perm_keys _ _ _ _ HF HP) as Hkeys.
    destruct (assoc k m) as [d|] eqn:E.
    - apply assoc_In in E. destruct (erel_in _ _ _ _ HF E) as [d1 [Hin Hp]].
      exists d1. split; auto. apply assoc_nodup_In.
      + eapply Permutation_NoDup; eauto.
      + eapply Permutation_in; eauto.
    - apply assoc_None. apply assoc_None in E. intros Hin. apply E.
      eapply Permutation_in; [apply Permutation_sym; exact Hkeys|exact Hin].
  Qed.

  Lemma conf_fields_peq key fs m m1 m' :
    Forall2 erel m m1 -> Permutation m1 m' -> orel veq (conf_fields rc key fs m) (conf_fields rc key fs m').
  Proof.
    intros HF HP. unfold conf_fields.
    pose proof (F2_perm_keys _ _ _ _ HF HP) as Hkeys.
    rewrite <- (nodupb_perm _ _ Hkeys).
    rewrite <- !(forallb_map (fun k => existsb (fun f => bytes_eqb (key (fst f)) k) fs) fst).
    rewrite <- (forallb_perm _ _ _ Hkeys).
    destruct (nodupb (map fst m)) eqn:End; [|apply orel_none]. apply nodupb_NoDup in End.
    destruct (forallb _ (map fst m)); [|apply orel_none]. cbn [andb].
    apply (orel_bind (Forall2 (meq veq))); [|intros vs vs' Hvs; apply orel_ret; now apply veq_struct].
    apply (mapM_orel eq); [|now apply F2_refl]. intros f ? <-.
    pose proof (assoc_rel m m1 m' (key (fst f)) End HF HP) as Ha.
    destruct (assoc (key (fst f)) m) as [d|].
    - destruct Ha as [d' [-> Hp]]. now apply conf_maybe_peq.
    - rewrite Ha. destruct (f_opt (fst f)); [apply orel_ret; constructor|apply orel_none].
  Qed.

  Lemma conf_tuple_peq fs : forall l l', Forall2 peq l l' ->
    orel (Forall2 (meq veq)) (conf_tuple rc fs l) (conf_tuple rc fs l').
  Proof.
    induction fs as [|f fs IH]; intros l l' HF; inversion HF as [|x y r r' Hxy Hr]; subst; cbn.
    - apply orel_ret. constructor.
    - apply orel_none.
    - apply orel_refl. intros vs. apply F2_refl, meq_refl.
    - apply (orel_bind (meq veq)); [now apply conf_maybe_peq|]. intros v v' Hv.
      apply (orel_bind (Forall2 (meq veq))); [now apply IH|]. intros vs vs' Hvs. apply orel_ret. now constructor.
  Qed.

  Lemma pair_of_peq x y : peq x y -> orel erel (pair_of x) (pair_of y).
  Proof.
    unfold pair_of. intros Hp kd. destruct x; try discriminate. destruct l as [|a l]; try discriminate.
    destruct a; try discriminate. destruct l as [|b l]; try discriminate. destruct l; try discriminate.
    intros E; inversion E; subst. apply peq_list_inv in Hp as (l' & -> & HF).
    inversion HF as [|? y0 ? r0 Hq0 Hr0]; subst.
    inversion Hr0 as [|? y1 ? r1 Hq1 Hr1]; subst. inversion Hr1; subst.
    pose proof (peq_scalar _ _ Hq0) as Hs. cbn in Hs. subst y0.
    exists (s, y1). split; auto. split; auto.
  Qed.

  Lemma conf_member_peq ms p x x' : peq x x' -> orel veq (conf_member rc ms p x) (conf_member rc ms p x').
  Proof.
    intros Hp. unfold conf_member. destruct (find_idx _ ms) as [[i m]|]; [|apply orel_none].
    apply (orel_bind veq); [now apply Hrec|]. intros w w' Hw. apply orel_ret. now apply veq_union.
  Qed.

  Lemma conf_step_peq : conf_respects (conf_step lvl rc).
  Proof.
    intros t d d' Hp. unfold conf_step. rewrite <- (peq_kind _ _ Hp).
    destruct (kind_eqb (kind_of d) KNull); [apply orel_none|].
    pose proof (peq_scalar _ _ Hp) as Hs.
    destruct t.
    1-6: (destruct d; cbn in Hs; try (subst d'; apply orel_refl, veq_refl); try destruct w; apply orel_none).
    - cbn [conf_scalar]. rewrite <- (peq_kind _ _ Hp).
      destruct (negb (kind_eqb (kind_of d) KNull)); [|apply orel_none]. cbn [andb].
      destruct (dm_wf d) eqn:Ew; [|apply orel_none].
      rewrite (peq_dm_wf _ _ Hp Ew). apply orel_ret. now apply veq_any.
    - destruct d; try apply orel_none. apply peq_list_inv in Hp as (l' & -> & HF).
      apply (orel_bind (Forall2 (meq veq))); [exact (mapM_orel _ _ _ _ _ _ (conf_maybe_peq nul t) HF)|].
      intros vs vs' Hvs. apply orel_ret. now apply veq_list.
    - (* entry by entry, then reordered *)
      destruct d; try apply orel_none. apply peq_map_inv in Hp as (m1 & m' & -> & HF & HP).
      rewrite <- (nodupb_perm _ _ (F2_perm_keys _ _ _ _ HF HP)).
      destruct (nodupb (map fst m)); [|apply orel_none].
      set (G := fun kv : bytes * dm => match conf_maybe rc nul t (snd kv) with
                                       | Some v0 => Some (fst kv, v0) | None => None end).
      assert (HG : forall x y, erel x y ->
                   orel (fun r r' => fst r = fst r' /\ meq veq (snd r) (snd r')) (G x) (G y)).
      { intros x y [Hk Hpe]. apply (orel_bind (meq veq)); [now apply conf_maybe_peq|].
        intros w w' Hw. rewrite Hk. now apply orel_ret. }
      intros v. destruct (mapM G m) as [vs|] eqn:Em; [|discriminate]. intros E; inversion E; subst.
      destruct (mapM_orel erel _ G G m m1 HG HF vs Em) as [vs1 [Em1 Hvs1]].
      destruct (mapM_perm G m1 m' HP vs1 Em1) as [vs' [Em' Hperm]].
      rewrite Em'. eexists; split; [reflexivity|]. eapply veq_map; eauto.
    - destruct lvl; destruct r; destruct d; try apply orel_none.
      1-5: (apply peq_map_inv in Hp as (m1 & m' & -> & HF & HP); now apply (conf_fields_peq _ fs m m1 m')).
      + apply peq_list_inv in Hp as (l' & -> & HF).
        apply (orel_bind (Forall2 (meq veq))); [now apply conf_tuple_peq|].
        intros vs vs' Hvs. apply orel_ret. now apply veq_struct.
      + cbn in Hs. subst d'. apply orel_refl, veq_refl.
      + apply peq_list_inv in Hp as (l' & -> & HF).
        apply (orel_bind (Forall2 erel)); [exact (mapM_orel _ _ _ _ _ _ pair_of_peq HF)|].
        intros m m' Hm. exact (conf_fields_peq f_name fs m m' m' Hm (Permutation_refl _)).
    - destruct lvl; destruct r.
      1-4: (destruct d as [| | | | | | | |m]; try apply orel_none; destruct m as [|[k x] [|? ?]]; try apply orel_none;
            apply peq_single_inv in Hp as (x' & -> & Hx); now apply conf_member_peq).
      + now apply conf_member_peq.
      + destruct d; try apply orel_none. cbn in Hs. subst d'. apply orel_refl, veq_refl.
    - destruct lvl; destruct d; try apply orel_none; cbn in Hs; subst d'; apply orel_refl, veq_refl.
  Qed.
End ConfPerm.

Theorem conf_peq lvl n : conf_respects (conf_f lvl n).
Proof.
  induction n as [|n IH]; [intros c d d' _; apply orel_none|].
  unfold conf_f in *. cbn [fuel_rec]. apply conf_step_peq. exact IH.
Qed.

Lemma peq_str_of a b : peq a b -> str_of a = str_of b.
Proof. intros H. pose proof (peq_scalar _ _ H) as Hs. destruct a; cbn in *; subst; auto; inversion H; reflexivity. Qed.

Lemma zip_F2 {F} (R : maybe tv -> maybe tv -> Prop) (fs : list F) vs vs' :
  Forall2 R vs vs' -> Forall2 (fun x y => fst x = fst y /\ R (snd x) (snd y)) (zip fs vs) (zip fs vs').
Proof.
  intros H. revert fs. induction H as [|a b l l' Hab _ IH]; intros fs; destruct fs; cbn; constructor; auto.
Qed.

Lemma meq_absent_eq R a b : meq R a b -> is_absent a = is_absent b.
Proof. intros H; inversion H; reflexivity. Qed.

Lemma present_F2 {F} (fs : list F) vs vs' :
  Forall2 (meq veq) vs vs' ->
  Forall2 (fun x y => fst x = fst y /\ meq veq (snd x) (snd y)) (present fs vs) (present fs vs').
Proof.
  intros H. unfold present. pose proof (zip_F2 (meq veq) fs vs vs' H) as HZ.
  induction HZ as [|x y l l' [H1 H2] _ IH]; cbn; [constructor|].
  rewrite (meq_absent_eq _ _ _ H2). destruct (is_absent (snd y)); cbn; auto.
Qed.

Lemma F2_map {A B} (R : A -> A -> Prop) (S : B -> B -> Prop) (g : A -> B) l l' :
  (forall x y, R x y -> S (g x) (g y)) -> Forall2 R l l' -> Forall2 S (map g l) (map g l').
Proof. intros Hg. induction 1; cbn; constructor; auto. Qed.

Definition repr_respects (rp : ty -> tv -> dm) : Prop := forall c v v', veq v v' -> peq (rp c v) (rp c v').

Section ReprPerm.
  Variable rp : ty -> tv -> dm.
  Hypothesis Hrec : repr_respects rp.

  Lemma repr_maybe_peq c m m' : meq veq m m' -> peq (repr_maybe rp c m) (repr_maybe rp c m').
  Proof. intros H; inversion H; subst; cbn; try apply peq_refl. now apply Hrec. Qed.

  Lemma repr_step_peq : repr_respects (repr_step rp).
  Proof.
    intros t v v' Hv.
    inversion Hv as [|d d' HP0|l l' HF0|l l' HF0|i w w' HV|m m1 m' HF0 HP0]; subst; try apply peq_refl.
    - destruct t; cbn; try apply peq_refl. assumption.
    - destruct t; cbn; try apply peq_refl. apply peq_list.
      eapply F2_map; [|eassumption]. intros x y Hxy. now apply repr_maybe_peq.
    - destruct t; cbn; try apply peq_refl.
      pose proof (present_F2 fs _ _ HF0) as HP.
      destruct r; cbn.
      + eapply peq_map; [|apply Permutation_refl].
        eapply F2_map; [|exact HP]. intros x y [H1 H2]. cbn. rewrite H1. split; auto. now apply repr_maybe_peq.
      + apply peq_list. eapply F2_map; [|exact HP]. intros x y [H1 H2]. rewrite H1. now apply repr_maybe_peq.
      + assert (E : map (fun x => str_of (repr_maybe rp (snd (fst x)) (snd x))) (zip fs l) =
                    map (fun x => str_of (repr_maybe rp (snd (fst x)) (snd x))) (zip fs l')).
        { pose proof (zip_F2 (meq veq) fs _ _ HF0) as HZ.
          induction HZ as [|x y r r' [H1 H2] _ IH]; cbn; auto. rewrite IH. f_equal.
          rewrite H1. apply peq_str_of. now apply repr_maybe_peq. }
        rewrite E. apply peq_refl.
      + apply peq_list. eapply F2_map; [|exact HP]. intros x y [H1 H2]. rewrite H1.
        apply peq_list. constructor; [apply peq_refl|]. constructor; [|constructor]. now apply repr_maybe_peq.
    - destruct t; cbn; try apply peq_refl. destruct (nth_error ms i) as [m|]; [|apply peq_refl].
      pose proof (Hrec (snd m) w w' HV) as Hr.
      destruct r.
      + eapply peq_map; [|apply Permutation_refl]. constructor; [|constructor]. cbn. auto.
      + exact Hr.
      + rewrite (peq_str_of _ _ Hr). apply peq_refl.
    - destruct t; cbn; try apply peq_refl.
      eapply peq_map with (m1 := map (fun kv => (fst kv, repr_maybe rp t (snd kv))) m1).
      + eapply F2_map; [|exact HF0]. intros x y [H1 H2]. cbn. rewrite H1. split; auto. now apply repr_maybe_peq.
      + now apply Permutation_map.
  Qed.
End ReprPerm.

Theorem repr_veq n : repr_respects (repr_f n).
Proof.
  induction n as [|n IH]; [intros c v v' _; apply peq_refl|].
  unfold repr_f in *. cbn [fuel_rec]. apply repr_step_peq. exact IH.
Qed.

Definition has_respects (hs : ty -> tv -> bool) : Prop := forall c v v', veq v v' -> hs c v = true -> hs c v' = true.

Section HasPerm.
  Variables (hs : ty -> tv -> bool) (rp : ty -> tv -> dm).
  Hypothesis Hh : has_respects hs.
  Hypothesis Hr : repr_respects rp.

  Lemma has_maybe_veq opt nul c m m' : meq veq m m' -> has_maybe hs opt nul c m = true -> has_maybe hs opt nul c m' = true.
  Proof. intros H; inversion H; subst; cbn; auto. now apply Hh. Qed.

  Lemma has_fields_veq fs : forall vs vs', Forall2 (meq veq) vs vs' -> has_fields hs fs vs = true -> has_fields hs fs vs' = true.
  Proof.
    induction fs as [|f fs IH]; intros vs vs' HF; inversion HF as [|a b r r' Hab Hr']; subst; cbn; auto.
    rewrite !andb_true_iff. intros [H1 H2]. split; [eapply has_maybe_veq; eauto|eapply IH; eauto].
  Qed.

  Lemma has_step_veq : has_respects (has_step hs rp).
  Proof.
    intros t v v' Hv.
    inversion Hv as [|d d' HP0|l l' HF0|l l' HF0|i w w' HV|m m1 m' HF0 HP0]; subst; auto.
    - destruct t; cbn; auto.
      rewrite <- (peq_kind _ _ HP0). rewrite !andb_true_iff. intros [H1 H2]. split; auto.
      eapply peq_dm_wf; eauto.
    - destruct t; cbn; auto.
      apply (forallb_F2 _ _ _ _ _ HF0). intros a b _. apply has_maybe_veq.
    - destruct t; cbn; auto.
      clear Hv. rewrite !andb_true_iff. intros [H1 H2]. split; [eapply has_fields_veq; eauto|].
      destruct r; auto.
      + assert (E : map is_absent l = map is_absent l').
        { clear -HF0. induction HF0 as [|a b r r' Hab _ IH]; cbn; auto. now rewrite IH, (meq_absent_eq _ _ _ Hab). }
        now rewrite <- E.
      + revert H2. apply (forallb_F2 _ _ _ _ _ (zip_F2 (meq veq) fs _ _ HF0)). intros x y _ [Hk Hm].
        now rewrite <- Hk, <- (peq_str_of _ _ (repr_maybe_peq rp Hr (snd (fst x)) _ _ Hm)).
    - destruct t; cbn; auto. destruct (nth_error ms i); auto. now apply Hh.
    - destruct t; cbn; auto.
      rewrite !andb_true_iff. intros [H1 H2]. split.
      + rewrite <- (nodupb_perm _ _ (F2_perm_keys _ _ _ _ HF0 HP0)). exact H1.
      + rewrite <- (forallb_perm _ _ _ HP0). revert H2. apply (forallb_F2 _ _ _ _ _ HF0).
        intros a b _ [_ Hm]. now apply has_maybe_veq.
  Qed.
End HasPerm.

Theorem has_veq n : has_respects (has_f n).
Proof.
  induction n as [|n IH]; [intros c v v' _ H; discriminate|].
  cbn [has_f]. apply has_step_veq; [exact IH|apply repr_veq].
Qed.

Definition repr_wf (hs : ty -> tv -> bool) (rp : ty -> tv -> dm) : Prop :=
  forall c v, hs c v = true -> wf c = true -> dm_wf (rp c v) = true.

Section ReprWf.
  Variables (hs : ty -> tv -> bool) (rp : ty -> tv -> dm).
  Hypothesis Hrec : repr_wf hs rp.

  Lemma repr_maybe_wf opt nul c m : wf c = true -> has_maybe hs opt nul c m = true -> dm_wf (repr_maybe rp c m) = true.
  Proof. intros Hc. destruct m; cbn; auto. Qed.

  Lemma present_wf fs vs :
    Forall (fun f => wf (snd f) = true) fs -> has_fields hs fs vs = true ->
    forall x, In x (present fs vs) -> dm_wf (repr_maybe rp (snd (fst x)) (snd x)) = true.
  Proof.
    intros Hch Hf x Hx. apply filter_In in Hx as [Hx _].
    destruct (has_fields_all hs fs vs Hch Hf x Hx) as [Hm Hc]. eapply repr_maybe_wf; eauto.
  Qed.

  Lemma repr_step_wf : repr_wf (has_step hs rp) (repr_step rp).
  Proof.
    intros t v Hh Hwf.
    destruct t; destruct v; cbn [has_step] in Hh; try discriminate; try (destruct w; discriminate);
      try reflexivity.
    - apply andb_true_iff in Hh as [_ H]. exact H.
    - cbn [repr_step]. rewrite dm_wf_list. rewrite forallb_forall in Hh.
      apply forallb_map_in. intros m Hm. eapply repr_maybe_wf; eauto.
    - cbn [repr_step]. rewrite dm_wf_map. apply andb_true_iff in Hh as [Hnd Hv].
      rewrite map_fst_pair, Hnd. cbn. rewrite forallb_forall in Hv.
      apply forallb_map_in. intros x Hx. cbn. eapply repr_maybe_wf; eauto.
    - destruct (wf_struct_inv _ _ Hwf) as (_ & Hch & Hloc). apply andb_true_iff in Hh as [Hf _].
      destruct r; cbn [repr_step]; try reflexivity.
      + rewrite dm_wf_map. apply andb_true_iff. split.
        * apply nodupb_NoDup. rewrite map_map. apply (NoDup_map_filter (fun x => f_key (fst (fst x)))).
          now rewrite (zip_keys f_key fs fs0 (has_fields_length _ _ _ Hf)).
        * apply forallb_map_in. intros x Hx. now apply (present_wf fs fs0).
      + rewrite dm_wf_list. apply forallb_map_in. intros x Hx. now apply (present_wf fs fs0).
      + rewrite dm_wf_list. apply forallb_map_in. intros x Hx.
        rewrite dm_wf_list. cbn [forallb dm_wf]. now rewrite (present_wf fs fs0 Hch Hf x Hx).
    - destruct (nth_error ms i) as [m|] eqn:En; [|discriminate].
      destruct (wf_member _ _ _ _ Hwf En) as [Hc _].
      cbn [repr_step]. rewrite En. destruct r; try reflexivity.
      + rewrite dm_wf_map. cbn. rewrite (Hrec _ _ Hh Hc). reflexivity.
      + now apply Hrec.
    - cbn [repr_step]. destruct (find _ es); [destruct int_repr|]; reflexivity.
  Qed.
End ReprWf.

Theorem repr_is_value n : repr_wf (has_f n) (repr_f n).
Proof.
  induction n as [|n IH]; [intros c v H; discriminate|].
  unfold repr_f. cbn [has_f fuel_rec]. apply repr_step_wf. exact IH.
Qed.

(* what the bytes theorems share, over an abstract codec and over the concrete ones.  Of the switches only
   those of [strict] (the builder accepts what conforms) and of [views_off] (the representation is read back
   as specified) matter *)
Theorem rebuild_peq e q t v d' : strict e q -> views_off e q ->
  wf t = true -> has_type t v = true -> peq (repr_spec t v) d' ->
  exists v', rbuild e q t d' = BOk v' /\ veq v v' /\ has_type t v' = true /\
             repr e q t v' = Some (repr_spec t v') /\ peq (repr_spec t v) (repr_spec t v').
Proof.
  intros Hs Hv Hwf Hh Hp.
  destruct (conf_peq LRepr (fuel_of t) t _ d' Hp v (repr_round_top t v Hwf Hh)) as [v' [Hc' Hveq]].
  pose proof (has_veq (fuel_of t) t v v' Hveq Hh) as Hh'.
  exists v'. repeat split; auto.
  - now apply (sim_iff _ _ _ (rbuild_sim e q t d' Hs Hwf)).
  - now apply (views_top e q t v' Hv Hwf Hh').
  - now apply (repr_veq (fuel_of t)).
Qed.

Lemma repr_spec_wf t v : wf t = true -> has_type t v = true -> dm_wf (repr_spec t v) = true.
Proof. intros Hwf Hh. exact (repr_is_value (fuel_of t) t v Hh Hwf). Qed.

Lemma peq_iff a : forall b, peq a b <-> perm_eq a b.
Proof.
  induction a as [| x | z | f | s | s | c | l IH | es IH] using dm_ind2; intros b; split; intros H;
    inversion H; subst; try apply pe_refl; try apply peq_refl; rewrite Forall_forall in IH.
  1,2: constructor; eapply F2_impl_in; [eassumption|]; intros x y Hx _; now apply IH.
  1,2: econstructor; [|eassumption]; eapply F2_impl_in; [eassumption|]; intros x y Hx _ [Hk Hxy]; split; [exact Hk|now apply IH].
Qed.

Lemma perm_eq_peq a b : perm_eq a b -> peq a b.
Proof. apply peq_iff. Qed.

Lemma peq_perm_eq a b : peq a b -> perm_eq a b.
Proof. apply peq_iff. Qed.

Lemma dm_wf_keys_nodup v : dm_wf v = true -> keys_nodup v.
Proof.
  apply (keys_nodup_intro (fun v => dm_wf v = true)).
  - intros l H. rewrite dm_wf_list in H. now apply Forall_forall, forallb_forall.
  - intros m H. rewrite dm_wf_map in H. apply andb_prop in H as [H1 H2]. split; [now apply nodupb_NoDup|].
    now apply Forall_forall, forallb_forall.
Qed.

Section BytesFull.
  Variable encode : dm -> option bytes.
  Variable decode : bytes -> option dm.
  (* what a codec with a canonical map order does (dag-cbor: C02_roundtrip / C02_order_independent) *)
  Hypothesis dec_enc : forall d bs, dm_wf d = true -> encode d = Some bs -> exists d', decode bs = Some d' /\ peq d d'.
  Hypothesis enc_peq : forall d d', dm_wf d = true -> peq d d' -> encode d = encode d'.

  Theorem bytes_full e t v bs : wf t = true -> has_type t v = true ->
    encode (repr_spec t v) = Some bs ->
    exists d' v', decode bs = Some d' /\ rbuild e qoff t d' = BOk v' /\ veq v v' /\ has_type t v' = true /\
                  repr e qoff t v' = Some (repr_spec t v') /\ encode (repr_spec t v') = Some bs.
  Proof.
    intros Hwf Hh Henc. pose proof (repr_spec_wf t v Hwf Hh) as Hdw.
    destruct (dec_enc _ _ Hdw Henc) as [d' [Hdec Hp]].
    destruct (rebuild_peq e qoff t v d' (strict_qoff e) (views_off_qoff e) Hwf Hh Hp) as (v' & Hb & Hv & Hh' & Hr & Hp').
    exists d', v'. repeat split; auto. now rewrite <- (enc_peq _ _ Hdw Hp').
  Qed.
End BytesFull.
