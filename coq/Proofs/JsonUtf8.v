(* Proofs/JsonUtf8.v — facts about the UTF-8 model (Codec/Utf8.v): utf8_encode by range, and a
   successful utf8_decode of a multi-byte sequence is inverted by utf8_encode, looks only at the
   bytes it consumes, and these are all >= 128. *)
Require Import IP.Base.Bytes IP.Codec.Utf8 IP.Proofs.BytesFacts.
From Coq Require Import ZifyN ZifyNat ZifyBool.
Open Scope N_scope.

Lemma utf8_encode_1 c : c < 128 -> utf8_encode c = [c].
Proof. intros H. unfold utf8_encode. now replace (c <? 128) with true by lia. Qed.

Lemma utf8_encode_2 c : 128 <= c < 2048 -> utf8_encode c = [192 + c / 64; 128 + c mod 64].
Proof.
  intros H. unfold utf8_encode. replace (c <? 128) with false by lia. now replace (c <? 2048) with true by lia.
Qed.

Lemma utf8_encode_3 c : 2048 <= c < 65536 -> is_surrogate c = false ->
  utf8_encode c = [224 + c / 4096; 128 + (c / 64) mod 64; 128 + c mod 64].
Proof.
  intros H S. unfold utf8_encode. rewrite S. replace (c <? 128) with false by lia.
  replace (c <? 2048) with false by lia. replace (1114111 <? c) with false by lia.
  now replace (c <? 65536) with true by lia.
Qed.

Lemma utf8_encode_4 c : 65536 <= c <= 1114111 ->
  utf8_encode c = [240 + c / 262144; 128 + (c / 4096) mod 64; 128 + (c / 64) mod 64; 128 + c mod 64].
Proof.
  intros H. unfold utf8_encode, is_surrogate. replace (c <? 128) with false by lia.
  replace (c <? 2048) with false by lia. replace (1114111 <? c) with false by lia.
  replace (55296 <=? c) with true by lia. replace (c <? 57344) with false by lia.
  now replace (c <? 65536) with false by lia.
Qed.

(* the well-formed sequences of DecodeRune's acceptRanges: the rune they denote encodes back to the same bytes
   (a continuation byte carries six bits, i.e. one base-64 digit: digit_split 64) *)

Lemma seq2 b0 b1 : 194 <= b0 < 224 -> is_cont b1 = true ->
  let c := (b0 - 192) * 64 + (b1 - 128) in
  Forall (fun b => 128 <= b) [b0; b1] /\ utf8_encode c = [b0; b1].
Proof.
  unfold is_cont. intros H0 H1. cbv zeta. split; [repeat constructor; lia|].
  rewrite utf8_encode_2 by lia. destruct (digit_split 64 (b0 - 192) (b1 - 128)) as [-> ->]; [lia|].
  f_equal; [lia|f_equal; lia].
Qed.

Lemma seq3 b0 b1 b2 : 224 <= b0 < 240 ->
  ((if b0 =? 224 then 160 else 128) <=? b1) && (b1 <=? (if b0 =? 237 then 159 else 191)) && is_cont b2 = true ->
  let c := (b0 - 224) * 4096 + (b1 - 128) * 64 + (b2 - 128) in
  Forall (fun b => 128 <= b) [b0; b1; b2] /\ utf8_encode c = [b0; b1; b2].
Proof.
  unfold is_cont. intros H0 H. cbv zeta.
  (* E0 A0..BF excludes the overlong forms, ED 80..9F the surrogates *)
  assert (B : 128 <= b1 <= 191 /\ 128 <= b2 <= 191 /\ (b0 = 224 -> 160 <= b1) /\ (b0 = 237 -> b1 <= 159))
    by (destruct (N.eqb_spec b0 224), (N.eqb_spec b0 237); lia).
  clear H. split; [repeat constructor; lia|].
  rewrite utf8_encode_3; [|lia|unfold is_surrogate; lia].
  replace ((b0 - 224) * 4096 + (b1 - 128) * 64 + (b2 - 128))
    with (((b0 - 224) * 64 + (b1 - 128)) * 64 + (b2 - 128)) by lia.
  change 4096 with (64 * 64). rewrite <- N.div_div by discriminate.
  destruct (digit_split 64 ((b0 - 224) * 64 + (b1 - 128)) (b2 - 128)) as [-> ->]; [lia|].
  destruct (digit_split 64 (b0 - 224) (b1 - 128)) as [-> ->]; [lia|].
  f_equal; [lia|f_equal; [lia|f_equal; lia]].
Qed.

Lemma seq4 b0 b1 b2 b3 : 240 <= b0 <= 244 ->
  ((if b0 =? 240 then 144 else 128) <=? b1) && (b1 <=? (if b0 =? 244 then 143 else 191)) && is_cont b2 && is_cont b3 = true ->
  let c := (b0 - 240) * 262144 + (b1 - 128) * 4096 + (b2 - 128) * 64 + (b3 - 128) in
  Forall (fun b => 128 <= b) [b0; b1; b2; b3] /\ utf8_encode c = [b0; b1; b2; b3].
Proof.
  unfold is_cont. intros H0 H. cbv zeta.
  (* F0 90..BF excludes the overlong forms, F4 80..8F everything above U+10FFFF *)
  assert (B : 128 <= b1 <= 191 /\ 128 <= b2 <= 191 /\ 128 <= b3 <= 191 /\
              (b0 = 240 -> 144 <= b1) /\ (b0 = 244 -> b1 <= 143))
    by (destruct (N.eqb_spec b0 240), (N.eqb_spec b0 244); lia).
  clear H. split; [repeat constructor; lia|].
  rewrite utf8_encode_4 by lia.
  replace ((b0 - 240) * 262144 + (b1 - 128) * 4096 + (b2 - 128) * 64 + (b3 - 128))
    with ((((b0 - 240) * 64 + (b1 - 128)) * 64 + (b2 - 128)) * 64 + (b3 - 128)) by lia.
  change 262144 with (64 * 64 * 64). change 4096 with (64 * 64). rewrite <- !N.div_div by discriminate.
  destruct (digit_split 64 (((b0 - 240) * 64 + (b1 - 128)) * 64 + (b2 - 128)) (b3 - 128)) as [-> ->]; [lia|].
  destruct (digit_split 64 ((b0 - 240) * 64 + (b1 - 128)) (b2 - 128)) as [-> ->]; [lia|].
  destruct (digit_split 64 (b0 - 240) (b1 - 128)) as [-> ->]; [lia|].
  f_equal; [lia|f_equal; [lia|f_equal; [lia|f_equal; lia]]].
Qed.

Lemma utf8_decode_ascii b r : b < 128 -> utf8_decode (b :: r) = (b, 1%nat).
Proof. intros H. unfold utf8_decode. now replace (b <? 128) with true by lia. Qed.

Lemma utf8_decode_ok b0 r c sz : utf8_decode (b0 :: r) = (c, sz) -> (c =? rune_error) && Nat.eqb sz 1 = false ->
  128 <= b0 -> let u := firstn sz (b0 :: r) in
  utf8_encode c = u /\ (1 <= sz <= S (length r))%nat /\ (forall x, utf8_decode (u ++ x) = (c, sz)) /\
  Forall (fun b => 128 <= b) u.
Proof.
  intros D E Hb u. subst u. unfold utf8_decode in D.
  assert (Err : (rune_error, 1%nat) <> (c, sz)) by (intros H; injection H as <- <-; discriminate E).
  destruct (b0 <? 128) eqn:C1; [lia|].
  destruct ((b0 <? 194) || (244 <? b0)) eqn:C2; [contradiction|].
  destruct (b0 <? 224) eqn:C3.
  { destruct r as [|b1 r]; [contradiction|]. destruct (is_cont b1) eqn:C4; [|contradiction].
    injection D as <- <-. destruct (seq2 b0 b1) as (Hf & Hu); [lia|exact C4|].
    cbn [firstn length app]. split; [exact Hu|]. split; [clear; lia|].
    split; [intros x; unfold utf8_decode; now rewrite C1, C2, C3, C4|].
    exact Hf. }
  destruct (b0 <? 240) eqn:C4.
  { destruct r as [|b1 [|b2 r]]; try contradiction.
    match type of D with (if ?c then _ else _) = _ => destruct c eqn:C5 end; [|contradiction].
    injection D as <- <-. destruct (seq3 b0 b1 b2) as (Hf & Hu); [lia|exact C5|].
    cbn [firstn length app]. split; [exact Hu|]. split; [clear; lia|].
    split; [intros x; unfold utf8_decode; now rewrite C1, C2, C3, C4, C5|].
    exact Hf. }
  destruct r as [|b1 [|b2 [|b3 r]]]; try contradiction.
  match type of D with (if ?c then _ else _) = _ => destruct c eqn:C5 end; [|contradiction].
  injection D as <- <-. destruct (seq4 b0 b1 b2 b3) as (Hf & Hu); [lia|exact C5|].
  cbn [firstn length app]. split; [exact Hu|]. split; [clear; lia|].
  split; [intros x; unfold utf8_decode; now rewrite C1, C2, C3, C4, C5|].
  exact Hf.
Qed.
