(* Proofs/StoreFs.v — C17 for the file-system store, PROVIDED the escaping function is applied (quirk off)
   and has the shape of base32: the path of a key is base ++ safe components ([path_for_key_inside]) and every
   system call of every operation stays strictly inside the base directory ([fs_run_inside]), from which Props/C17.v
   concludes C17_fs_contained on the fresh store ([fs_fresh_prefixes], at the end).  Injectivity of the key path is
   not here: C17_fs_injective is [keypath_inj] of Proofs/StoreCrash.v with [escaping_enc_inj] of StoreCrashTop.v. *)
Require Import IP.Base.Bytes IP.Base.GoSem IP.Gen.FromGo IP.Store.Storage IP.Store.FsStore.
Require Import IP.Proofs.StoreBase IP.Proofs.StoreSeq.
From Coq Require Import Lia ZArith NArith List Bool.
Import ListNotations.
Open Scope N_scope.

(* the shape of an acceptable escaping function; base32 has it ([b32_esc_ok], Proofs/StoreB32.v) *)
Record esc_ok (esc : bytes -> bytes) : Prop := {
  esc_inj : forall a b, wfb a -> wfb b -> esc a = esc b -> a = b;
  esc_alpha : forall k, Forall b32_alpha (esc k);
  esc_nonempty : forall k, k <> [] -> esc k <> []
}.

Definition escaping (cfg : fscfg) : Prop := q_no_escape cfg = false /\ esc_ok (f_esc cfg).

Lemma esc_plain : forall cfg k, escaping cfg -> k <> [] -> plain (enc_key cfg k).
Proof.
  intros cfg k [Q E] H. unfold enc_key. rewrite Q. split.
  - apply (esc_nonempty _ E); auto.
  - eapply Forall_impl; [|apply (esc_alpha _ E)]. apply b32_alpha_plain.
Qed.

(* a component that cannot leave its directory *)
Definition safe_comp (c : comp) : Prop :=
  c <> [] /\ is_dot c = false /\ is_dotdot c = false /\ ~ In 47 c.

Lemma plain_safe : forall c, plain c -> safe_comp c.
Proof.
  intros c H. destruct (plain_not_special c H) as [_ [A B]]. destruct H as [H1 H2].
  repeat split; auto. intros Hin. rewrite Forall_forall in H2. destruct (H2 _ Hin). congruence.
Qed.

Lemma temp_name_safe : safe_comp temp_name.
Proof. repeat split; try discriminate; auto. simpl. intuition discriminate. Qed.

Definition inside (base p : path) : Prop :=
  exists rest, rest <> [] /\ p = base ++ rest /\ Forall safe_comp rest.

Definition sys_paths (s : sysc) : list path :=
  match s with
  | SStat p | SLstat p | SOpenRd p | SCreat p | SWrite p _ | SClose p | SMkdir p | SUnlink p => [p]
  | SRename p q => [p; q]
  end.

Definition ev_inside (base : path) (e : ev) : Prop := Forall (inside base) (sys_paths (fst e)).

Definition base_wf (base : path) : Prop :=
  Forall (fun c => (lenN c <=? name_max) = true) base /\ has_nul base = false.

Lemma path_ok_base_wf : forall p, path_ok p <-> base_wf p.
Proof.
  unfold base_wf. induction p; simpl.
  - split; intros; repeat constructor.
  - unfold path_ok in *. rewrite !Forall_cons_iff, orb_false_iff, IHp. unfold comp_ok. tauto.
Qed.

Lemma sys_exec_prefixes : forall f base s, all_dirs f base -> all_dirs (fst (sys_exec f s)) base.
Proof. intros f base s H n Hn. exact (sys_eff_keeps_dir _ _ _ _ _ (sys_exec_spec f s) (H n Hn)). Qed.

Lemma do_sys_inside : forall f base s f1 r log, all_dirs f base -> Forall (inside base) (sys_paths s) ->
  do_sys f s [] = (f1, r, log) -> all_dirs f1 base /\ Forall (ev_inside base) (rev log).
Proof.
  intros f base s f1 r log H I D. unfold do_sys in D.
  pose proof (sys_exec_prefixes f base s H) as P. destruct (sys_exec f s) as [f2 r2].
  inversion D; subst. split; auto. repeat constructor; auto.
Qed.

Lemma has_nul_app : forall a b, has_nul (a ++ b) = has_nul a || has_nul b.
Proof. intros. unfold has_nul. apply existsb_app. Qed.

Lemma mkdir_child_of_base : forall f base c, all_dirs f base ->
  snd (sys_exec f (SMkdir (base ++ [c]))) <> Err ENOENT.
Proof.
  intros f base c H E. simpl in E. rewrite resolve_unfold, dirname_snoc in E.
  pose proof (walk_dirs_found f base [] H) as W.
  destruct (has_nul (base ++ [c])); [discriminate|].
  destruct (walk_from f [] base) as [[]|e]; [|simpl in E; congruence].
  destruct (name_max <? lenN (last_comp (base ++ [c]))); [discriminate|].
  destruct (fs_lookup f (base ++ [c])) as [[?|]|]; discriminate.
Qed.

(* where a commit goes: nowhere (the empty key), or at least two levels below the base *)
Definition dest_ok (base : path) (d : option path) : Prop :=
  match d with None => True | Some p => inside base p /\ inside base (dirname p) end.

Definition pc_inside (env : wenv) (pc : wpc) : Prop :=
  let base := we_base env in
  match pc with
  | WCreate _ _ => forall i, safe_comp (we_names env i)      (* the names are only read here *)
  | WDone _ => True
  | WWrite st _ | WClose st _ | WAbort st _ | WExist st => inside base st
  | WLstatNew st _ | WLstatOld st _ | WRename st _ => inside base st /\ we_dest env <> None
  | WDirDown st p stack | WDirUp st p stack =>
      inside base st /\ we_dest env <> None /\ inside base p /\ Forall (inside base) stack
  end.

Lemma stage_inside : forall base name, safe_comp name -> inside base (stage_path base name).
Proof.
  intros. exists [temp_name; name]. split; [discriminate|]. split; [reflexivity|].
  constructor. apply temp_name_safe. constructor; auto.
Qed.

Lemma dest_inside : forall env, dest_ok (we_base env) (we_dest env) -> we_dest env <> None ->
  inside (we_base env) (w_dest env) /\ inside (we_base env) (dirname (w_dest env)).
Proof. intros env D H. unfold w_dest. destruct (we_dest env); [exact D|congruence]. Qed.

Lemma next_inside : forall env pc s, dest_ok (we_base env) (we_dest env) -> pc_inside env pc ->
  w_next env pc = Some s -> Forall (inside (we_base env)) (sys_paths s).
Proof.
  intros env pc s HE HP HN. destruct pc; simpl in *; inversion HN; subst; simpl;
    repeat constructor; try tauto.
  - apply stage_inside. apply HP.
  - destruct chunks; inversion H0; subst; simpl; repeat constructor; tauto.
  - apply dest_inside; tauto.
  - apply dest_inside; tauto.
Qed.

Lemma after_rename_inside : forall env st second r, dest_ok (we_base env) (we_dest env) ->
  inside (we_base env) st -> we_dest env <> None -> pc_inside env (after_rename env st second r).
Proof.
  intros. unfold after_rename. destruct r as [|e]; simpl; auto.
  destruct (negb second && is_enoent e); simpl.
  - repeat split; auto. apply dest_inside; auto.
  - destruct (is_exist e); simpl; auto.
Qed.

Lemma have_ret_inside : forall env st r stack, inside (we_base env) st -> we_dest env <> None ->
  Forall (inside (we_base env)) stack -> pc_inside env (have_ret st r stack).
Proof.
  intros. unfold have_ret. destruct r; simpl; auto.
  destruct stack; simpl; auto. inversion H1; subst. tauto.
Qed.

Lemma step_inside : forall env f pc s, dest_ok (we_base env) (we_dest env) ->
  all_dirs f (we_base env) -> pc_inside env pc -> w_next env pc = Some s ->
  pc_inside env (w_step env pc (snd (sys_exec f s))).
Proof.
  intros env f pc s HE HF HP HN.
  destruct pc; simpl in HN; inversion HN; subst; clear HN;
    match goal with |- context [snd (sys_exec ?f ?s)] => remember (snd (sys_exec f s)) as r eqn:R end.
  - simpl in *. destruct r as [|e]; simpl.
    + unfold after_create. destruct chunks; simpl; apply stage_inside; apply HP.
    + destruct e; simpl; auto.
  - simpl in HP. clear R.
    simpl. destruct r.
    + destruct (tl chunks); simpl; auto.
    + destruct (we_kind env); simpl; auto.
  - simpl in *. destruct r; destruct after; simpl; auto.
    destruct (we_dest env) eqn:D; simpl; auto. split; auto. congruence.
  - simpl in *. destruct after; simpl; auto. destruct r; simpl; auto.
    destruct (we_empty_ok env); simpl; auto.
  - simpl in HP. simpl.
    destruct r as [[|[c|]]|]; simpl; tauto.
  - simpl in HP. cbn [w_step].
    destruct r; apply after_rename_inside; tauto.
  - simpl in HP. cbn [w_step]. apply after_rename_inside; tauto.
  - simpl in HP. destruct HP as [I1 [I2 [I3 I4]]]. cbn [w_step].
    destruct r as [|e].
    + apply have_ret_inside; auto.
    + destruct e; try (apply have_ret_inside; auto).
      (* ENOENT: p is not a direct child of base, so its parent is still inside *)
      simpl. split; auto. split; auto.
      destruct I3 as [rest [Hne [E F]]]. subst p.
      destruct (exists_last Hne) as [r' [c E]]. subst rest.
      destruct r' as [|c0 r'].
      * exfalso. simpl app in R. symmetry in R. revert R. apply mkdir_child_of_base; auto.
      * split.
        -- exists (c0 :: r'). split; [discriminate|]. split.
           ++ rewrite app_assoc. apply dirname_snoc.
           ++ apply Forall_app in F. tauto.
        -- constructor; auto. exists ((c0 :: r') ++ [c]). auto.
  - simpl in HP. destruct HP as [I1 [I2 [I3 I4]]]. cbn [w_step]. apply have_ret_inside; auto.
  - simpl. auto.
Qed.

(* the log is kept newest first and handed out reversed *)
Lemma w_run_inside : forall fuel env f pc log f' r log',
  dest_ok (we_base env) (we_dest env) -> all_dirs f (we_base env) -> pc_inside env pc ->
  Forall (ev_inside (we_base env)) log -> w_run fuel env f pc log = (f', r, log') ->
  all_dirs f' (we_base env) /\ Forall (ev_inside (we_base env)) (rev log').
Proof.
  induction fuel; intros env f pc log f' r log' HE HF HP HL HR; simpl in HR.
  - inversion HR; subst. split; auto. apply Forall_rev. auto.
  - destruct (w_next env pc) as [s|] eqn:N.
    + destruct (sys_exec f s) as [f1 r1] eqn:X.
      pose proof (next_inside env pc s HE HP N) as I.
      assert (F1 : all_dirs f1 (we_base env)).
      { replace f1 with (fst (sys_exec f s)) by (rewrite X; auto). apply sys_exec_prefixes; auto. }
      assert (P1 : pc_inside env (w_step env pc r1)).
      { replace r1 with (snd (sys_exec f s)) by (rewrite X; auto). apply step_inside; auto. }
      eapply IHfuel; [exact HE|exact F1|exact P1| |exact HR]. constructor; auto.
    + inversion HR; subst. split; auto. apply Forall_rev. auto.
Qed.

Definition cfg_wf (cfg : fscfg) : Prop := base_wf (f_base cfg).

Definition key_of (o : op) : option key :=
  match o with
  | OPut k _ | OPutStream k _ | OPutVec k _ | OGet k | OGetStream k | OPeek k | OHas k | OCommit _ k => Some k
  | _ => None
  end.
(* keys are Go strings: shorter than 2^63 after escaping *)
Definition op_len_ok (cfg : fscfg) (o : op) : Prop :=
  match key_of o with Some k => key_len_ok (enc_key cfg k) | None => True end.

Lemma join_clean_empty_last : forall base pads, Forall plain pads ->
  join_clean base (pads ++ [[]]) = base ++ pads.
Proof.
  intros. rewrite join_clean_app_plain by auto. simpl. rewrite rev_app_distr, !rev_involutive. auto.
Qed.

Lemma path_for_key_inside : forall cfg k, escaping cfg -> key_len_ok (enc_key cfg k) ->
  exists p, path_for_key cfg k = Some p /\ inside (f_base cfg) p /\ (k <> [] -> inside (f_base cfg) (dirname p)).
Proof.
  intros cfg k HE HL.
  (* only the empty key can have an empty escaped form: then the path is that of the padding directories, base/00 *)
  assert (EP : enc_key cfg k = [] /\ k = [] \/ plain (enc_key cfg k)).
  { destruct k as [|b k']; [|right; apply esc_plain; auto; discriminate].
    destruct HE as [Q E]. unfold enc_key. rewrite Q. destruct (f_esc cfg []) eqn:X; auto. right. split. discriminate.
    rewrite <- X. eapply Forall_impl; [|apply (esc_alpha _ E)]. apply b32_alpha_plain. }
  assert (SF : forall cs, Forall plain cs -> Forall safe_comp cs).
  { intros cs F. eapply Forall_impl; [|exact F]. apply plain_safe. }
  unfold path_for_key. destruct EP as [[E ->]|P].
  - rewrite E in *. destruct (shard_apply_spec (f_shard cfg) [] HL) as [pads [S [L F]]]. rewrite S.
    assert (FP : Forall plain pads).
    { eapply Forall_impl; [|exact F]. intros c. apply shard_comp_plain. constructor. }
    rewrite join_clean_empty_last by auto. eexists. split; [reflexivity|]. split; [|congruence].
    exists pads. repeat split; auto. intros ->. destruct (f_shard cfg); discriminate.
  - destruct (path_for_key_plain cfg k HL P) as [cs [E [L [F _]]]]. unfold path_for_key in E. rewrite E.
    eexists. split; [reflexivity|]. split.
    + exists (cs ++ [enc_key cfg k]). repeat split; auto. { destruct cs; discriminate. }
      apply SF, Forall_app. auto.
    + intros _. rewrite app_assoc, dirname_snoc. exists cs. repeat split; auto.
      intros ->. destruct (f_shard cfg); discriminate.
Qed.

Lemma stage_name_safe : forall n, safe_comp (stage_name n).
Proof.
  intros n. unfold stage_name.
  assert (A : forall p, Forall (fun b => b = 48 \/ b = 49) (pos_name p)).
  { induction p; simpl; (constructor; [auto|]); auto. }
  assert (B : Forall (fun b => b = 48 \/ b = 49) (match n with 0 => [48] | Npos p => pos_name p end)).
  { destruct n; auto. }
  split; [discriminate|]. split; [reflexivity|]. split; [reflexivity|].
  intros [H|H]; try discriminate. rewrite Forall_forall in B. destruct (B _ H); discriminate.
Qed.

Definition res_inside (base : path) (r : obs * fs * list ev) : Prop := Forall (ev_inside base) (snd r).

Lemma dest_of_key_ok : forall cfg k, escaping cfg -> key_len_ok (enc_key cfg k) ->
  exists d, match k with
            | [] => Some None
            | _ => match path_for_key cfg k with Some d => Some (Some d) | None => None end
            end = Some d /\ dest_ok (f_base cfg) d.
Proof.
  intros cfg k HE HL. destruct k as [|b k'].
  - exists None. simpl. auto.
  - destruct (path_for_key_inside cfg (b :: k') HE HL) as [p [E [I D]]].
    rewrite E. eexists. split. reflexivity. split; auto. apply D. discriminate.
Qed.

(* the staging files of the streams that are open *)
Definition streams_inside (cfg : fscfg) (st : fstate) : Prop :=
  forall sid sp, nth_error (fs_str st) sid = Some (Some sp) -> inside (f_base cfg) sp.

Lemma fs_put_inside : forall cfg st kind k chunks st' ob log,
  escaping cfg -> key_len_ok (enc_key cfg k) ->
  all_dirs (fs_fs st) (f_base cfg) -> streams_inside cfg st ->
  fs_put cfg st kind k chunks = (st', ob, log) ->
  all_dirs (fs_fs st') (f_base cfg) /\ Forall (ev_inside (f_base cfg)) log /\ streams_inside cfg st'.
Proof.
  intros cfg st kind k chunks st' ob log HE HL HF SI HP. unfold fs_put in HP.
  destruct (dest_of_key_ok cfg k HE HL) as [d [ED DO]]. rewrite ED in HP. cbv beta iota zeta in HP.
  revert HP. destruct (w_run _ _ _ _ _) as [[f1 r] lg] eqn:R. intros HP. inversion HP; subst.
  eapply w_run_inside in R; [|exact DO|exact HF|intro; apply stage_name_safe|constructor]. destruct R. auto.
Qed.

Lemma fs_step_inside : forall cfg st o st' ob log,
  escaping cfg -> op_len_ok cfg o ->
  all_dirs (fs_fs st) (f_base cfg) -> streams_inside cfg st ->
  fs_step cfg st o = (st', ob, log) ->
  all_dirs (fs_fs st') (f_base cfg) /\ Forall (ev_inside (f_base cfg)) log /\ streams_inside cfg st'.
Proof.
  intros cfg st o st' ob log HE HL HF SI HS.
  assert (NOP : all_dirs (fs_fs st) (f_base cfg) /\ Forall (ev_inside (f_base cfg)) [] /\ streams_inside cfg st)
    by auto.
  assert (OPEN : forall k r lg, key_len_ok (enc_key cfg k) ->
            fs_open cfg (fs_fs st) k = Some (r, lg) -> Forall (ev_inside (f_base cfg)) lg).
  { intros k r lg L HO. unfold fs_open in HO.
    destruct (empty_key_guard cfg k). { inversion HO; subst. constructor. }
    destruct (path_for_key_inside cfg k HE L) as [p [E [IP _]]]. rewrite E in HO.
    destruct (do_sys (fs_fs st) (SOpenRd p) []) as [[f1 r1] lg1] eqn:D.
    apply do_sys_inside with (base := f_base cfg) in D; [|auto|simpl; auto].
    destruct D as [_ D]. destruct r1 as [[|n]|e]; inversion HO; subst; auto.
    simpl. apply Forall_app. split; auto. repeat constructor; auto. }
  destruct o; simpl in HS; unfold op_len_ok in HL; simpl in HL.
  (* put-stream, put-vec *)
  4-5: destruct (gather (fs_handle st) hs); [eapply fs_put_inside; eauto|inversion HS; subst; exact NOP].
  (* get, get-stream, peek: one open for reading, whatever is done with the node *)
  4-6: destruct (fs_open cfg (fs_fs st) k) as [[r lg]|] eqn:O; [|inversion HS; subst; exact NOP];
       specialize (OPEN k r lg HL O);
       destruct r as [[c|]|e]; inversion HS; subst; (split; [exact HF|split; [exact OPEN|exact SI]]).
  - inversion HS; subst. exact NOP.
  - destruct (fs_handle st h); inversion HS; subst; exact NOP.
  - destruct (fs_handle st h); [eapply fs_put_inside; eauto|inversion HS; subst; exact NOP].
  - destruct (fs_has cfg (fs_fs st) k) as [ob' lg] eqn:H.
    assert (G : Forall (ev_inside (f_base cfg)) lg).
    { unfold fs_has in H. destruct (empty_key_guard cfg k). { inversion H; subst. constructor. }
      destruct (path_for_key_inside cfg k HE HL) as [p [E [IP _]]]. rewrite E in H.
      destruct (do_sys (fs_fs st) (SStat p) []) as [[f1 r1] lg1] eqn:D.
      apply do_sys_inside with (base := f_base cfg) in D; [|auto|simpl; auto].
      inversion H; subst. apply D. }
    inversion HS; subst. split; [exact HF|split; [exact G|exact SI]].
  - revert HS. destruct (do_sys _ _ _) as [[f1 r] lg] eqn:D. intros HS.
    apply do_sys_inside with (base := f_base cfg) in D; auto.
    2: { simpl. constructor; auto. apply stage_inside, stage_name_safe. }
    destruct D as [P L]. inversion HS; subst. split; auto. split; auto.
    intros sid sp H. simpl in H. apply nth_error_snoc in H. destruct H as [[_ H]|[_ H]].
    + eapply SI; eauto.
    + destruct r; inversion H. apply stage_inside, stage_name_safe.
  - destruct (nth_error (fs_str st) sid) as [[sp|]|] eqn:NS; destruct (fs_handle st h) as [c|];
      try (inversion HS; subst; exact NOP).
    revert HS. destruct (do_sys _ _ _) as [[f1 r] lg] eqn:D. intros HS.
    apply do_sys_inside with (base := f_base cfg) in D; [|auto|simpl; constructor; eauto].
    destruct D as [P L]. inversion HS; subst. auto.
  - destruct (nth_error (fs_str st) sid) as [[sp|]|] eqn:NS; try (inversion HS; subst; exact NOP).
    assert (I : inside (f_base cfg) sp) by (eapply SI; eauto).
    destruct (dest_of_key_ok cfg k HE HL) as [d [ED DO]]. rewrite ED in HS. cbv beta iota zeta in HS.
    revert HS. destruct (w_run _ _ _ _ _) as [[f1 r] lg] eqn:R. intros HS. inversion HS; subst.
    eapply w_run_inside in R; [|exact DO|exact HF|exact I|constructor]. destruct R. split; auto. split; auto.
    intros sid' sp' X. simpl in X. apply nth_error_upd in X. destruct X as [X|X]; try discriminate.
    eapply SI; eauto.
Qed.

(* containment needs nothing of the base directory but that it is there: [cfg_wf] of C17_fs_contained plays no part *)
Theorem fs_run_inside : forall cfg ops st,
  escaping cfg -> Forall (op_len_ok cfg) ops ->
  all_dirs (fs_fs st) (f_base cfg) -> streams_inside cfg st ->
  Forall (res_inside (f_base cfg)) (fs_run cfg st ops).
Proof.
  induction ops; intros st HE HL HF SI; simpl. constructor.
  inversion HL; subst.
  destruct (fs_step cfg st a) as [[st1 ob] log] eqn:S.
  destruct (fs_step_inside cfg st a st1 ob log HE H1 HF SI S) as [F1 [F2 SI1]].
  constructor; auto.
Qed.

Lemma firstn_app_exact : forall {A} (a b : list A) n, (n <= length a)%nat -> firstn n (a ++ b) = firstn n a.
Proof. exact @firstn_app_le. Qed.

Lemma assoc_dirs_of : forall p pre n, (0 < n <= length p)%nat ->
  assoc_path (dirs_of pre p) (pre ++ firstn n p) = Some Dir.
Proof.
  induction p; intros pre n Hn; simpl in *. lia.
  destruct n; try lia. simpl.
  destruct n.
  - simpl. rewrite path_eqb_refl. auto.
  - destruct (path_eqb (pre ++ [a]) (pre ++ a :: firstn (S n) p)) eqn:E. auto.
    replace (pre ++ a :: firstn (S n) p) with ((pre ++ [a]) ++ firstn (S n) p) by (rewrite <- app_assoc; auto).
    apply IHp. lia.
Qed.

Lemma dirs_of_prefixes : forall base, all_dirs (dirs_of [] base) base.
Proof.
  intros base n Hn. unfold fs_lookup.
  destruct (firstn n base) eqn:E. { apply (f_equal (@length _)) in E. rewrite firstn_length in E. simpl in E. lia. }
  rewrite <- E. apply (assoc_dirs_of base [] n Hn).
Qed.

(* Nothing is asked of the base path here ([fs_run_inside] uses no such premise and C18_atomic has none), so Init
   may fail on a long or NUL component and only the two shapes are known; under [path_ok] StoreGood.fs_fresh_eq
   says it is the second. *)
Lemma fs_init_shape : forall cfg f,
  fst (fs_init cfg f) = f \/ fst (fs_init cfg f) = fs_set f (staging_dir (f_base cfg)) Dir.
Proof.
  intros cfg f. unfold fs_init.
  destruct (sys_exec f (SStat (f_base cfg))) as [f0 r0].
  destruct r0 as [[|[c|]]|e]; cbn [fst]; auto.
  destruct (sys_exec f (SMkdir (staging_dir (f_base cfg)))) as [f1 r1] eqn:S1.
  destruct r1 as [v|e].
  - cbn [fst]. simpl in S1.
    destruct (resolve f (staging_dir (f_base cfg))) as [[n|]|e]; inversion S1; auto.
  - destruct e; cbn [fst]; auto.
    destruct (sys_exec f (SStat (staging_dir (f_base cfg)))) as [f2 r2].
    destruct r2 as [[|[c|]]|e]; cbn [fst]; auto.
Qed.

Lemma fs_fresh_prefixes : forall cfg, all_dirs (fs_fresh cfg) (f_base cfg).
Proof.
  intros. unfold fs_fresh. destruct (fs_init_shape cfg (dirs_of [] (f_base cfg))) as [E|E]; rewrite E.
  - apply dirs_of_prefixes.
  - eapply all_dirs_transfer; [|apply dirs_of_prefixes]. intros n Hn.
    apply lookup_set_other. intros X. apply (f_equal (@length _)) in X. unfold staging_dir in X.
    rewrite app_length, firstn_length in X. simpl in X. lia.
Qed.

