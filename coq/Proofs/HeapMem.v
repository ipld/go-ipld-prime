(* Facts about the heap of Heap/GoMem.v: get/set/alloc algebra, the interpreter on binds and as a relation
   ([Run]), the frame property of the access log (cells not written or allocated are unchanged, [run_frame]),
   the write counters against the log ([run_ver]: a cell
   stored to has a higher counter), and [wfree], programs that only load. *)
Require Import IP.Base.Bytes IP.Heap.GoMem.
From Coq Require Import List Arith Bool Lia.
Import ListNotations.
Local Open Scope nat_scope.

Lemma addr_eqb_eq : forall a b, addr_eqb a b = true <-> a = b.
Proof.
  intros [a1 a2] [b1 b2]; unfold addr_eqb; cbn. rewrite andb_true_iff, !Nat.eqb_eq.
  split; [intros [-> ->]; reflexivity | intros H; inversion H; auto].
Qed.

Lemma addr_eqb_refl : forall a, addr_eqb a a = true.
Proof. intros; apply addr_eqb_eq; reflexivity. Qed.

Lemma addr_eqb_neq : forall a b, addr_eqb a b = false <-> a <> b.
Proof.
  intros a b; split; intros H.
  - intros ->. rewrite addr_eqb_refl in H; discriminate.
  - destruct (addr_eqb a b) eqn:E; [apply addr_eqb_eq in E; contradiction | reflexivity].
Qed.

Lemma addr_dec : forall a b : addr, {a = b} + {a <> b}.
Proof. decide equality; apply Nat.eq_dec. Qed.

Section Mem.
  Variable V : Type.
  Notation cell := (cell V).
  Notation heap := (heap V).

  Lemma nth_set_arena_same : forall r (h : heap) x, nth r (set_arena r h x) [] = x.
  Proof. induction r; destruct h; cbn; auto. Qed.

  Lemma nth_set_arena_other : forall r r' (h : heap) x, r <> r' -> nth r' (set_arena r h x) [] = nth r' h [].
  Proof.
    induction r; destruct r', h; cbn; intros; try congruence; auto.
    - destruct r'; reflexivity.
    - rewrite IHr by congruence. destruct r'; reflexivity.
  Qed.

  Lemma nth_error_upd_same : forall A n (l : list A) x, n < length l -> nth_error (upd n l x) n = Some x.
  Proof. induction n; destruct l; cbn; intros; try lia; auto. apply IHn; lia. Qed.

  Lemma nth_error_upd_other : forall A n m (l : list A) x, n <> m -> nth_error (upd n l x) m = nth_error l m.
  Proof. induction n; destruct m, l; cbn; intros; try congruence; auto. Qed.

  Lemma length_upd : forall A n (l : list A) x, length (upd n l x) = length l.
  Proof. induction n; destruct l; cbn; auto. Qed.

  Lemma nth_error_updv_same : forall n (l : list (cell * nat)) c c0 v,
    nth_error l n = Some (c0, v) -> nth_error (updv n l c) n = Some (c, S v).
  Proof. induction n; destruct l as [|[c1 v1] l]; cbn; intros; try discriminate; [congruence | eauto]. Qed.

  Lemma nth_error_updv_none : forall n (l : list (cell * nat)) c, nth_error l n = None -> nth_error (updv n l c) n = None.
  Proof. induction n; destruct l as [|[c1 v1] l]; cbn; intros; try discriminate; auto. Qed.

  Lemma nth_error_updv_other : forall n m (l : list (cell * nat)) c, n <> m -> nth_error (updv n l c) m = nth_error l m.
  Proof. induction n; destruct m, l as [|[c1 v1] l]; cbn; intros; try congruence; auto. Qed.

  Lemma hgetv_hset_same : forall (h : heap) a c c0 v, hgetv h a = Some (c0, v) -> hgetv (hset h a c) a = Some (c, S v).
  Proof.
    unfold hgetv, hset; intros h [r i] c c0 v H; cbn in *.
    rewrite nth_set_arena_same. eapply nth_error_updv_same; eauto.
  Qed.

  Lemma hgetv_hset_none : forall (h : heap) a c, hgetv h a = None -> hgetv (hset h a c) a = None.
  Proof.
    unfold hgetv, hset; intros h [r i] c H; cbn in *.
    rewrite nth_set_arena_same. apply nth_error_updv_none; assumption.
  Qed.

  Lemma hgetv_hset_other : forall (h : heap) a a' c, a <> a' -> hgetv (hset h a c) a' = hgetv h a'.
  Proof.
    unfold hgetv, hset; intros h [r i] [r' i'] c H; cbn in *.
    destruct (Nat.eq_dec r r') as [->|Hr].
    - rewrite nth_set_arena_same. apply nth_error_updv_other. congruence.
    - rewrite nth_set_arena_other by assumption. reflexivity.
  Qed.

  Lemma hgetv_halloc_new : forall r (h h' : heap) c a, halloc r h c = (h', a) -> hgetv h' a = Some (c, 0) /\ hgetv h a = None.
  Proof.
    unfold halloc, hgetv; intros r h h' c a H; inversion H; subst; cbn.
    rewrite nth_set_arena_same. split.
    - rewrite nth_error_app2 by lia. rewrite Nat.sub_diag. reflexivity.
    - apply nth_error_None. lia.
  Qed.

  Lemma hgetv_halloc_old : forall r (h h' : heap) c a a', halloc r h c = (h', a) -> a' <> a -> hgetv h' a' = hgetv h a'.
  Proof.
    unfold halloc, hgetv; intros r h h' c a [r' i'] H Hn; inversion H; subst; cbn in *.
    destruct (Nat.eq_dec r r') as [->|Hr].
    - rewrite nth_set_arena_same.
      destruct (Nat.lt_ge_cases i' (length (nth r' h []))).
      + rewrite nth_error_app1 by assumption. reflexivity.
      + assert (i' <> length (nth r' h [])) by congruence.
        transitivity (@None (cell * nat)); [|symmetry]; apply nth_error_None; rewrite ?app_length; cbn; lia.
    - rewrite nth_set_arena_other by assumption. reflexivity.
  Qed.

  Lemma length_updv : forall n (l : list (cell * nat)) c, length (updv n l c) = length l.
  Proof. induction n; destruct l as [|[c1 v1] l]; cbn; auto. Qed.

  Lemma hset_len : forall (h : heap) a c r, length (nth r (hset h a c) []) = length (nth r h []).
  Proof.
    unfold hset; intros h [r' i] c r; cbn. destruct (Nat.eq_dec r' r) as [->|Hr].
    - rewrite nth_set_arena_same. apply length_updv.
    - rewrite nth_set_arena_other by assumption. reflexivity.
  Qed.

  Lemma halloc_len : forall ar (h h' : heap) c a r, halloc ar h c = (h', a) ->
    length (nth r h' []) = if r =? ar then S (length (nth r h [])) else length (nth r h []).
  Proof.
    unfold halloc; intros ar h h' c a r H; inversion H; subst. destruct (Nat.eqb_spec r ar) as [->|Hr].
    - rewrite nth_set_arena_same, app_length. cbn. lia.
    - rewrite nth_set_arena_other by congruence. reflexivity.
  Qed.

  Lemma hget_some : forall (h : heap) a c, hget h a = Some c <-> exists v, hgetv h a = Some (c, v).
  Proof.
    unfold hget; intros h a c. destruct (hgetv h a) as [[c1 v1]|]; split.
    - intros E; inversion E; eauto.
    - intros [v E]; inversion E; reflexivity.
    - discriminate.
    - intros [v E]; discriminate.
  Qed.

  Lemma hget_none : forall (h : heap) a, hget h a = None <-> hgetv h a = None.
  Proof. unfold hget; intros h a. destruct (hgetv h a) as [[c1 v1]|]; split; congruence. Qed.

  Lemma hget_hset_same : forall (h : heap) a c c0, hget h a = Some c0 -> hget (hset h a c) a = Some c.
  Proof.
    intros h a c c0 H. apply hget_some in H. destruct H as [v H]. apply hget_some. exists (S v).
    eapply hgetv_hset_same; eauto.
  Qed.

  Lemma hget_hset_other : forall (h : heap) a a' c, a <> a' -> hget (hset h a c) a' = hget h a'.
  Proof. intros. unfold hget. rewrite hgetv_hset_other by assumption. reflexivity. Qed.

  Lemma hget_halloc_new : forall r (h h' : heap) c a, halloc r h c = (h', a) -> hget h' a = Some c /\ hget h a = None.
  Proof.
    intros * H. destruct (hgetv_halloc_new _ _ _ _ _ H) as [H1 H2]. unfold hget. rewrite H1, H2. auto.
  Qed.

  Lemma hget_halloc_old : forall r (h h' : heap) c a a', halloc r h c = (h', a) -> a' <> a -> hget h' a' = hget h a'.
  Proof. intros. unfold hget. erewrite hgetv_halloc_old by eauto. reflexivity. Qed.

  Lemma hget_halloc_mono : forall r (h h' : heap) c a a' c', halloc r h c = (h', a) -> hget h a' = Some c' -> hget h' a' = Some c'.
  Proof.
    intros. destruct (hget_halloc_new _ _ _ _ _ H) as [_ Hn].
    rewrite (hget_halloc_old _ _ _ _ _ a' H); auto. congruence.
  Qed.

  Arguments halloc : simpl never.
  Arguments hget : simpl never.
  Arguments hgetv : simpl never.
  Arguments hset : simpl never.

  Lemma run_bind : forall A B (p : prog V A) (f : A -> prog V B) ar h,
    run ar (pbind p f) h =
    match run ar p h with
    | (Done a, h1, l1) => let '(o, h2, l2) := run ar (f a) h1 in (o, h2, l1 ++ l2)
    | (Crashed, h1, l1) => (Crashed, h1, l1)
    end.
  Proof.
    induction p as [x0 | a k IH | a c k IH | c k IH | ]; intros; cbn.
    - destruct (run ar (f x0) h) as [[o h2] l2]; reflexivity.
    - destruct (hget h a) as [c|]; [|reflexivity].
      rewrite IH. destruct (run ar (k c) h) as [[[x|] h1] l1]; cbn; [|reflexivity].
      destruct (run ar (f x) h1) as [[o h2] l2]; reflexivity.
    - destruct (hget h a); [|reflexivity].
      rewrite IH. destruct (run ar k (hset h a c)) as [[[x|] h1] l1]; cbn; [|reflexivity].
      destruct (run ar (f x) h1) as [[o h2] l2]; reflexivity.
    - destruct (halloc ar h c) as [h1 a].
      rewrite IH. destruct (run ar (k a) h1) as [[[x|] h2] l2]; cbn; [|reflexivity].
      destruct (run ar (f x) h2) as [[o h3] l3]; reflexivity.
    - reflexivity.
  Qed.

  Definition writes (l : list ev) : list addr :=
    flat_map (fun e => match e with EWr a | ENew a => [a] | ERd _ => [] end) l.
  Definition reads (l : list ev) : list addr :=
    flat_map (fun e => match e with ERd a => [a] | _ => [] end) l.
  Definition stores (l : list ev) : list addr :=
    flat_map (fun e => match e with EWr a => [a] | _ => [] end) l.

  (* The interpreter as a relation, one rule per way an access can go: facts about whole runs are
     inductions over it. *)
  Inductive Run {A} (ar : nat) : prog V A -> heap -> outcome A -> heap -> list ev -> Prop :=
  | Run_ret : forall a h, Run ar (Ret a) h (Done a) h []
  | Run_crash : forall h, Run ar Crash h Crashed h []
  | Run_rd : forall a k h c o h' l, hget h a = Some c -> Run ar (k c) h o h' l -> Run ar (Rd a k) h o h' (ERd a :: l)
  | Run_rd_nil : forall a k h, hget h a = None -> Run ar (Rd a k) h Crashed h [ERd a]
  | Run_wr : forall a c k h c0 o h' l, hget h a = Some c0 -> Run ar k (hset h a c) o h' l ->
      Run ar (Wr a c k) h o h' (EWr a :: l)
  | Run_wr_nil : forall a c k h, hget h a = None -> Run ar (Wr a c k) h Crashed h [EWr a]
  | Run_new : forall c k h h1 a o h' l, halloc ar h c = (h1, a) -> Run ar (k a) h1 o h' l ->
      Run ar (New c k) h o h' (ENew a :: l).

  Lemma run_Run : forall A (p : prog V A) ar h o h' l, run ar p h = (o, h', l) -> Run ar p h o h' l.
  Proof.
    induction p as [x0 | a k IH | a c k IH | c k IH | ]; cbn; intros ar h o h' l Hr.
    - inversion Hr; constructor.
    - destruct (hget h a) as [c|] eqn:E; [destruct (run ar (k c) h) as [[o1 h1] l1] eqn:R|];
        inversion Hr; subst; [eapply Run_rd | apply Run_rd_nil]; eauto.
    - destruct (hget h a) eqn:E; [destruct (run ar k (hset h a c)) as [[o1 h1] l1] eqn:R|];
        inversion Hr; subst; [eapply Run_wr | apply Run_wr_nil]; eauto.
    - destruct (halloc ar h c) as [h1 a] eqn:Ea. destruct (run ar (k a) h1) as [[o1 h2] l2] eqn:R.
      inversion Hr; subst. eapply Run_new; eauto.
    - inversion Hr; constructor.
  Qed.

  Lemma run_frame : forall A (p : prog V A) ar h o h' l,
    run ar p h = (o, h', l) ->
    forall a, ~ In a (writes l) -> hget h' a = hget h a.
  Proof.
    intros * Hr. apply run_Run in Hr. induction Hr; cbn; intros x Hx; auto.
    - rewrite IHHr by tauto. apply hget_hset_other. tauto.
    - rewrite IHHr by tauto. eapply hget_halloc_old; eauto.
  Qed.

  Lemma run_ver : forall A (p : prog V A) ar h o h' l,
    run ar p h = (o, h', l) ->
    forall a c v, hgetv h a = Some (c, v) ->
    exists c' v', hgetv h' a = Some (c', v') /\ v <= v' /\ (In a (stores l) -> v < v').
  Proof.
    intros * Hr. apply run_Run in Hr. induction Hr; cbn; intros x cx vx Hx.
    - exists cx, vx. split; [assumption|]. split; [lia | contradiction].
    - exists cx, vx. split; [assumption|]. split; [lia | contradiction].
    - exact (IHHr _ _ _ Hx).
    - exists cx, vx. split; [assumption|]. split; [lia | contradiction].
    - destruct (addr_dec a x) as [->|Hn].
      + destruct (IHHr _ _ _ (hgetv_hset_same _ _ c _ _ Hx)) as (c' & v' & H2 & H3 & _).
        exists c', v'. split; [assumption|]. split; [|intros _]; lia.
      + rewrite <- (hgetv_hset_other h a x c Hn) in Hx.
        destruct (IHHr _ _ _ Hx) as (c' & v' & H2 & H3 & H4).
        exists c', v'. split; [assumption|]. split; [assumption|]. intros [E|Hin]; [contradiction | auto].
    - exists cx, vx. split; [assumption|]. split; [lia|]. intros [->|[]]. apply hget_none in H. congruence.
    - destruct (hgetv_halloc_new _ _ _ _ _ H) as [_ Hn]. apply (IHHr x cx vx).
      rewrite (hgetv_halloc_old _ _ _ _ _ x H); [assumption | congruence].
  Qed.

  Lemma run_mono : forall A (p : prog V A) ar h o h' l,
    run ar p h = (o, h', l) -> forall a, hget h a <> None -> hget h' a <> None.
  Proof.
    intros * Hr x Hx. destruct (hget h x) as [c|] eqn:G; [|congruence].
    apply hget_some in G. destruct G as [v G].
    destruct (run_ver _ _ _ _ _ _ _ Hr _ _ _ G) as (c' & v' & G' & _).
    unfold hget. rewrite G'. discriminate.
  Qed.

  Inductive wfree {A} : prog V A -> Prop :=
  | wf_ret : forall a, wfree (Ret a)
  | wf_rd : forall a k, (forall c, wfree (k c)) -> wfree (Rd a k)
  | wf_crash : wfree Crash.

  Lemma wfree_run : forall A (p : prog V A), wfree p -> forall ar h o h' l, run ar p h = (o, h', l) -> h' = h /\ writes l = [].
  Proof. intros * W * Hr. apply run_Run in Hr. induction Hr; inversion W; subst; cbn; auto. Qed.

  Lemma wfree_bind : forall A B (p : prog V A) (f : A -> prog V B), wfree p -> (forall a, wfree (f a)) -> wfree (pbind p f).
  Proof. induction 1; cbn; intros; auto; constructor; auto. Qed.

End Mem.

Arguments wfree {V A} p.
Arguments Run {V A} ar p h o h' l.
Global Arguments halloc : simpl never.
Global Arguments hget : simpl never.
Global Arguments hgetv : simpl never.
Global Arguments hset : simpl never.
