(* Proofs/JsonPerm.v — the DAG-JSON codec in the shape the typed layers (Schema, Bind) consume: json_enc is the text
   dagjson.Encode writes, json_dec is dagjson.Decode demanding that all input is consumed, json_within is dag-json's
   domain (json_safe, where no float is integral below 1e21 because of refmt v0.90's emitFloat, and decoder depth <= 1024).
   Within the domain decoding the encoder's output returns the tree up to map entry order (perm_eq of Proofs/CborEnc.v
   = peq of Schema/Perm.v), under A1, A2, CID; the encoding does not depend on map entry order. *)
Require Import IP.Base.Bytes IP.DM.Value IP.Codec.Utf8 IP.Codec.Base64 IP.Codec.DagJson.
Require Import IP.Proofs.BytesFacts IP.Proofs.CborEnc IP.Proofs.CborDec.
Require Import IP.Proofs.JsonTok IP.Proofs.JsonUnm IP.Proofs.JsonEnc IP.Proofs.JsonSort IP.Proofs.JsonMain.
From Coq Require Import Permutation.
Open Scope N_scope.

Lemma pe_sort_maps v : perm_eq v (lexsort v).
Proof. rewrite <- (sortv_lex v). apply pe_sortv. Qed.

Lemma json_safe_keys_nodup co gf v : json_safe co gf v = true -> keys_nodup v.
Proof.
  apply (keys_nodup_intro (fun v => json_safe co gf v = true)); cbn [json_safe].
  - intros l H. now apply Forall_forall, forallb_forall.
  - intros m H. apply andb_true_iff in H as [H H3]. apply andb_true_iff in H as [H1 _]. split; [now apply nodup_keys_iff|].
    apply Forall_forall. intros kv Hkv. rewrite forallb_forall in H3. now destruct (andb_prop _ _ (H3 kv Hkv)).
Qed.

Section JsonCodec.
  Variable fmt_float : N -> bytes.
  Variable parse_float : bytes -> option N.
  Variable cid_str : bytes -> bytes.
  Variable cid_parse : bytes -> option bytes.
  Variable cid_ok : bytes -> bool.

  (* the encoder's name for its bytewise key sort; elsewhere it is written lexsort, and sortv is CborDec's *)
  Local Notation sortv := lexsort (only parsing).
  Definition json_enc (d : dm) : bytes := text fmt_float cid_str (sortv d).
  Definition json_decode (b : bytes) : res jderr (dm * bytes) := jdecode parse_float cid_parse dagjson_dopts b.
  Definition json_dec {E} (other : E) (b : bytes) : res E dm :=
    match json_decode b with
    | Ok (d, []) => Ok d
    | _ => Err other
    end.

  Definition json_within (d : dm) : Prop := json_safe cid_ok nonintegral d = true /\ jdepth d <= 1024.

  Lemma json_enc_is_encode d : encodable cid_ok d = true ->
    jenc fmt_float cid_str dagjson_eopts cid_ok d = Ok (json_enc d).
  Proof. apply enc_ok. Qed.

  Theorem json_enc_perm d d' : keys_nodup d -> perm_eq d d' -> json_enc d = json_enc d'.
  Proof. intros Hnd Hp. unfold json_enc. now rewrite (perm_eq_sort d d' Hp Hnd). Qed.

  Hypothesis HA1 : A1 fmt_float parse_float.
  Hypothesis HA2 : A2 fmt_float.
  Hypothesis HCID : CID cid_str cid_parse cid_ok.

  Theorem json_decode_encode d : json_within d -> json_decode (json_enc d) = Ok (lexsort d, []).
  Proof.
    intros [Hs Hd]. destruct (roundtrip_nonintegral fmt_float parse_float cid_str cid_parse cid_ok HA1 HA2 HCID d Hs Hd) as (bs & E & D).
    destruct (enc_ok_inv _ _ _ _ _ E) as [_ ->]. exact D.
  Qed.

  Theorem json_codec_perm {E} (other : E) d : json_within d ->
    exists d', json_dec other (json_enc d) = Ok d' /\ perm_eq d d'.
  Proof.
    intros Hw. exists (lexsort d). split; [|apply pe_sort_maps].
    unfold json_dec. now rewrite (json_decode_encode d Hw).
  Qed.
End JsonCodec.
