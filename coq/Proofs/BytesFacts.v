(* Proofs/BytesFacts.v — facts about Base/Bytes.v: big-endian helpers, take, key orders, sorting; and the few
   list facts the proofs share (nested conjunctions as Forall, folds under a permutation, Forall2, a duplicate
   test by any equality test) and [Fine], the shape of "total and never out of fuel" statements. *)
Require Import IP.Base.Bytes.
From Coq Require Import ZifyN ZifyNat ZifyBool Permutation Sorted.
Open Scope N_scope.

Lemma unbe_app a b acc : unbe (a ++ b) acc = unbe b (unbe a acc).
Proof. revert acc; induction a as [|x a IH]; intros; cbn; auto. Qed.

Lemma be_length k v : length (be k v) = k.
Proof. revert v; induction k as [|k IH]; intros; cbn [be]; auto. rewrite app_length, IH. cbn. lia. Qed.

Lemma unbe_be k v acc : v < 256 ^ N.of_nat k -> unbe (be k v) acc = acc * 256 ^ N.of_nat k + v.
Proof.
  revert v acc; induction k as [|k IH]; intros v acc Hv.
  - cbn in *. lia.
  - cbn [be]. rewrite unbe_app. rewrite IH.
    + cbn [unbe]. rewrite Nat2N.inj_succ, N.pow_succ_r'.
      pose proof (N.div_mod v 256 ltac:(lia)). lia.
    + rewrite Nat2N.inj_succ, N.pow_succ_r' in Hv.
      apply N.div_lt_upper_bound; lia.
Qed.

Lemma be_ok k v : Forall (fun b => b < 256) (be k v).
Proof.
  revert v; induction k as [|k IH]; intros; cbn [be]; [constructor|].
  apply Forall_app; split; [apply IH|]. constructor; [|constructor].
  apply N.mod_lt. lia.
Qed.

Lemma unbe_bound bs acc : Forall (fun b => b < 256) bs ->
  unbe bs acc < (acc + 1) * 256 ^ N.of_nat (length bs).
Proof.
  revert acc; induction bs as [|b bs IH]; intros acc H; cbn [unbe length].
  - cbn. lia.
  - inversion H as [|? ? Hb Hr]; subst. specialize (IH (acc * 256 + b) Hr).
    rewrite Nat2N.inj_succ, N.pow_succ_r'. nia.
Qed.

Lemma digit_split d hi lo : lo < d -> (hi * d + lo) / d = hi /\ (hi * d + lo) mod d = lo.
Proof. intros H. split; symmetry; [apply (N.div_unique _ d hi lo)|apply (N.mod_unique _ d hi lo)]; lia. Qed.

Lemma be_unbe bs : Forall (fun b => b < 256) bs -> be (length bs) (unbe bs 0) = bs.
Proof.
  (* [be k] keeps the low k bytes, so the accumulator may be anything *)
  generalize 0. induction bs as [|b r IH] using rev_ind; intros acc H; [reflexivity|].
  apply Forall_app in H as [Hr Hb]. inversion Hb; subst.
  rewrite unbe_app, app_length, Nat.add_1_r. cbn [unbe be].
  destruct (digit_split 256 (unbe r acc) b) as [-> ->]; [assumption|]. now rewrite IH.
Qed.

Lemma N2Z_ltb a b : (Z.of_N a <? Z.of_N b)%Z = (a <? b).
Proof. unfold Z.ltb, N.ltb. now rewrite N2Z.inj_compare. Qed.

Lemma lenN_cons {A} (x : A) l : lenN (x :: l) = lenN l + 1.
Proof. unfold lenN. cbn [length]. lia. Qed.

Lemma lenN_app {A} (a b : list A) : lenN (a ++ b) = lenN a + lenN b.
Proof. unfold lenN. rewrite app_length. lia. Qed.

Lemma lenN_map {A B} (g : A -> B) l : lenN (map g l) = lenN l.
Proof. unfold lenN. now rewrite map_length. Qed.

Lemma take_spec {A} (n : N) (l : list A) :
  take n l = if lenN l <? n then None else Some (firstn (N.to_nat n) l, skipn (N.to_nat n) l).
Proof.
  revert n; induction l as [|x r IH]; intros n; cbn [take].
  - destruct (N.eqb_spec n 0) as [->|Hn].
    + reflexivity.
    + unfold lenN. cbn [length]. destruct (N.ltb_spec (N.of_nat 0) n); [reflexivity|lia].
  - destruct (N.eqb_spec n 0) as [->|Hn].
    + reflexivity.
    + rewrite IH, lenN_cons.
      destruct (N.ltb_spec (lenN r) (N.pred n)); destruct (N.ltb_spec (lenN r + 1) n); try lia; try reflexivity.
      replace (N.to_nat n) with (S (N.to_nat (N.pred n))) by lia. reflexivity.
Qed.

Lemma take_app {A} (s r : list A) : take (lenN s) (s ++ r) = Some (s, r).
Proof.
  rewrite take_spec, lenN_app.
  destruct (N.ltb_spec (lenN s + lenN r) (lenN s)); [lia|].
  unfold lenN. rewrite Nat2N.id, firstn_app, skipn_app, Nat.sub_diag, firstn_all, skipn_all. cbn.
  now rewrite app_nil_r.
Qed.

Lemma take_cons_app {A} (x : A) s r : take (lenN s + 1) (x :: s ++ r) = Some (x :: s, r).
Proof. rewrite <- (lenN_cons x). exact (take_app (x :: s) r). Qed.

Lemma take_some {A} n (l p s : list A) : take n l = Some (p, s) -> l = p ++ s /\ lenN p = n.
Proof.
  rewrite take_spec. destruct (N.ltb_spec (lenN l) n); [discriminate|]. intros E; inversion E; subst.
  split; [now rewrite firstn_skipn|]. unfold lenN in *. rewrite firstn_length. lia.
Qed.

(* what a Go string or []byte holds.  CborSound.wfb and StoreBase.wfb are this Forall under a name the property
   statements can use; Base/Bytes.v's bytes_ok is its boolean form *)
Notation bytes_wf bs := (Forall (fun b => b < 256) bs).

Lemma bytes_ok_wf bs : bytes_ok bs = true <-> bytes_wf bs.
Proof.
  unfold bytes_ok, byte_ok. rewrite forallb_forall, Forall_forall.
  split; intros H b Hb; apply N.ltb_lt, H, Hb.
Qed.

Lemma take_pos_shorter {A} n (l p s : list A) : 0 < n -> take n l = Some (p, s) -> (length s < length l)%nat.
Proof. intros Hn H. apply take_some in H as [-> Hp]. rewrite app_length. unfold lenN in Hp. lia. Qed.

Lemma bytes_eqb_eq a b : bytes_eqb a b = true <-> a = b.
Proof.
  revert b; induction a as [|x a IH]; destruct b as [|y b]; cbn; try (split; congruence).
  rewrite andb_true_iff, IH, N.eqb_eq. split; [intros [-> ->]; reflexivity|intros E; inversion E; auto].
Qed.

Lemma bytes_eqb_refl a : bytes_eqb a a = true.
Proof. now apply bytes_eqb_eq. Qed.

Lemma bytes_eqb_neq a b : bytes_eqb a b = false <-> a <> b.
Proof. rewrite <- bytes_eqb_eq. now destruct (bytes_eqb a b). Qed.

Lemma bytes_eqb_spec a b : reflect (a = b) (bytes_eqb a b).
Proof. apply iff_reflect. symmetry. apply bytes_eqb_eq. Qed.

Lemma bytes_ltb_irrefl a : bytes_ltb a a = false.
Proof. induction a as [|x a IH]; cbn; auto. now rewrite N.ltb_irrefl. Qed.

Lemma bytes_ltb_trans a b c : bytes_ltb a b = true -> bytes_ltb b c = true -> bytes_ltb a c = true.
Proof.
  revert b c; induction a as [|x a IH]; intros [|y b] [|z c]; cbn; try congruence.
  destruct (N.ltb_spec x y) as [Hxy|Hxy].
  - intros _ Hbc. destruct (N.ltb_spec x z); [reflexivity|].
    destruct (N.ltb_spec y z); [lia|]. destruct (N.ltb_spec z y); [discriminate|lia].
  - destruct (N.ltb_spec y x); [discriminate|]. assert (x = y) as -> by lia. intros Hab.
    destruct (N.ltb_spec y z); [reflexivity|]. destruct (N.ltb_spec z y); [discriminate|]. now apply IH.
Qed.

Lemma bytes_ltb_total a b : bytes_ltb a b = false -> bytes_ltb b a = false -> a = b.
Proof.
  revert b; induction a as [|x a IH]; intros [|y b]; cbn; try congruence.
  destruct (N.ltb_spec x y), (N.ltb_spec y x); try congruence; try lia.
  intros H1 H2. assert (x = y) by lia. subst. f_equal. auto.
Qed.

Lemma len_cmp_compare a b : len_cmp a b = Nat.compare (length a) (length b).
Proof.
  revert b; induction a as [|x a IH]; intros [|y b]; cbn [len_cmp length Nat.compare]; try reflexivity.
  apply IH.
Qed.

Lemma rfc_ltb_irrefl a : rfc_ltb a a = false.
Proof. unfold rfc_ltb. now rewrite len_cmp_compare, Nat.compare_refl, bytes_ltb_irrefl. Qed.

Lemma rfc_ltb_trans a b c : rfc_ltb a b = true -> rfc_ltb b c = true -> rfc_ltb a c = true.
Proof.
  unfold rfc_ltb. rewrite !len_cmp_compare.
  destruct (Nat.compare_spec (length a) (length b)), (Nat.compare_spec (length b) (length c)),
    (Nat.compare_spec (length a) (length c)); try congruence; try lia.
  apply bytes_ltb_trans.
Qed.

Lemma rfc_ltb_total a b : rfc_ltb a b = false -> rfc_ltb b a = false -> a = b.
Proof.
  unfold rfc_ltb. rewrite !len_cmp_compare.
  destruct (Nat.compare_spec (length a) (length b)), (Nat.compare_spec (length b) (length a)); try congruence; try lia.
  apply bytes_ltb_total.
Qed.

Section SortFacts.
  Context {V : Type}.
  Variable ltb : bytes -> bytes -> bool.
  Hypothesis ltb_irrefl : forall a, ltb a a = false.
  Hypothesis ltb_trans : forall a b c, ltb a b = true -> ltb b c = true -> ltb a c = true.
  Hypothesis ltb_total : forall a b, ltb a b = false -> ltb b a = false -> a = b.

  Definition klt (x y : bytes * V) : Prop := ltb (fst x) (fst y) = true.

  Lemma insert_perm kv (l : list (bytes * V)) : Permutation (kv :: l) (insert_kv ltb kv l).
  Proof.
    induction l as [|x r IH]; cbn; [reflexivity|].
    destruct (ltb (fst x) (fst kv)); [|reflexivity].
    rewrite perm_swap. now constructor.
  Qed.

  Lemma sort_perm (l : list (bytes * V)) : Permutation l (sort_kv ltb l).
  Proof.
    induction l as [|x r IH]; cbn; [constructor|].
    rewrite <- insert_perm. now constructor.
  Qed.

  Definition keys (l : list (bytes * V)) : list bytes := map fst l.

  Lemma insert_sorted kv (l : list (bytes * V)) :
    ~ In (fst kv) (keys l) -> StronglySorted klt l -> StronglySorted klt (insert_kv ltb kv l).
  Proof.
    induction l as [|x r IH]; intros Hnin Hs; cbn.
    - constructor; constructor.
    - inversion Hs as [|? ? Hr Hall]; subst.
      destruct (ltb (fst x) (fst kv)) eqn:E.
      + constructor.
        * apply IH; [cbn in Hnin; tauto|assumption].
        * assert (Hp := insert_perm kv r).
          rewrite Forall_forall in *. intros y Hy.
          apply (Permutation_in _ (Permutation_sym Hp)) in Hy. destruct Hy as [<-|Hy]; [exact E|auto].
      + assert (Hlt : ltb (fst kv) (fst x) = true).
        { destruct (ltb (fst kv) (fst x)) eqn:E2; [reflexivity|].
          exfalso. apply Hnin. left. symmetry. now apply ltb_total. }
        constructor; [assumption|]. constructor; [exact Hlt|].
        rewrite Forall_forall in *. intros y Hy. unfold klt in *. eapply ltb_trans; [exact Hlt|]. now apply Hall.
  Qed.

  Lemma sort_sorted (l : list (bytes * V)) : NoDup (keys l) -> StronglySorted klt (sort_kv ltb l).
  Proof.
    induction l as [|x r IH]; intros Hnd; cbn; [constructor|].
    inversion Hnd as [|? ? Hnin Hr]; subst.
    apply insert_sorted; [|auto].
    intros Hin. apply Hnin. unfold keys in *.
    eapply Permutation_in; [|exact Hin]. apply Permutation_map. apply Permutation_sym, sort_perm.
  Qed.

  Lemma sorted_perm_unique (l1 l2 : list (bytes * V)) :
    StronglySorted klt l1 -> StronglySorted klt l2 -> Permutation l1 l2 -> l1 = l2.
  Proof.
    revert l2; induction l1 as [|x r IH]; intros l2 H1 H2 Hp.
    - apply Permutation_nil in Hp. now subst.
    - destruct l2 as [|y s]; [apply Permutation_sym, Permutation_nil in Hp; discriminate|].
      inversion H1 as [|? ? Hr1 Ha1]; inversion H2 as [|? ? Hr2 Ha2]; subst.
      assert (x = y).
      { assert (Hx : In x (y :: s)) by (eapply Permutation_in; [exact Hp|now left]).
        assert (Hy : In y (x :: r)) by (eapply Permutation_in; [apply Permutation_sym; exact Hp|now left]).
        destruct Hx as [->|Hx]; [reflexivity|]. destruct Hy as [->|Hy]; [reflexivity|].
        rewrite Forall_forall in Ha1, Ha2. specialize (Ha1 _ Hy). specialize (Ha2 _ Hx). unfold klt in *.
        pose proof (ltb_trans _ _ _ Ha1 Ha2) as C. rewrite ltb_irrefl in C. discriminate. }
      subst. f_equal. apply IH; auto. now apply Permutation_cons_inv in Hp.
  Qed.

  Lemma sort_perm_invariant (l1 l2 : list (bytes * V)) :
    NoDup (keys l1) -> Permutation l1 l2 -> sort_kv ltb l1 = sort_kv ltb l2.
  Proof.
    intros Hnd Hp. apply sorted_perm_unique.
    - now apply sort_sorted.
    - apply sort_sorted. unfold keys. eapply Permutation_NoDup; [apply Permutation_map; exact Hp|exact Hnd].
    - rewrite <- (sort_perm l1), <- (sort_perm l2). exact Hp.
  Qed.

  Lemma sort_sorted_id (l : list (bytes * V)) : StronglySorted klt l -> sort_kv ltb l = l.
  Proof.
    induction l as [|x r IH]; intros Hs; cbn; [reflexivity|].
    inversion Hs as [|? ? Hr Hall]; subst. rewrite IH by assumption.
    destruct r as [|y r']; cbn; [reflexivity|].
    inversion Hall as [|? ? Hxy _]; subst. unfold klt in Hxy.
    destruct (ltb (fst y) (fst x)) eqn:E; [|reflexivity].
    pose proof (ltb_trans _ _ _ Hxy E) as C. rewrite ltb_irrefl in C. discriminate.
  Qed.
End SortFacts.

Lemma map_id_Forall {A} (g : A -> A) l : Forall (fun x => g x = x) l -> map g l = l.
Proof. intro H. rewrite <- (map_id l) at 2. now apply map_ext_Forall. Qed.
Lemma map_snd_id_Forall {K A} (g : A -> A) (m : list (K * A)) :
  Forall (fun kt => g (snd kt) = snd kt) m -> map (fun kt => (fst kt, g (snd kt))) m = m.
Proof.
  intro H. apply map_id_Forall. eapply Forall_impl; [|exact H]. intros [k x] E. simpl in *. now rewrite E.
Qed.

Lemma map_fst_pair {K A B} (g : A -> B) (m : list (K * A)) :
  map fst (map (fun kv => (fst kv, g (snd kv))) m) = map fst m.
Proof. induction m as [|x m IH]; cbn; auto. now rewrite IH. Qed.

Lemma insert_map_snd {A B} ltb (g : A -> B) kv (l : list (bytes * A)) :
  insert_kv ltb (fst kv, g (snd kv)) (map (fun e => (fst e, g (snd e))) l) =
  map (fun e => (fst e, g (snd e))) (insert_kv ltb kv l).
Proof.
  induction l as [|x r IH]; cbn; [reflexivity|].
  destruct (ltb (fst x) (fst kv)); cbn; [now rewrite IH|reflexivity].
Qed.

Lemma sort_map_snd {A B} ltb (g : A -> B) (l : list (bytes * A)) :
  sort_kv ltb (map (fun e => (fst e, g (snd e))) l) = map (fun e => (fst e, g (snd e))) (sort_kv ltb l).
Proof.
  induction l as [|x r IH]; cbn; [reflexivity|]. rewrite IH. apply insert_map_snd.
Qed.

(* the conjunction a nested [fix] spells out over a list is [Forall] *)
Lemma all_Forall {A} (P : A -> Prop) (l : list A) :
  (fix all (l : list A) := match l with [] => True | x :: r => P x /\ all r end) l <-> Forall P l.
Proof.
  induction l as [|x r IH]; [split; constructor|].
  rewrite IH. split; [intros [? ?]; now constructor|intros H; inversion H; auto].
Qed.

Lemma all_snd_Forall {K A} (P : A -> Prop) (l : list (K * A)) :
  (fix all (l : list (K * A)) := match l with [] => True | (_, x) :: r => P x /\ all r end) l <->
  Forall (fun kv => P (snd kv)) l.
Proof.
  induction l as [|[k x] r IH]; [split; constructor|].
  rewrite IH. split; [intros [? ?]; now constructor|intros H; inversion H; auto].
Qed.

Lemma all_kv_Forall {K A} (Q : K -> Prop) (P : A -> Prop) (l : list (K * A)) :
  (fix all (l : list (K * A)) := match l with [] => True | (k, x) :: r => Q k /\ P x /\ all r end) l <->
  Forall (fun kv => Q (fst kv) /\ P (snd kv)) l.
Proof.
  induction l as [|[k x] r IH]; [split; constructor|].
  rewrite IH. split; [intros (? & ? & ?); now constructor|intros H; inversion H; tauto].
Qed.

Definition Fine {E A} (ok : E -> Prop) (Q : A -> Prop) (r : res E A) : Prop :=
  match r with Ok a => Q a | Err e => ok e end.

Lemma Fine_bind {E A B} (ok : E -> Prop) (Q1 : A -> Prop) (Q : B -> Prop) r (k : A -> res E B) :
  Fine ok Q1 r -> (forall a, Q1 a -> Fine ok Q (k a)) -> Fine ok Q (bind r k).
Proof. destruct r as [a|e]; cbn; auto. Qed.

Lemma Fine_impl {E A} (ok : E -> Prop) (Q1 Q : A -> Prop) (r : res E A) : Fine ok Q1 r -> (forall a, Q1 a -> Q a) -> Fine ok Q r.
Proof. destruct r as [a|e]; cbn; auto. Qed.

Lemma fold_right_perm {A B} (f : A -> B -> B) (b : B) (l1 l2 : list A) :
  (forall x y c, f x (f y c) = f y (f x c)) -> Permutation l1 l2 -> fold_right f b l1 = fold_right f b l2.
Proof. intros Hf. induction 1; cbn [fold_right]; congruence. Qed.

Lemma fold_max_le {A} (g : A -> nat) (l : list A) :
  Forall (fun x => g x <= fold_right (fun x a => Nat.max (g x) a) 0 l)%nat l.
Proof.
  induction l as [|x r IH]; [constructor|]. cbn [fold_right]. constructor; [lia|].
  eapply Forall_impl; [|exact IH]. cbn. intros; lia.
Qed.

Lemma F2_refl {A} (R : A -> A -> Prop) l : (forall x, R x x) -> Forall2 R l l.
Proof. intros H. induction l; constructor; auto. Qed.

Lemma F2_cons_inv {A B} (R : A -> B -> Prop) a l l2 : Forall2 R (a :: l) l2 ->
  exists b l2', l2 = b :: l2' /\ R a b /\ Forall2 R l l2'.
Proof. intros H. inversion H; subst. eauto. Qed.

Lemma F2_in_r {A B} (R : A -> B -> Prop) l l' b : Forall2 R l l' -> In b l' -> exists a, In a l /\ R a b.
Proof.
  intros H; induction H as [|x y l l' Hxy _ IH]; intros Hin; [contradiction|].
  destruct Hin as [<-|Hin]; [exists x; split; [left; reflexivity | exact Hxy]|].
  destruct (IH Hin) as [a [Ha Hr]]. exists a. split; [right; exact Ha | exact Hr].
Qed.

Lemma F2_impl_in {A B} (R Q : A -> B -> Prop) l l' :
  Forall2 R l l' -> (forall a b, In a l -> In b l' -> R a b -> Q a b) -> Forall2 Q l l'.
Proof.
  intros H; induction H as [|x y l l' Hxy _ IH]; intros HQ; constructor.
  - apply HQ; [left; reflexivity | left; reflexivity | exact Hxy].
  - apply IH. intros a b Ha Hb. apply HQ; right; assumption.
Qed.

Lemma F2_map_r {A B C} (R : A -> C -> Prop) (G : B -> C) l l' :
  Forall2 (fun a b => R a (G b)) l l' -> Forall2 R l (map G l').
Proof. intros H; induction H; simpl; constructor; auto. Qed.

Lemma F2_unique {A B} (R : A -> B -> Prop) (l : list A) :
  Forall (fun v => forall b1 b2, R v b1 -> R v b2 -> b1 = b2) l ->
  forall x y, Forall2 R l x -> Forall2 R l y -> x = y.
Proof.
  induction l as [|v r IH]; intros H x y Hx Hy; inversion Hx; inversion Hy; subst; [reflexivity|].
  inversion H as [|? ? Hv Hr]; subst. f_equal; [eapply Hv; eassumption|eapply IH; eassumption].
Qed.

Lemma Forall_firstn {A} (P : A -> Prop) n l : Forall P l -> Forall P (firstn n l).
Proof. revert l. induction n; destruct l; cbn; intros HF; auto. inversion HF; subst. constructor; auto. Qed.

Lemma Forall_skipn {A} (P : A -> Prop) n l : Forall P l -> Forall P (skipn n l).
Proof. revert l. induction n; destruct l; cbn; intros HF; auto. inversion HF; subst. auto. Qed.

Lemma F2_eq {A} (l l' : list A) : Forall2 eq l l' -> l = l'.
Proof. intros H; induction H; congruence. Qed.

Lemma bytes_eqb_sym a b : bytes_eqb a b = bytes_eqb b a.
Proof. apply eq_true_iff_eq. rewrite !bytes_eqb_eq. split; congruence. Qed.

Lemma mem_key_In {A} k (m : list (bytes * A)) : mem_key k m = true <-> In k (map fst m).
Proof.
  induction m as [|[k' v] r IH]; simpl; [easy|].
  rewrite orb_true_iff, IH, bytes_eqb_eq. split; (intros [H|H]; [left; congruence | now right]).
Qed.

Lemma existsb_In_by {A} (eqb : A -> A -> bool) : (forall a b, eqb a b = true <-> a = b) ->
  forall x l, existsb (eqb x) l = true <-> In x l.
Proof.
  intros Heq x l. rewrite existsb_exists. split; [intros (y & Hy & E); apply Heq in E; now subst|].
  intros H. exists x. split; [assumption|now apply Heq].
Qed.

Lemma existsb_eqb_In k l : existsb (bytes_eqb k) l = true <-> In k l.
Proof. apply existsb_In_by, bytes_eqb_eq. Qed.

(* the map decoders of both codecs keep the keys read so far, latest first, and refuse a key found among them *)
Lemma seen_fresh k seen ks : NoDup (rev seen ++ k :: ks) ->
  existsb (bytes_eqb k) seen = false /\ NoDup (rev (k :: seen) ++ ks).
Proof.
  intros ND. split; [|cbn [rev]; now rewrite <- app_assoc].
  apply not_true_iff_false. rewrite existsb_eqb_In, in_rev. intros Hs. apply (NoDup_remove_2 _ _ _ ND), in_or_app. now left.
Qed.

Lemma existsb_false_In k l : existsb (bytes_eqb k) l = false -> forall x, In x l -> bytes_eqb k x = false.
Proof.
  induction l; simpl; intros H x Hin; [contradiction|].
  apply orb_false_elim in H; destruct H. destruct Hin; [subst; assumption | auto].
Qed.

(* the nodup tests of the models ([nodupb], [nodup_kinds], [nodupz], [names_nodup]) are this function at their
   equality test *)
Definition nodup_by {A} (eqb : A -> A -> bool) : list A -> bool :=
  fix nd l := match l with [] => true | x :: r => negb (existsb (eqb x) r) && nd r end.

Lemma nodup_by_NoDup {A} (eqb : A -> A -> bool) l :
  (forall a b, eqb a b = true <-> a = b) -> nodup_by eqb l = true <-> NoDup l.
Proof.
  intros Heq. induction l as [|x l IH]; cbn.
  - split; auto. constructor.
  - rewrite andb_true_iff, negb_true_iff, IH, <- not_true_iff_false, (existsb_In_by eqb Heq). split.
    + intros [H1 H2]. now constructor.
    + intros H. inversion H; auto.
Qed.

Lemma F2_perm_keys {A B} (R : A -> B -> Prop) (m : list (bytes * A)) (m1 m' : list (bytes * B)) :
  Forall2 (fun a b => fst a = fst b /\ R (snd a) (snd b)) m m1 -> Permutation m1 m' ->
  Permutation (map fst m) (map fst m').
Proof.
  intros HF HP. rewrite <- (Permutation_map fst HP). clear HP.
  induction HF as [|a b l l' [H1 _] _ IH]; cbn; [constructor|]. rewrite H1. now constructor.
Qed.

Lemma forallb_perm {A} (f : A -> bool) (l1 l2 : list A) : Permutation l1 l2 -> forallb f l1 = forallb f l2.
Proof.
  induction 1 as [|x l l' _ IH|x y l|l l' l'' _ IH1 _ IH2]; cbn [forallb]; [reflexivity|now rewrite IH| |congruence].
  destruct (f x), (f y); reflexivity.
Qed.

Lemma forallb_map {A B} (f : B -> bool) (g : A -> B) l : forallb f (map g l) = forallb (fun x => f (g x)) l.
Proof. induction l; simpl; [reflexivity | rewrite IHl; reflexivity]. Qed.
