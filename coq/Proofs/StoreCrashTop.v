(* Proofs/StoreCrashTop.v — the closed form of C18_atomic: from a freshly initialised store (or any
   state satisfying the invariant), any writers, any schedule. *)
Require Import IP.Base.Bytes IP.Base.GoSem IP.Gen.FromGo IP.Store.Storage IP.Store.FsStore IP.Store.FsCrash.
Require Import IP.Proofs.StoreBase IP.Proofs.StoreFs IP.Proofs.StoreCrash.
From Coq Require Import Lia List Bool Arith.
Import ListNotations.

Lemma assoc_dirs_of_inv : forall p pre q n, assoc_path (dirs_of pre p) q = Some n ->
  n = Dir /\ exists i, (0 < i <= length p)%nat /\ q = pre ++ firstn i p.
Proof.
  induction p; intros pre q n H; simpl in H. discriminate.
  destruct (path_eqb_spec (pre ++ [a]) q) as [<-|E].
  - inversion H. split; auto. exists 1%nat. simpl. split; auto. lia.
  - apply IHp in H. destruct H as [D [i [Hi X]]]. split; auto. exists (S i). simpl. split. lia.
    rewrite X, <- app_assoc. auto.
Qed.

Lemma dirs_of_lookup_inv : forall b q n, fs_lookup (dirs_of [] b) q = Some n ->
  n = Dir /\ (length q <= length b)%nat.
Proof.
  intros b [|c q'] n X. { inversion X. split; auto. simpl. lia. }
  apply assoc_dirs_of_inv in X. destruct X as [D [i [Hi X]]]. split; auto.
  rewrite X. simpl. rewrite firstn_length. lia.
Qed.

Lemma fs_fresh_lookup : forall cfg p n, fs_lookup (fs_fresh cfg) p = Some n ->
  n = Dir /\ (length p <= length (f_base cfg) + 1)%nat.
Proof.
  intros cfg p n H.
  unfold fs_fresh in H. destruct (fs_init_shape cfg (dirs_of [] (f_base cfg))) as [E|E]; rewrite E in H.
  - apply dirs_of_lookup_inv in H. split. tauto. lia.
  - apply lookup_set_inv in H; [|apply staging_dir_nonnil]. destruct H as [[-> <-]|[_ H]].
    + split; auto. unfold staging_dir. rewrite app_length. simpl. lia.
    + apply dirs_of_lookup_inv in H. split. tauto. lia.
Qed.

Lemma inv_fresh : forall cfg, inv cfg (fun _ _ => False) (fs_fresh cfg) [].
Proof.
  intros cfg. constructor.
  - intros p c L. apply fs_fresh_lookup in L. destruct L. discriminate.
  - intros p L. apply fs_fresh_lookup in L. destruct L as [_ L]. unfold short, keylen.
    destruct (f_shard cfg); simpl; lia.
  - intros [|i] w N; discriminate.
  - intros [|i] j wi wj st _ Ni; discriminate.
Qed.

Definition committed (ws : list writer) (k : key) (c : bytes) : Prop :=
  exists w, In w ws /\ we_dest (w_env w) <> None /\ w_key w = k /\ w_content w = c.

(* writers as the store creates them: [mk_writer] for a key whose path is not subject to the C17
   defect (escaping applied, or a key without '/', '.', NUL) *)
Definition writer_started (cfg : fscfg) (w : writer) : Prop :=
  we_base (w_env w) = f_base cfg /\
  (exists tr, w_pc w = WCreate tr (w_chunks w)) /\
  match we_dest (w_env w) with
  | Some d => keypath cfg (w_key w) d
  | None => True
  end.

Lemma mk_aborter_started : forall cfg names chunks, writer_started cfg (mk_aborter cfg names chunks).
Proof. intros. unfold writer_started, mk_aborter. simpl. split; auto. split; eauto. Qed.

(* new writers on a store left by earlier ones, whose staging files stay where they are: [C0] is what was
   committed before *)
Lemma inv_started : forall cfg C0 f ws0 ws,
  inv cfg C0 f ws0 -> Forall (writer_started cfg) ws -> inv cfg (fun k c => C0 k c \/ committed ws k c) f ws.
Proof.
  intros cfg C0 f ws0 ws I0 F. rewrite Forall_forall in F. constructor.
  - intros q c L. destruct (inv_files _ _ _ _ I0 q c L) as [S|[k' [K' HC]]]; eauto.
  - apply (inv_dirs _ _ _ _ I0).
  - intros i w N. apply nth_error_In in N. destruct (F w N) as [B [[tr P] D]].
    unfold pc_ok, staged. rewrite P. repeat split; auto.
    destruct (we_dest (w_env w)) eqn:X; auto. split; auto.
    right. exists w. repeat split; auto. congruence.
  - intros i j wi wj st _ Ni _ Si _. apply nth_error_In in Ni.
    destruct (F wi Ni) as [_ [[tr P] _]]. rewrite P in Si. discriminate.
Qed.

(* from any state of the store that satisfies the invariant, e.g. after an earlier crash *)
Theorem crash_atomic_from : forall cfg C0 f0 ws0 ws sched,
  (forall k k', wfb k -> wfb k' -> enc_key cfg k = enc_key cfg k' -> k = k') ->
  inv cfg C0 f0 ws0 ->
  Forall (writer_started cfg) ws ->
  forall k p, keypath cfg k p ->
    let f := fst (exec f0 ws sched) in
    fs_lookup f p = None \/ exists c, fs_lookup f p = Some (File c) /\ (C0 k c \/ committed ws k c).
Proof.
  intros cfg C0 f0 ws0 ws sched EI I0 F k p K f.
  exact (inv_atomic cfg EI _ _ _ (exec_inv cfg _ sched _ _ (inv_started cfg C0 f0 ws0 ws I0 F)) k p K).
Qed.

Theorem crash_atomic : forall cfg ws sched,
  (forall k k', wfb k -> wfb k' -> enc_key cfg k = enc_key cfg k' -> k = k') ->
  Forall (writer_started cfg) ws ->
  forall k p, keypath cfg k p ->
    let f := fst (exec (fs_fresh cfg) ws sched) in
    fs_lookup f p = None \/ exists c, fs_lookup f p = Some (File c) /\ committed ws k c.
Proof.
  intros cfg ws sched EI F k p K f.
  destruct (crash_atomic_from cfg (fun _ _ => False) _ [] ws sched EI (inv_fresh cfg) F k p K)
    as [H|[c [L [[]|HC]]]]; eauto.
Qed.

Lemma escaping_enc_inj : forall cfg, escaping cfg -> forall k k', wfb k -> wfb k' -> enc_key cfg k = enc_key cfg k' -> k = k'.
Proof. intros cfg [Q E] k k' W W' H. unfold enc_key in H. rewrite Q in H. apply (esc_inj _ E); auto. Qed.

Lemma escaping_keypath : forall cfg k p, escaping cfg -> wfb k -> k <> [] -> key_len_ok (enc_key cfg k) ->
  path_for_key cfg k = Some p -> keypath cfg k p.
Proof. intros cfg k p E WF N L P. split; auto. split; [apply esc_plain; auto|]. split; auto. Qed.

Lemma no_escape_enc_inj : forall cfg, q_no_escape cfg = true -> forall k k', wfb k -> wfb k' -> enc_key cfg k = enc_key cfg k' -> k = k'.
Proof. intros cfg Q k k' _ _ H. unfold enc_key in H. rewrite Q in H. auto. Qed.
