(* Proofs/JsonTotal.v — C10 for DAG-JSON: the decoder model never runs out of fuel and never reads a stale look-ahead
   slot, and what it accepts is bounded (jdecode_spec; C10_json_decode_total and _bounded read it off in Props/C10.v,
   which also says what they claim of the Go code).
   Measure: mu = tokens held in the window + unread input bytes; every token costs a byte, every value a token,
   unmarshal needs fuel 2*mu + 2 and the model supplies 3*|input| + 4. *)
Require Import IP.Base.Bytes IP.DM.Value IP.Codec.Utf8 IP.Codec.Base64 IP.Codec.DagJson.
Require Import IP.Proofs.BytesFacts IP.Proofs.JsonTok IP.Proofs.JsonAbs.
From Coq Require Import ZifyNat.
Open Scope N_scope.

Lemma skip_ws_le bs : (length (skip_ws bs) <= length bs)%nat.
Proof. induction bs as [|c r IH]; cbn [skip_ws]; [lia|]. destruct (is_ws c); cbn [length] in *; lia. Qed.

Lemma strip_prefix_le p : forall s r, strip_prefix p s = Some r -> (length r <= length s)%nat.
Proof.
  induction p as [|x p IH]; intros s r H; cbn [strip_prefix] in H; [inversion H; lia|].
  destruct s as [|y s]; [discriminate|]. destruct (x =? y); [|discriminate]. apply IH in H. cbn [length]. lia.
Qed.

Lemma str_scan_lt bs : forall st raw rest, str_scan st bs = Some (raw, rest) -> (length rest < length bs)%nat.
Proof.
  induction bs as [|c r IH]; intros st raw rest H; [discriminate|].
  cbn [str_scan] in H. cbn [length].
  assert (K : forall st', match str_scan st' r with Some (raw0, rest0) => Some (c :: raw0, rest0) | None => None end = Some (raw, rest) ->
                          (length rest < S (length r))%nat).
  { intros st' E. destruct (str_scan st' r) as [[raw0 rest0]|] eqn:E0; [|discriminate]. inversion E; subst.
    apply IH in E0. lia. }
  destruct st.
  - destruct (c =? 34); [inversion H; subst; lia|]. destruct (c =? 92); [now apply (K SEsc)|].
    destruct (c <? 32); [discriminate|now apply (K SNormal)].
  - match type of H with (if ?b then _ else _) = _ => destruct b end; [now apply (K SNormal)|].
    destruct (c =? 117); [now apply (K (SHex 3))|discriminate].
  - destruct (is_hex c); [|discriminate]. destruct k; [now apply (K SNormal)|now apply (K (SHex k))].
Qed.

Lemma num_scan_le bs : forall st t rest, num_scan st bs = (t, rest) -> (length rest <= length bs)%nat.
Proof.
  induction bs as [|c r IH]; intros st t rest H; cbn [num_scan] in H; [inversion H; cbn; lia|].
  destruct (num_step st c) as [st'|]; [|inversion H; lia].
  destruct (num_scan st' r) as [t0 rest0] eqn:E. inversion H; subst. apply IH in E. cbn [length]. lia.
Qed.

Section Total.
  Variable parse_float : bytes -> option N.

  Lemma num_token_err t e : num_token parse_float t = Err e -> e = JDOther.
  Proof.
    unfold num_token. destruct (parse_int t); [destruct (parse_float t); intros H; inversion H; reflexivity| |];
    intros H; inversion H; reflexivity.
  Qed.

  Lemma accept_kv_spec ts mb r :
    match accept_kv parse_float ts mb r with
    | Ok (_, _, r', _) => (length r' <= length r)%nat
    | Err e => e = JDOther
    end.
  Proof.
    unfold accept_kv.
    repeat match goal with |- context[if ?b then _ else _] => destruct b end; try reflexivity; try lia.
    - destruct (strip_prefix [117; 108; 108] r) eqn:E; [now apply strip_prefix_le in E|reflexivity].
    - unfold decode_string. destruct (str_scan SNormal r) as [[raw rest]|] eqn:E; [|reflexivity].
      apply str_scan_lt in E. lia.
    - destruct (strip_prefix [97; 108; 115; 101] r) eqn:E; [now apply strip_prefix_le in E|reflexivity].
    - destruct (strip_prefix [114; 117; 101] r) eqn:E; [now apply strip_prefix_le in E|reflexivity].
    - destruct (num_scan (num_start mb) r) as [t r'] eqn:E. apply num_scan_le in E.
      destruct (num_token parse_float (mb :: t)) eqn:T; [assumption|now apply num_token_err in T].
  Qed.

  Lemma finish_step_rest x : snd (finish_step x) = snd (fst x).
  Proof. destruct x as [[[k ts] r] d]. unfold finish_step. destruct d; [destruct (ts_stk ts) as [|a [|b c]]|]; reflexivity. Qed.

  Definition tok_lt (n : nat) (x : res jderr (tok * tstate * bytes)) : Prop :=
    match x with Ok (_, _, r) => (length r < n)%nat | Err e => e = JDOther end.

  Lemma finish_lt n x : (length (snd (fst x)) < n)%nat -> tok_lt n (Ok (finish_step x)).
  Proof. intros L. rewrite <- finish_step_rest in L. destruct (finish_step x) as [[k ts] r]. exact L. Qed.

  Lemma value_lt n ts mb r : (length r < n)%nat ->
    tok_lt n (match accept_kv parse_float ts mb r with Ok (k, ts', r', _) => Ok (k, ts', r') | Err e => Err e end).
  Proof.
    intros L. pose proof (accept_kv_spec ts mb r) as S.
    destruct (accept_kv parse_float ts mb r) as [[[[k ts'] r'] d]|e]; cbn; [lia|assumption].
  Qed.

  Lemma key_lt n ts mb r : (length r < n)%nat ->
    tok_lt n (match accept_kv parse_float ts mb r with
              | Err e => Err e
              | Ok (k, ts', r', _) =>
                match skip_ws r' with
                | c :: r'' => if c =? 58 then Ok (k, set_frm ts' (PMapVal, false), r'') else Err JDOther
                | [] => Err JDOther
                end
              end).
  Proof.
    intros L. pose proof (accept_kv_spec ts mb r) as S.
    destruct (accept_kv parse_float ts mb r) as [[[[k ts'] r'] d]|e]; [|assumption].
    pose proof (skip_ws_le r') as W. destruct (skip_ws r') as [|c r'']; [reflexivity|]. cbn [length] in W.
    destruct (c =? 58); [cbn; lia|reflexivity].
  Qed.

  Lemma tstep_spec ts bs : tok_lt (length bs) (tstep parse_float ts bs).
  Proof.
    unfold tstep. pose proof (skip_ws_le bs) as W. destruct (skip_ws bs) as [|mb r]; [reflexivity|]. cbn [length] in W.
    destruct (ts_frm ts) as [ph sm]. cbv zeta. destruct ph.
    - pose proof (accept_kv_spec ts mb r) as S.
      destruct (accept_kv parse_float ts mb r) as [[[[k ts'] r'] d]|e]; [|assumption].
      apply finish_lt. cbn [fst snd]. lia.
    - destruct sm; [|destruct (mb =? 93); [apply finish_lt; cbn [fst snd]; lia|apply value_lt; lia]].
      destruct (mb =? 93); [apply finish_lt; cbn [fst snd]; lia|]. destruct (mb =? 44); [|reflexivity].
      pose proof (skip_ws_le r) as W2. destruct (skip_ws r) as [|mb2 r2]; [reflexivity|]. cbn [length] in W2.
      destruct (mb2 =? 93); [apply finish_lt; cbn [fst snd]; lia|apply value_lt; lia].
    - destruct sm; [|destruct (mb =? 125); [apply finish_lt; cbn [fst snd]; lia|apply key_lt; lia]].
      destruct (mb =? 125); [apply finish_lt; cbn [fst snd]; lia|]. destruct (mb =? 44); [|reflexivity].
      pose proof (skip_ws_le r) as W2. destruct (skip_ws r) as [|mb2 r2]; [reflexivity|]. cbn [length] in W2.
      destruct (mb2 =? 125); [apply finish_lt; cbn [fst snd]; lia|apply key_lt; lia].
    - apply value_lt. lia.
  Qed.

  Lemma Yields_shorter ts bs L ts' bs' : Yields parse_float ts bs L ts' bs' -> (length L + length bs' <= length bs)%nat.
  Proof.
    induction 1 as [|ts bs k ts1 bs1 L ts2 bs2 St _ IH]; [cbn; lia|].
    pose proof (tstep_spec ts bs) as T. rewrite St in T. cbn [tok_lt length] in *. lia.
  Qed.

  Variable cid_parse : bytes -> option bytes.

  Definition mu (s : lsrc) : nat := (length (lb s) + length (lin s))%nat.
  Definition fine (e : jderr) : Prop := e <> JDFuel /\ e <> JDStale.

  Lemma fine_other : fine JDOther. Proof. split; discriminate. Qed.
  Lemma fine_depth : fine JDDepth. Proof. split; discriminate. Qed.
  Hint Resolve fine_other fine_depth : core.

  Local Notation Safe := (Fine fine).

  Lemma pull_spec s :
    Safe (fun x => lb (snd x) = lb s /\ (length (lin (snd x)) < length (lin s))%nat) (pull parse_float s).
  Proof.
    unfold pull. pose proof (tstep_spec (lts s) (lin s)) as T. unfold tok_lt in T.
    destruct (tstep parse_float (lts s) (lin s)) as [[[k ts'] r]|e]; cbn; [auto|subst; auto].
  Qed.

  Lemma next_spec s : Safe (fun x => (mu (snd x) < mu s)%nat) (next parse_float s).
  Proof.
    unfold next, mu. destruct (lb s) as [|k b] eqn:E; [|cbn; lia].
    eapply Fine_impl; [apply pull_spec|]. intros [t s'] [P1 P2]. cbn [snd] in *. rewrite P1, E. cbn [length]. lia.
  Qed.

  Lemma next_direct_spec s : Safe (fun x => (mu (snd x) < mu s)%nat) (next_direct parse_float s).
  Proof.
    unfold next_direct, mu. eapply Fine_impl; [apply pull_spec|].
    intros [t s'] [P1 P2]. cbn [snd] in *. rewrite P1. lia.
  Qed.

  (* the second premise: ensure(k) is only called after ensure(k-1) *)
  Lemma peek_spec k s : (1 <= k)%nat -> (pred k <= length (lb s))%nat ->
    Safe (fun x => (mu (snd x) <= mu s)%nat /\ (k <= length (lb (snd x)))%nat) (peek parse_float k s).
  Proof.
    intros Hk Hl. unfold peek. destruct (Nat.ltb_spec (length (lb s)) k) as [Lt|Ge].
    - pose proof (pull_spec s) as P. destruct (pull parse_float s) as [[t s1]|e]; cbn [bind]; [|exact P].
      destruct P as [P1 P2]. cbn [snd lb lts lin] in *.
      destruct (nth_error (lb s ++ [t]) (pred k)) as [t'|] eqn:N.
      + unfold mu. cbn [Fine snd lb lin]. rewrite app_length. cbn [length]. lia.
      + apply nth_error_None in N. rewrite app_length in N. cbn [length] in N. lia.
    - cbn [bind]. destruct (nth_error (lb s) (pred k)) as [t'|] eqn:N; [cbn; lia|].
      apply nth_error_None in N. lia.
  Qed.

  Lemma clear_mu s : (mu (clear s) <= mu s)%nat.
  Proof. unfold mu, clear. cbn [lb lin length]. lia. Qed.

  Lemma link_lookahead_spec s :
    Safe (fun x => (mu (snd x) <= mu s)%nat) (link_lookahead parse_float cid_parse s).
  Proof.
    unfold link_lookahead.
    eapply Fine_bind; [apply (peek_spec 1); cbn [pred]; lia|]. intros [[] q1] [M1 B1]; cbn [snd] in *; try (cbn; lia).
    destruct (negb _); [cbn; lia|].
    eapply Fine_bind; [apply (peek_spec 2); cbn [pred]; lia|]. intros [[] q2] [M2 B2]; cbn [snd] in *; try (cbn; lia).
    eapply Fine_bind; [apply (peek_spec 3); cbn [pred]; lia|]. intros [[] q3] [M3 B3]; cbn [snd] in *; try (cbn; lia).
    destruct (cid_parse _); [|cbn; auto]. pose proof (clear_mu q3). unfold Fine. cbn [snd]. lia.
  Qed.

  Lemma bytes_lookahead_spec s :
    Safe (fun x => (mu (snd x) <= mu s)%nat) (bytes_lookahead parse_float s).
  Proof.
    unfold bytes_lookahead.
    eapply Fine_bind; [apply (peek_spec 1); cbn [pred]; lia|]. intros [[] q1] [M1 B1]; cbn [snd] in *; try (cbn; lia).
    destruct (negb _); [cbn; lia|].
    eapply Fine_bind; [apply (peek_spec 2); cbn [pred]; lia|]. intros [[] q2] [M2 B2]; cbn [snd] in *; try (cbn; lia).
    eapply Fine_bind; [apply (peek_spec 3); cbn [pred]; lia|]. intros [[] q3] [M3 B3]; cbn [snd] in *; try (cbn; lia).
    destruct (negb _); [cbn; lia|].
    eapply Fine_bind; [apply (peek_spec 4); cbn [pred]; lia|]. intros [[] q4] [M4 B4]; cbn [snd] in *; try (cbn; lia).
    eapply Fine_bind; [apply (peek_spec 5); cbn [pred]; lia|]. intros [[] q5] [M5 B5]; cbn [snd] in *; try (cbn; lia).
    eapply Fine_bind; [apply (peek_spec 6); cbn [pred]; lia|]. intros [[] q6] [M6 B6]; cbn [snd] in *; try (cbn; lia).
    destruct (b64_decode_go _); [|cbn; auto]. pose proof (clear_mu q6). unfold Fine. cbn [snd]. lia.
  Qed.

  Fixpoint jnodes (v : dm) : nat :=
    match v with
    | DList l => S (fold_right (fun x a => jnodes x + a)%nat 0%nat l)
    | DMap m => S (fold_right (fun kv a => jnodes (snd kv) + a)%nat 0%nat m)
    | _ => 1%nat
    end.

  Lemma jnodes_pos v : (1 <= jnodes v)%nat.
  Proof. destruct v; cbn [jnodes]; lia. Qed.

  (* a loop answers for the composite it completes: its closing bracket is the token that pays for the node *)
  Theorem unm_total f :
    (forall o d t s, (2 * mu s + 2 <= f)%nat ->
       Safe (fun x => (jnodes (fst x) + mu (snd x) <= mu s + 1)%nat /\
                      ((d <= jmax_depth o)%Z -> (d + Z.of_nat (dm_depth (fst x)) <= jmax_depth o)%Z))
            (unm parse_float cid_parse f o d t s)) /\
    (forall o d seen s, (2 * mu s + 1 <= f)%nat ->
       Safe (fun x => (jnodes (DMap (fst x)) + mu (snd x) <= mu s)%nat /\
                      ((d + 1 <= jmax_depth o)%Z -> (d + Z.of_nat (dm_depth (DMap (fst x))) <= jmax_depth o)%Z))
            (unm_map parse_float cid_parse f o d seen s)) /\
    (forall o d s, (2 * mu s + 1 <= f)%nat ->
       Safe (fun x => (jnodes (DList (fst x)) + mu (snd x) <= mu s)%nat /\
                      ((d + 1 <= jmax_depth o)%Z -> (d + Z.of_nat (dm_depth (DList (fst x))) <= jmax_depth o)%Z))
            (unm_list parse_float cid_parse f o d s)).
  Proof.
    induction f as [|f (IHu & IHm & IHl)]; [repeat split; intros; lia|].
    repeat split.
    - intros o d t s Hf. rewrite unm_S. unfold unm_step.
      destruct t; try (cbn; auto; lia).
      + destruct (Z.leb_spec (jmax_depth o) d); [cbn; auto|].
        eapply Fine_bind; [destruct (jd_links o); [apply link_lookahead_spec|cbn; apply le_n]|].
        intros [[c|] s1] M1; cbn [snd] in M1; [cbn; lia|].
        eapply Fine_bind; [destruct (jd_bytes o); [apply bytes_lookahead_spec|cbn; apply le_n]|].
        intros [[b|] s2] M2; cbn [snd] in M2; [cbn; lia|].
        eapply Fine_bind; [apply (IHm o d [] s2); lia|].
        intros [m s3] [N3 D3]. cbn [Fine fst snd] in *. lia.
      + destruct (Z.leb_spec (jmax_depth o) d); [cbn; auto|].
        eapply Fine_bind; [apply (IHl o d s); lia|].
        intros [l s1] [N1 D1]. cbn [Fine fst snd] in *. lia.
    - intros o d seen s Hf. rewrite unm_map_S. unfold map_step.
      eapply Fine_bind; [apply next_spec|]. intros [[] s1] N1; cbn [snd] in N1; try (cbn; auto; lia).
      destruct (existsb _ seen); [cbn; auto|].
      eapply Fine_bind; [apply next_spec|]. intros [t2 s2] N2; cbn [snd] in N2.
      eapply Fine_bind; [apply (IHu o (d + 1)%Z t2 s2); lia|]. intros [v s3] [N3 D3]; cbn [fst snd] in *.
      eapply Fine_bind; [apply (IHm o d (s0 :: seen) s3); lia|]. intros [m s4] [N4 D4].
      cbn [Fine fst snd jnodes dm_depth fold_right] in *. lia.
    - intros o d s Hf. rewrite unm_list_S, list_step_if.
      eapply Fine_bind; [apply next_direct_spec|]. intros [t s1] N1; cbn [snd] in N1.
      destruct (is_arr_close t); [cbn; lia|].
      eapply Fine_bind; [apply (IHu o (d + 1)%Z t s1); lia|]. intros [v s2] [N2 D2]; cbn [fst snd] in *.
      pose proof (jnodes_pos v).
      eapply Fine_bind; [apply (IHl o d s2); lia|]. intros [l s3] [N3 D3].
      cbn [Fine fst snd jnodes dm_depth fold_right] in *. lia.
  Qed.

  Lemma jmax_depth_pos o : (0 < jmax_depth o)%Z.
  Proof. unfold jmax_depth. destruct (Z.ltb_spec 0 (jd_max_depth o)); [assumption|reflexivity]. Qed.

  Lemma jdecode_spec o bs :
    Safe (fun x => (Z.of_nat (dm_depth (fst x)) <= jmax_depth o)%Z /\ (jnodes (fst x) + length (snd x) <= length bs)%nat)
         (jdecode parse_float cid_parse o bs).
  Proof.
    unfold jdecode. pose proof (tstep_spec ts_init bs) as T. unfold tok_lt in T.
    destruct (tstep parse_float ts_init bs) as [[[t ts1] r1]|e]; [|subst; cbn; auto].
    set (s0 := {| lb := []; lts := ts1; lin := r1 |}).
    pose proof (proj1 (unm_total (jdec_fuel bs)) o 0%Z t s0) as U.
    assert (F : (2 * mu s0 + 2 <= jdec_fuel bs)%nat) by (unfold mu, jdec_fuel, s0; cbn [lb lin length]; lia).
    specialize (U F). pose proof (jmax_depth_pos o).
    destruct (unm parse_float cid_parse (jdec_fuel bs) o 0 t s0) as [[v s]|e]; [|exact U].
    destruct U as [U1 U2]. unfold mu, s0 in U1. cbn [fst snd lb lin length] in *.
    assert (R : (length (match t with TInt _ | TFloat _ => tl (lin s) | _ => lin s end) <= length (lin s))%nat)
      by (destruct t, (lin s); cbn [tl length]; lia).
    destruct (jd_dont_parse_beyond o); [cbn [Fine fst snd]; lia|].
    destruct (forallb _ _); [cbn [Fine fst snd length]; lia|split; discriminate].
  Qed.
End Total.

(* non-vacuity: at the default limit (go_json_defaultMaxDepth = 1024 levels) a document is accepted, one level
   deeper it is rejected with the depth error; likewise for a configured MaxDepth of 3, also through the
   reserved {"/":{"bytes":...}} form, which counts as one level for the check *)
Definition no_float (_ : bytes) : option N := None.
Definition no_cid (_ : bytes) : option bytes := None.
Definition nest (n : nat) (inner : bytes) : bytes := repeat 91 n ++ inner ++ repeat 93 n.

Example json_depth_limit_example :
  (exists v, jdecode no_float no_cid dagjson_dopts (nest 1024 []) = Ok (v, []) /\ dm_depth v = 1024%nat) /\
  jdecode no_float no_cid dagjson_dopts (nest 1025 []) = Err JDDepth /\
  (exists v, jdecode no_float no_cid {| jd_links := true; jd_bytes := true; jd_dont_parse_beyond := false; jd_max_depth := 3 |}
               (nest 3 [49]) = Ok (v, []) /\ dm_depth v = 3%nat) /\
  jdecode no_float no_cid {| jd_links := true; jd_bytes := true; jd_dont_parse_beyond := false; jd_max_depth := 3 |}
    (nest 4 [49]) = Err JDDepth /\
  jdecode no_float no_cid {| jd_links := true; jd_bytes := true; jd_dont_parse_beyond := false; jd_max_depth := 3 |}
    (nest 3 [123; 34; 47; 34; 58; 123; 34; 98; 121; 116; 101; 115; 34; 58; 34; 89; 81; 34; 125; 125]) = Err JDDepth /\
  jdecode no_float no_cid {| jd_links := true; jd_bytes := true; jd_dont_parse_beyond := false; jd_max_depth := 3 |}
    (nest 2 [123; 34; 47; 34; 58; 123; 34; 98; 121; 116; 101; 115; 34; 58; 34; 89; 81; 34; 125; 125]) = Ok (DList [DList [DBytes [97]]], []).
Proof.
  split; [eexists; split; vm_compute; reflexivity|].
  split; [vm_compute; reflexivity|].
  split; [eexists; split; vm_compute; reflexivity|].
  repeat split; vm_compute; reflexivity.
Qed.
