(* Proofs/HeapConc.v — which API calls only load: the reads of nodes that C20's clause about readers is about. *)
Require Import IP.Heap.BasicHeap IP.Proofs.HeapOps.

(* a read of a node, other than a read of a streamBytes node (which moves the node's reader on a tree
   where streamBytes shares one reader position) *)
Definition pure_read (p : prim) : Prop :=
  exists r a, p = PRead (HNode r) a /\ stream_acc r a = false.
