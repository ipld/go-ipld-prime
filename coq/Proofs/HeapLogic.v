(* The ownership invariant of the basicnode heap model, what finished nodes rely on between two
   states ([Ext]), and the frame lemma.

   Every cell carries a (ghost, proof-only) tag:
     TFrozen   part of a finished node: never written again (reader cells: only their position)
     TOwned b  a struct / backing array / Go map under construction by the assembler in cell b
     TAsm      a builder or assembler object
     TFree     not allocated
   [Inv] says what each kind of cell may contain: everything a node-data cell refers to is frozen
   (children are finished nodes); a frozen header's arrays and map are frozen; an unfinished
   assembler's [w] struct, backing array and map are tagged as owned by that assembler — so two live
   assemblers never share them, and no finished node reaches them; a finished assembler holds no
   live key/value assembler. *)
Require Import IP.Base.Bytes IP.DM.Value IP.Heap.GoMem IP.Heap.BasicHeap IP.Proofs.HeapMem.
From Coq Require Import List Arith Bool Lia.
Import ListNotations.
Local Open Scope nat_scope.

Inductive tag := TFree | TFrozen | TOwned (b : addr) | TAsm.
Definition tags := addr -> tag.

Definition set_tag (tg : tags) (x : addr) (t : tag) : tags := fun a => if addr_eqb a x then t else tg a.
Definition set_tags (tg : tags) (xs : list addr) (t : tag) : tags :=
  fun a => if existsb (addr_eqb a) xs then t else tg a.

Lemma set_tag_same : forall tg x t, set_tag tg x t x = t.
Proof. intros; unfold set_tag; rewrite addr_eqb_refl; reflexivity. Qed.
Lemma set_tag_other : forall tg x t a, a <> x -> set_tag tg x t a = tg a.
Proof. intros; unfold set_tag. apply addr_eqb_neq in H. rewrite H. reflexivity. Qed.

Lemma existsb_addr_in : forall a xs, existsb (addr_eqb a) xs = true <-> In a xs.
Proof.
  intros; rewrite existsb_exists; split.
  - intros (x & Hx & E). apply addr_eqb_eq in E. subst; assumption.
  - intros H; exists a; split; [assumption | apply addr_eqb_refl].
Qed.
Lemma set_tags_in : forall tg xs t a, In a xs -> set_tags tg xs t a = t.
Proof. intros; unfold set_tags. apply existsb_addr_in in H. rewrite H. reflexivity. Qed.
Lemma set_tags_out : forall tg xs t a, ~ In a xs -> set_tags tg xs t a = tg a.
Proof.
  intros; unfold set_tags. destruct (existsb (addr_eqb a) xs) eqn:E; [|reflexivity].
  apply existsb_addr_in in E. contradiction.
Qed.

Definition bslice_ok (tg : tags) (h : mheap) (s : slice) : Prop :=
  match s_arr s with
  | None => True
  | Some a => tg a = TFrozen /\ exists bs, hget h a = Some (CBytes bs)
  end.

(* r denotes a finished node *)
Definition fref (tg : tags) (h : mheap) (r : nref) : Prop :=
  match r with
  | RNil | RNull | RForeign _ => True
  | RScalar _ a => tg a = TFrozen /\ exists sv, hget h a = Some (CPtr (VScalar sv))
  | RBytesP s => bslice_ok tg h s
  | RStream a => tg a = TFrozen /\ exists rd, hget h a = Some (CRdr rd)
  | RMap a => tg a = TFrozen /\ exists t g, hget h a = Some (CPtr (VMapHdr t g))
  | RList a => tg a = TFrozen /\ exists x, hget h a = Some (CPtr (VListHdr x))
  end.

Definition slot_ok (tg : tags) (h : mheap) (v : val) : Prop :=
  match v with VNode r | VEntry _ r => fref tg h r | _ => False end.

Definition slice_ok (tg : tags) (h : mheap) (own : tag) (s : slice) : Prop :=
  match s_arr s with
  | None => True
  | Some a => tg a = own /\ exists l, hget h a = Some (CArr l)
  end.

Definition gomap_ok (tg : tags) (h : mheap) (own : tag) (g : option addr) : Prop :=
  match g with
  | None => True
  | Some a => tg a = own /\ exists es, hget h a = Some (CMap es)
  end.

(* node data under construction *)
Definition data_ok (tg : tags) (h : mheap) (c : mcell) : Prop :=
  match c with
  | CArr l => Forall (slot_ok tg h) l
  | CMap es => Forall (fun kv => slot_ok tg h (snd kv)) es
  | CPtr (VScalar _) | CPtr (VMapHdr _ _) | CPtr (VListHdr _) => True
  | _ => False
  end.

Definition frozen_ok (tg : tags) (h : mheap) (c : mcell) : Prop :=
  match c with
  | CArr l => Forall (slot_ok tg h) l
  | CMap es => Forall (fun kv => slot_ok tg h (snd kv)) es
  | CPtr (VScalar _) => True
  | CPtr (VMapHdr t g) => slice_ok tg h TFrozen t /\ gomap_ok tg h TFrozen g
  | CPtr (VListHdr x) => slice_ok tg h TFrozen x
  | CBytes _ => True
  | CRdr (RdBytes s _) => bslice_ok tg h s
  | CRdr (RdSect p _ _ _ _) => tg p = TFrozen /\ exists rd, hget h p = Some (CRdr rd)
  | CRdr (RdCursor p _) => tg p = TFrozen /\ exists rd, hget h p = Some (CRdr rd)
  | CPtr _ => False
  end.

Definition masm_ok (tg : tags) (h : mheap) (a : addr) (m : masm) : Prop :=
  (m_ka m = true -> m_st m = MMidKey) /\ (m_va m = true -> m_st m = MMidValue) /\
  match m_w m with
  | None => True
  | Some s =>
      match m_st m with
      | MFinished => tg s = TFrozen /\ exists t g, hget h s = Some (CPtr (VMapHdr t g))
      | _ => tg s = TOwned a /\ exists t g, hget h s = Some (CPtr (VMapHdr t g)) /\
               slice_ok tg h (TOwned a) t /\ gomap_ok tg h (TOwned a) g
      end
  end.

Definition lasm_ok (tg : tags) (h : mheap) (a : addr) (l : lasm) : Prop :=
  (l_va l = true -> l_st l = LMidValue) /\
  match l_w l with
  | None => True
  | Some s =>
      match l_st l with
      | LFinished => tg s = TFrozen /\ exists x, hget h s = Some (CPtr (VListHdr x))
      | _ => tg s = TOwned a /\ exists x, hget h s = Some (CPtr (VListHdr x)) /\ slice_ok tg h (TOwned a) x
      end
  end.

Definition asm_ok (tg : tags) (h : mheap) (a : addr) (v : val) : Prop :=
  match v with
  | VMapB m => masm_ok tg h a m
  | VListB l => lasm_ok tg h a l
  | VAnyB k m l sc => masm_ok tg h a m /\ lasm_ok tg h a l /\ fref tg h sc /\ (m_w m = None \/ l_w l = None) /\
                      (k = AKInvalid -> m_w m = None /\ l_w l = None)
  | VChildM m _ _ => masm_ok tg h a m
  | VChildL l _ _ => lasm_ok tg h a l
  | VScalB _ w done => (if done then tg w = TFrozen else tg w = TOwned a) /\ exists sv, hget h w = Some (CPtr (VScalar sv))
  | VBytesB w => fref tg h w
  | _ => False
  end.

Definition cell_ok_at (tg : tags) (h : mheap) (a : addr) : Prop :=
  match tg a with
  | TFree => hget h a = None
  | TFrozen => exists c, hget h a = Some c /\ frozen_ok tg h c
  | TOwned _ => exists c, hget h a = Some c /\ data_ok tg h c
  | TAsm => exists v, hget h a = Some (CPtr v) /\ asm_ok tg h a v
  end.

Definition Inv (tg : tags) (h : mheap) : Prop := forall a, cell_ok_at tg h a.

Definition rdr_eqv (a b : rdr) : Prop :=
  match a, b with
  | RdBytes s _, RdBytes s' _ => s = s'
  | RdSect p _ base _ lim, RdSect p' _ base' _ lim' => p = p' /\ base = base' /\ lim = lim'
  | RdCursor src _, RdCursor src' _ => src = src'
  | _, _ => False
  end.

Definition cell_eqv (c c' : mcell) : Prop :=
  match c, c' with
  | CRdr a, CRdr b => rdr_eqv a b
  | CRdr _, _ | _, CRdr _ => False
  | _, _ => c = c'
  end.

(* a cell together with its write counter: a reader cell may have been written (its position), any
   other cell must not have been stored to at all *)
Definition veqv (o o' : option (mcell * nat)) : Prop :=
  match o, o' with
  | Some (c, v), Some (c', v') => cell_eqv c c' /\ (v' = v \/ exists r, c = CRdr r)
  | None, None => True
  | _, _ => False
  end.

Definition Ext (tg : tags) (h : mheap) (tg' : tags) (h' : mheap) : Prop :=
  forall a, tg a = TFrozen -> tg' a = TFrozen /\ veqv (hgetv h a) (hgetv h' a).

Lemma rdr_eqv_refl : forall r, rdr_eqv r r.
Proof. destruct r; cbn; auto. Qed.
Lemma rdr_eqv_sym : forall a b, rdr_eqv a b -> rdr_eqv b a.
Proof. destruct a, b; cbn; intuition congruence. Qed.
Lemma rdr_eqv_trans : forall a b c, rdr_eqv a b -> rdr_eqv b c -> rdr_eqv a c.
Proof. destruct a, b, c; cbn; intuition congruence. Qed.
Lemma cell_eqv_refl : forall c, cell_eqv c c.
Proof. destruct c; cbn; auto using rdr_eqv_refl. Qed.
Lemma cell_eqv_trans : forall a b c, cell_eqv a b -> cell_eqv b c -> cell_eqv a c.
Proof.
  intros a b c H1 H2.
  destruct a, b; cbn in H1; try contradiction; try discriminate; try (inversion H1; subst; exact H2).
  destruct c; cbn in *; try contradiction. eapply rdr_eqv_trans; eauto.
Qed.
Lemma veqv_refl : forall o, veqv o o.
Proof. destruct o as [[c v]|]; cbn; auto using cell_eqv_refl. Qed.
Lemma cell_eqv_rdr_l : forall c c' r, cell_eqv c c' -> c = CRdr r -> exists r', c' = CRdr r'.
Proof. intros c c' r E ->. destruct c'; cbn in E; try contradiction. eauto. Qed.
Lemma cell_eqv_rdr_r : forall c c' r, cell_eqv c c' -> c' = CRdr r -> exists r', c = CRdr r'.
Proof. intros c c' r E ->. destruct c; cbn in E; try contradiction; try discriminate. eauto. Qed.
Lemma veqv_trans : forall a b c, veqv a b -> veqv b c -> veqv a c.
Proof.
  intros [[x vx]|] [[y vy]|] [[z vz]|]; cbn; try tauto. intros [E1 V1] [E2 V2].
  split; [eapply cell_eqv_trans; eauto|].
  destruct V1 as [->|R1]; [|right; assumption].
  destruct V2 as [->|[r R2]]; [left; reflexivity|]. right. eapply cell_eqv_rdr_r; eauto.
Qed.

Lemma Ext_refl : forall tg h, Ext tg h tg h.
Proof. intros tg h a H; split; [assumption | apply veqv_refl]. Qed.
Lemma Ext_trans : forall tg1 h1 tg2 h2 tg3 h3, Ext tg1 h1 tg2 h2 -> Ext tg2 h2 tg3 h3 -> Ext tg1 h1 tg3 h3.
Proof.
  intros * H1 H2 a Ha. destruct (H1 a Ha) as [Hb E1]. destruct (H2 a Hb) as [Hc E2].
  split; [assumption | eapply veqv_trans; eauto].
Qed.

Lemma cell_eqv_nonrdr : forall c c', (forall r, c <> CRdr r) -> cell_eqv c c' -> c' = c.
Proof.
  intros c c' Hn E. destruct c, c'; cbn in E; try contradiction; try congruence; exfalso; eapply Hn; reflexivity.
Qed.

Lemma ext_unwritten : forall tg h tg' h' a c v, Ext tg h tg' h' -> tg a = TFrozen -> hgetv h a = Some (c, v) ->
  (forall r, c <> CRdr r) -> hgetv h' a = Some (c, v).
Proof.
  intros * HE Ha Hc Hn. destruct (HE a Ha) as [_ E]. rewrite Hc in E. cbn in E.
  destruct (hgetv h' a) as [[c' v']|] eqn:G; [|contradiction].
  destruct E as [E [->|[r Hr]]]; [|exfalso; eapply Hn; eauto].
  apply cell_eqv_nonrdr in E; [|assumption]. subst. reflexivity.
Qed.

Lemma ext_same : forall tg h tg' h' a c, Ext tg h tg' h' -> tg a = TFrozen -> hget h a = Some c ->
  (forall r, c <> CRdr r) -> hget h' a = Some c.
Proof.
  intros * HE Ha Hc Hn. apply hget_some in Hc. destruct Hc as [v Hc]. apply hget_some. exists v.
  eapply ext_unwritten; eauto.
Qed.

Lemma ext_cell : forall tg h tg' h' x c, Ext tg h tg' h' -> tg x = TFrozen -> hget h x = Some c ->
  exists c', hget h' x = Some c' /\ cell_eqv c c'.
Proof.
  intros * HE Tx G. destruct (HE x Tx) as [_ E]. apply hget_some in G. destruct G as [v G]. rewrite G in E.
  destruct (hgetv h' x) as [[c' v']|] eqn:G'; [|contradiction].
  exists c'. split; [apply hget_some; eauto | exact (proj1 E)].
Qed.

Lemma ext_rdr : forall tg h tg' h' a r, Ext tg h tg' h' -> tg a = TFrozen -> hget h a = Some (CRdr r) ->
  exists r', hget h' a = Some (CRdr r') /\ rdr_eqv r r'.
Proof.
  intros * HE Ha Hc. destruct (ext_cell _ _ _ _ _ _ HE Ha Hc) as ([| | | |r'] & G' & E); try contradiction. eauto.
Qed.

Section Stab.
  Variables (tg : tags) (h : mheap) (tg' : tags) (h' : mheap).
  Hypothesis HE : Ext tg h tg' h'.

  Lemma bslice_ok_ext : forall s, bslice_ok tg h s -> bslice_ok tg' h' s.
  Proof.
    unfold bslice_ok; intros s. destruct (s_arr s) as [a|]; [|auto].
    intros [Ha [bs Hb]]. split; [apply HE; assumption|]. exists bs.
    eapply ext_same; eauto. discriminate.
  Qed.

  Lemma rdr_ext : forall p, tg p = TFrozen /\ (exists rd, hget h p = Some (CRdr rd)) ->
    tg' p = TFrozen /\ exists rd, hget h' p = Some (CRdr rd).
  Proof.
    intros p [Hp [rd Hr]]. split; [apply HE; assumption|].
    destruct (ext_rdr _ _ _ _ _ _ HE Hp Hr) as [r' [Hr' _]]. eauto.
  Qed.

  Lemma fref_ext : forall r, fref tg h r -> fref tg' h' r.
  Proof.
    destruct r; cbn; auto using bslice_ok_ext, rdr_ext.
    - intros [Ha [sv Hs]]. split; [apply HE; assumption|]. exists sv. eapply ext_same; eauto. discriminate.
    - intros [Ha [t [g Hs]]]. split; [apply HE; assumption|]. exists t, g. eapply ext_same; eauto. discriminate.
    - intros [Ha [x Hs]]. split; [apply HE; assumption|]. exists x. eapply ext_same; eauto. discriminate.
  Qed.

  Lemma slot_ok_ext : forall v, slot_ok tg h v -> slot_ok tg' h' v.
  Proof. destruct v; cbn; auto using fref_ext. Qed.

  Lemma slice_frozen_ext : forall s, slice_ok tg h TFrozen s -> slice_ok tg' h' TFrozen s.
  Proof.
    unfold slice_ok; intros s. destruct (s_arr s) as [a|]; [|auto].
    intros [Ha [l Hl]]. split; [apply HE; assumption|]. exists l. eapply ext_same; eauto. discriminate.
  Qed.

  Lemma gomap_frozen_ext : forall g, gomap_ok tg h TFrozen g -> gomap_ok tg' h' TFrozen g.
  Proof.
    unfold gomap_ok; intros [a|]; [|auto].
    intros [Ha [l Hl]]. split; [apply HE; assumption|]. exists l. eapply ext_same; eauto. discriminate.
  Qed.

  Lemma data_ok_ext : forall c, data_ok tg h c -> data_ok tg' h' c.
  Proof.
    destruct c; cbn; auto.
    - apply Forall_impl. exact slot_ok_ext.
    - apply Forall_impl. intros; apply slot_ok_ext; assumption.
  Qed.

  Lemma frozen_ok_ext : forall c c', frozen_ok tg h c -> cell_eqv c c' -> frozen_ok tg' h' c'.
  Proof.
    intros c c' Hc E.
    destruct c as [l|es|v|bs|r]; try (apply cell_eqv_nonrdr in E; [subst c'|discriminate]).
    - cbn in *. revert Hc. apply Forall_impl. exact slot_ok_ext.
    - cbn in *. revert Hc. apply Forall_impl. intros; apply slot_ok_ext; assumption.
    - destruct v; cbn in *; auto.
      + destruct Hc; split; auto using slice_frozen_ext, gomap_frozen_ext.
      + auto using slice_frozen_ext.
    - exact I.
    - destruct c' as [| | | |r']; cbn in E; try contradiction.
      destruct r, r'; cbn in E; try contradiction.
      + subst. cbn in *. auto using bslice_ok_ext.
      + destruct E as (-> & -> & ->). cbn in *. auto using rdr_ext.
      + subst. cbn in *. auto using rdr_ext.
  Qed.
End Stab.

(* An assembler's well-formedness looks only at cells it owns and at frozen cells.  What a step may do to a
   cell x that b owns without disturbing b: keep the tag and the kind of cell; a header struct may be replaced by
   ANY header whose array and map b owns (what BeginMap, append and the shortcut store there): masm_ok asks of a
   header only that, whatever slice and map it names. *)
Definition keeps_owned (tg : tags) (h : mheap) (tg' : tags) (h' : mheap) (b x : addr) : Prop :=
  tg' x = TOwned b /\
    match hget h x with
    | Some (CArr _) => exists l, hget h' x = Some (CArr l)
    | Some (CMap _) => exists es, hget h' x = Some (CMap es)
    | Some (CPtr (VScalar _)) => exists sv, hget h' x = Some (CPtr (VScalar sv))
    | Some (CPtr (VMapHdr t g)) => exists t' g', hget h' x = Some (CPtr (VMapHdr t' g')) /\
        ((t' = t /\ g' = g) \/ (slice_ok tg' h' (TOwned b) t' /\ gomap_ok tg' h' (TOwned b) g'))
    | Some (CPtr (VListHdr t)) => exists t', hget h' x = Some (CPtr (VListHdr t')) /\
        (t' = t \/ slice_ok tg' h' (TOwned b) t')
    | o => hget h' x = o
    end.

Lemma keeps_owned_untouched : forall tg h tg' h' b x,
  tg x = TOwned b -> tg' x = tg x -> hget h' x = hget h x -> keeps_owned tg h tg' h' b x.
Proof.
  intros * Hx Ht Hh. split; [congruence|]. rewrite Hh.
  destruct (hget h x) as [[l|es|v|bs|r]|]; eauto. destruct v; eauto 7.
Qed.

Section Keep.
  Variables (tg : tags) (h : mheap) (tg' : tags) (h' : mheap) (b : addr).
  Hypothesis HE : Ext tg h tg' h'.
  Hypothesis K : forall x, tg x = TOwned b -> keeps_owned tg h tg' h' b x.

  Lemma slice_owned_keep : forall s, slice_ok tg h (TOwned b) s -> slice_ok tg' h' (TOwned b) s.
  Proof.
    unfold slice_ok; intros s. destruct (s_arr s) as [a|]; [|auto].
    intros [Ha [l Hl]]. destruct (K a Ha) as [Ht Hc]. rewrite Hl in Hc. auto.
  Qed.
  Lemma gomap_owned_keep : forall g, gomap_ok tg h (TOwned b) g -> gomap_ok tg' h' (TOwned b) g.
  Proof.
    unfold gomap_ok; intros [a|]; [|auto].
    intros [Ha [l Hl]]. destruct (K a Ha) as [Ht Hc]. rewrite Hl in Hc. auto.
  Qed.

  Lemma masm_ok_keep : forall m, masm_ok tg h b m -> masm_ok tg' h' b m.
  Proof.
    unfold masm_ok; intros m (H0 & H1 & H2). split; [assumption|]. split; [assumption|].
    destruct (m_w m) as [s|]; [|exact I].
    destruct (m_st m);
      try (destruct H2 as [Hs (t & g & Hh & Ht & Hg)]; destruct (K s Hs) as [Ht' Hc]; rewrite Hh in Hc;
           split; [assumption|]; destruct Hc as (t' & g' & Hh' & Hd);
           exists t', g'; split; [assumption|]; destruct Hd as [[-> ->]|[Hx Hy]];
           eauto using slice_owned_keep, gomap_owned_keep).
    exact (fref_ext _ _ _ _ HE (RMap s) H2).
  Qed.

  Lemma lasm_ok_keep : forall l, lasm_ok tg h b l -> lasm_ok tg' h' b l.
  Proof.
    unfold lasm_ok; intros l [H1 H2]. split; [assumption|].
    destruct (l_w l) as [s|]; [|exact I].
    destruct (l_st l);
      try (destruct H2 as [Hs (x & Hh & Hx)]; destruct (K s Hs) as [Ht' Hc]; rewrite Hh in Hc;
           split; [assumption|]; destruct Hc as (x' & Hh' & Hd);
           exists x'; split; [assumption|]; destruct Hd as [->|Hy]; eauto using slice_owned_keep).
    exact (fref_ext _ _ _ _ HE (RList s) H2).
  Qed.

  Lemma asm_ok_keep : forall v, asm_ok tg h b v -> asm_ok tg' h' b v.
  Proof.
    destruct v; cbn; try tauto; eauto using masm_ok_keep, lasm_ok_keep, fref_ext.
    - intros (Hm & Hl & Hs & Hd & Hk). split; [|split; [|split; [|split]]]; eauto using masm_ok_keep, lasm_ok_keep, fref_ext.
    - destruct done; [exact (fref_ext _ _ _ _ HE (RScalar k w))|].
      intros [Hw [sv Hs]]. destruct (K w Hw) as [Ht Hc]. rewrite Hs in Hc. auto.
  Qed.
End Keep.

(* The frame lemma, by which every store rule re-establishes the invariant.  W = the cells whose tag or content
   the step changes.  Outside W nothing changes; a frozen cell of W stays frozen, with the same content and write
   counter unless it is a reader (with the hypothesis before, this is Ext); a cell of W whose owner lies outside W
   changes only as [keeps_owned] allows, so that owner stays well formed; the cells of W are shown to satisfy the
   invariant afterwards, Ext at hand.  The cells outside W then keep theirs: what is asked of a cell looks at
   itself, at what it owns and at frozen cells. *)
Lemma inv_frame : forall tg h tg' h' (W : list addr),
  Inv tg h ->
  (forall a, ~ In a W -> tg' a = tg a /\ hgetv h' a = hgetv h a) ->
  (forall a, In a W -> tg a = TFrozen -> tg' a = TFrozen /\ veqv (hgetv h a) (hgetv h' a)) ->
  (forall x b, In x W -> ~ In b W -> tg x = TOwned b -> keeps_owned tg h tg' h' b x) ->
  (Ext tg h tg' h' -> forall a, In a W -> cell_ok_at tg' h' a) ->
  Inv tg' h' /\ Ext tg h tg' h'.
Proof.
  intros * HI HF HZ HK HW.
  assert (HE : Ext tg h tg' h').
  { intros a Fa. destruct (in_dec addr_dec a W) as [Hin|Hout]; [auto|].
    destruct (HF a Hout) as [-> ->]. split; [assumption | apply veqv_refl]. }
  split; [|assumption]. intros a.
  destruct (in_dec addr_dec a W) as [Hin|Hout]; [auto|].
  assert (HF' : forall x, ~ In x W -> tg' x = tg x /\ hget h' x = hget h x).
  { intros x Hx. destruct (HF x Hx) as [Ht Hh]. unfold hget. rewrite Hh. auto. }
  destruct (HF' a Hout) as [Ht Hh]. specialize (HI a). unfold cell_ok_at in *. rewrite Ht, Hh.
  destruct (tg a) eqn:Ta.
  - assumption.
  - destruct HI as [c [Hc Hok]]. exists c; split; [assumption|].
    eapply frozen_ok_ext; eauto using cell_eqv_refl.
  - destruct HI as [c [Hc Hok]]. exists c; split; [assumption|]. eapply data_ok_ext; eauto.
  - destruct HI as [v [Hc Hok]]. exists v; split; [assumption|]. eapply asm_ok_keep; eauto.
    intros x Tx. destruct (in_dec addr_dec x W) as [Hx|Hx]; [auto|].
    destruct (HF' x Hx). apply keeps_owned_untouched; assumption.
Qed.

Definition is_asm_val (v : val) : Prop :=
  match v with
  | VMapB _ | VListB _ | VAnyB _ _ _ _ | VChildM _ _ _ | VChildL _ _ _ | VScalB _ _ _ | VBytesB _ => True
  | _ => False
  end.

Lemma inv_asm : forall tg h a v, Inv tg h -> hget h a = Some (CPtr v) -> is_asm_val v ->
  tg a = TAsm /\ asm_ok tg h a v.
Proof.
  intros * HI Hc Hv. specialize (HI a). unfold cell_ok_at in HI. destruct (tg a) eqn:Ta.
  - congruence.
  - destruct HI as [c [Hc' Hok]]. assert (c = CPtr v) by congruence. subst.
    destruct v; cbn in *; contradiction.
  - destruct HI as [c [Hc' Hok]]. assert (c = CPtr v) by congruence. subst.
    destruct v; cbn in *; contradiction.
  - destruct HI as [v' [Hc' Hok]]. assert (v' = v) by congruence. subst. auto.
Qed.

Lemma inv_frozen : forall tg h a, Inv tg h -> tg a = TFrozen -> exists c, hget h a = Some c /\ frozen_ok tg h c.
Proof. intros * HI Ha. specialize (HI a). unfold cell_ok_at in HI. rewrite Ha in HI. assumption. Qed.

Lemma inv_frozen_at : forall tg h a c, Inv tg h -> tg a = TFrozen -> hget h a = Some c -> frozen_ok tg h c.
Proof. intros * HI Ha G. destruct (inv_frozen _ _ _ HI Ha) as [c' [G' F]]. congruence. Qed.

Lemma inv_owned : forall tg h a b c, Inv tg h -> tg a = TOwned b -> hget h a = Some c -> data_ok tg h c.
Proof.
  intros * HI Ha G. specialize (HI a). unfold cell_ok_at in HI. rewrite Ha in HI. destruct HI as [c' [G' D]]. congruence.
Qed.

Lemma inv_free : forall tg h a, Inv tg h -> hget h a = None -> tg a = TFree.
Proof.
  intros * HI Ha. specialize (HI a). unfold cell_ok_at in HI. destruct (tg a); auto;
    destruct HI as [c [Hc _]]; congruence.
Qed.

Lemma inv_init : Inv (fun _ => TFree) (hp pinit).
Proof. intros [r i]. unfold cell_ok_at, hget, hgetv. cbn. destruct r as [|[|r]]; destruct i; reflexivity. Qed.
