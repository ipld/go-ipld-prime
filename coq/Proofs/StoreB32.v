(* Proofs/StoreB32.v — base32 (RFC 4648 alphabet, no padding: fsstore.b32enc) has the shape [esc_ok]: its output is
   in [A-Z2-7], not empty for a non-empty string, and it is injective on byte strings. *)
Require Import IP.Base.Bytes IP.Store.Storage IP.Store.FsStore.
Require Import IP.Proofs.BytesFacts IP.Proofs.StoreBase IP.Proofs.StoreFs.
From Coq Require Import Lia ZArith NArith List Bool.
Import ListNotations.
Open Scope N_scope.

Lemma b32enc_ind : forall P : bytes -> Prop,
  P [] -> (forall b0, P [b0]) -> (forall b0 b1, P [b0; b1]) -> (forall b0 b1 b2, P [b0; b1; b2]) ->
  (forall b0 b1 b2 b3, P [b0; b1; b2; b3]) -> (forall b0 b1 b2 b3 b4 r, P r -> P (b0 :: b1 :: b2 :: b3 :: b4 :: r)) ->
  forall s, P s.
Proof.
  intros P H0 H1 H2 H3 H4 H5. fix IH 1.
  intros [|b0 [|b1 [|b2 [|b3 [|b4 r]]]]]; [apply H0|apply H1|apply H2|apply H3|apply H4|apply H5, IH].
Qed.

Lemma b32char_alpha : forall v, v < 32 -> b32_alpha (b32char v).
Proof.
  intros v H. unfold b32char, b32_alpha. destruct (v <? 26) eqn:E.
  - apply N.ltb_lt in E. left. lia.
  - apply N.ltb_ge in E. right. lia.
Qed.

Lemma b32_group_alpha : forall b0 b1 b2 b3 b4, Forall b32_alpha (b32_group b0 b1 b2 b3 b4).
Proof.
  intros. unfold b32_group. cbn [map].
  repeat (constructor; [apply b32char_alpha; apply N.mod_lt; discriminate|]). constructor.
Qed.

Theorem b32enc_alpha : forall s, Forall b32_alpha (b32enc s).
Proof.
  induction s using b32enc_ind; cbn [b32enc]; try apply Forall_firstn, b32_group_alpha. { constructor. }
  apply Forall_app. split; [apply b32_group_alpha|assumption].
Qed.

Theorem b32enc_nonempty : forall s, s <> [] -> b32enc s <> [].
Proof.
  intros s H. destruct s as [|b0 [|b1 [|b2 [|b3 [|b4 r]]]]]; try congruence;
    cbn [b32enc b32_group map firstn app]; discriminate.
Qed.

Lemma b32char_inj : forall v w, v < 32 -> w < 32 -> b32char v = b32char w -> v = w.
Proof.
  intros v w Hv Hw. unfold b32char.
  destruct (v <? 26) eqn:A; destruct (w <? 26) eqn:B; intros H;
    try apply N.ltb_lt in A; try apply N.ltb_lt in B; try apply N.ltb_ge in A; try apply N.ltb_ge in B; lia.
Qed.

Lemma dig_step : forall k x y, k <> 0 -> x / (32 * k) = y / (32 * k) ->
  b32char ((x / k) mod 32) = b32char ((y / k) mod 32) -> x / k = y / k.
Proof.
  intros k x y K H D. apply b32char_inj in D; try (apply N.mod_lt; discriminate).
  rewrite (N.div_mod (x / k) 32), (N.div_mod (y / k) 32) by discriminate.
  rewrite !N.div_div, (N.mul_comm k 32) by (auto; discriminate). rewrite H, D. reflexivity.
Qed.

Fixpoint digs (n : nat) (x : N) : list N :=
  match n with O => [] | S k => b32char ((x / 32 ^ N.of_nat k) mod 32) :: digs k x end.

Lemma group_digs : forall b0 b1 b2 b3 b4, b32_group b0 b1 b2 b3 b4 = digs 8 (unbe [b0; b1; b2; b3; b4] 0).
Proof. intros. cbn [digs]. change (32 ^ N.of_nat 0) with 1. rewrite N.div_1_r. reflexivity. Qed.

Lemma digs_lead : forall m n x y, x / 32 ^ N.of_nat (m + n) = y / 32 ^ N.of_nat (m + n) ->
  firstn m (digs (m + n) x) = firstn m (digs (m + n) y) -> x / 32 ^ N.of_nat n = y / 32 ^ N.of_nat n.
Proof.
  induction m; intros n x y H D; auto.
  cbn [Nat.add digs firstn] in D. injection D as D0 D.
  apply IHm; auto. apply dig_step; auto. { apply N.pow_nonzero. discriminate. }
  rewrite <- N.pow_succ_r', <- Nat2N.inj_succ. exact H.
Qed.

(* n bytes are written with the m leading digits of the group they make with k zero bytes (m = 2, 4, 5, 7, 8 for
   n = 1 .. 5).  The zero bytes are a factor 256^k = r * 32^j, 32^j being the weight of the last digit written: the
   digits written give the quotient by 32^j ([digs_lead]), hence the number the n bytes spell, hence the bytes
   ([be_unbe]) *)
Lemma chunk_inj : forall m j k (r : positive) a c, wfb a -> wfb c -> length a = length c ->
  256 ^ N.of_nat k = N.pos r * 32 ^ N.of_nat j -> 256 ^ N.of_nat (length a + k) = 32 ^ N.of_nat (m + j) ->
  firstn m (digs (m + j) (unbe (a ++ be k 0) 0)) = firstn m (digs (m + j) (unbe (c ++ be k 0) 0)) -> a = c.
Proof.
  intros m j k r a c WA WC L R B D.
  assert (U : forall l, wfb l -> length l = length a ->
            unbe (l ++ be k 0) 0 = unbe l 0 * N.pos r * 32 ^ N.of_nat j /\ unbe (l ++ be k 0) 0 < 32 ^ N.of_nat (m + j)).
  { intros l W E. split.
    - rewrite unbe_app, unbe_be, R by (apply N.neq_0_lt_0, N.pow_nonzero; discriminate). ring.
    - pose proof (unbe_bound (l ++ be k 0) 0) as X. rewrite app_length, be_length, E, B, N.mul_1_l in X.
      apply X, Forall_app. split; [exact W|apply be_ok]. }
  destruct (U a WA eq_refl) as [Ea Ba], (U c WC (eq_sym L)) as [Ec Bc].
  apply digs_lead in D; [|rewrite !N.div_small; auto].
  rewrite Ea, Ec, !N.div_mul in D by (apply N.pow_nonzero; discriminate).
  apply N.mul_cancel_r in D; [|discriminate].
  rewrite <- (be_unbe a WA), <- (be_unbe c WC), D, L. reflexivity.
Qed.

Lemma app_inj_len : forall {A} (a c b d : list A), length a = length c -> a ++ b = c ++ d -> a = c /\ b = d.
Proof.
  induction a; destruct c; intros b d L H; simpl in *; try discriminate; auto.
  inversion H; subst. destruct (IHa c b d) as [E1 E2]; auto. subst. auto.
Qed.

Theorem b32enc_inj : forall a b, wfb a -> wfb b -> b32enc a = b32enc b -> a = b.
Proof.
  induction a as [|a0|a0 a1|a0 a1 a2|a0 a1 a2 a3|a0 a1 a2 a3 a4 ra IH] using b32enc_ind; intros b WA WB H;
    destruct b as [|c0 [|c1 [|c2 [|c3 [|c4 rb]]]]];
    cbn [b32enc] in H; auto;
    try (apply (f_equal (@length N)) in H; simpl in H; discriminate);
    rewrite !group_digs in H.
  (* [chunk_inj m j k r]; [be k 0] computes to the k zero bytes of the group *)
  - apply (chunk_inj 2 6 4 4); auto.
  - apply (chunk_inj 4 4 3 16); auto.
  - apply (chunk_inj 5 3 2 2); auto.
  - apply (chunk_inj 7 1 1 8); auto.
  - apply (Forall_app _ [a0; a1; a2; a3; a4]) in WA as [WA WRA]. apply (Forall_app _ [c0; c1; c2; c3; c4]) in WB as [WB WRB].
    apply app_inj_len in H as [G H]; auto.
    apply (chunk_inj 8 0 0 1 [a0; a1; a2; a3; a4] [c0; c1; c2; c3; c4]) in G; auto.
    injection G as -> -> -> -> ->. rewrite (IH rb); auto.
Qed.

Theorem b32_esc_ok : esc_ok b32enc.
Proof. constructor. exact b32enc_inj. exact b32enc_alpha. exact b32enc_nonempty. Qed.

Lemma repaired_escaping : forall base sh, escaping (repaired_cfg base sh).
Proof. intros. split. reflexivity. exact b32_esc_ok. Qed.
