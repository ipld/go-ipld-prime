(* Proofs/NodeEq.v — datamodel.DeepEqual is Go-equality of abstract values; datamodel.Copy reproduces
   the abstract value in any builder that can hold it. *)
Require Import IP.Base.Bytes IP.DM.Value IP.Node.Basic IP.Node.Protocol
  IP.Proofs.NodeBuild IP.Proofs.NodeRoot.
Open Scope N_scope.

(* the inline loops of dm_goeq as the named combinators *)
Lemma goeq_list_loop : forall x y,
  (fix go (x y : list dm) : bool :=
     match x, y with
     | a :: x', b :: y' => dm_goeq a b && go x' y'
     | _, _ => true
     end) x y = zip_b dm_goeq x y.
Proof. induction x; destruct y; simpl; auto. rewrite IHx. reflexivity. Qed.

Lemma goeq_map_loop : forall x y,
  (fix go (x y : list (bytes * dm)) : bool :=
     match x, y with
     | (k, a) :: x', (k', b) :: y' => bytes_eqb k k' && (dm_goeq a b && go x' y')
     | _, _ => true
     end) x y = zip_kvb dm_goeq x y.
Proof. induction x as [|[k a] x]; destruct y as [|[k' b] y]; simpl; auto. rewrite IHx. reflexivity. Qed.

Lemma goeq_list : forall x y,
  dm_goeq (DList x) (DList y) = Nat.eqb (length x) (length y) && zip_b dm_goeq x y.
Proof. intros. simpl. rewrite goeq_list_loop. reflexivity. Qed.

Lemma goeq_map : forall x y,
  dm_goeq (DMap x) (DMap y) = Nat.eqb (length x) (length y) && zip_kvb dm_goeq x y.
Proof. intros. simpl. rewrite goeq_map_loop. reflexivity. Qed.

(* where the comparison is total: repaired tree, or no int above MaxInt64 on either side *)
Definition eq_total (q : quirks) (x y : node) : Prop :=
  q_eq_asint q = false \/ (nobig x = true /\ nobig y = true).

(* x, y: containers with first child a, b and the rest x', y' *)
Lemma eq_total_cons : forall q x a x' y b y',
  eq_total q x y -> nobig x = nobig a && nobig x' -> nobig y = nobig b && nobig y' ->
  eq_total q a b /\ eq_total q x' y'.
Proof.
  intros q x a x' y b y' [H|[H1 H2]] Hx Hy; [split; left; auto|].
  rewrite Hx in H1. rewrite Hy in H2. apply andb_true_iff in H1, H2. destruct H1, H2. split; right; auto.
Qed.

Lemma eq_total_list : forall q a xs b ys,
  eq_total q (NList (a :: xs)) (NList (b :: ys)) -> eq_total q a b /\ eq_total q (NList xs) (NList ys).
Proof. intros q a xs b ys H. apply (eq_total_cons q _ a _ _ b _ H); reflexivity. Qed.

Definition DE (q : quirks) (x : node) : Prop :=
  forall y, eq_total q x y -> deep_equal q x y = ROk (dm_goeq (abs x) (abs y)).

Lemma len_eqb : forall a b : nat, Z.eqb (Z.of_nat a) (Z.of_nat b) = Nat.eqb a b.
Proof.
  intros. apply eq_true_iff_eq. rewrite Z.eqb_eq, Nat.eqb_eq. apply Nat2Z.inj_iff.
Qed.

(* DeepEqual reads both sides through the node interface only, so a foreign container behaves like
   a plain one with the same entries: these two cases stand for all four pairings by conversion *)
Lemma de_lists : forall q xs, Forall (DE q) xs -> forall ys, eq_total q (NList xs) (NList ys) ->
  deep_equal q (NList xs) (NList ys) = ROk (dm_goeq (DList (map abs xs)) (DList (map abs ys))).
Proof.
  intros q xs HF ys Ht. simpl. rewrite !map_length, len_eqb.
  destruct (Nat.eqb (length xs) (length ys)); simpl; auto.
  (* the two loops in step, whatever the lengths *)
  revert ys Ht. induction HF as [|a xs Ha _ IH]; intros [|b ys] Ht; auto.
  apply eq_total_list in Ht as [Hab Hrest]. simpl. rewrite (Ha b Hab), (IH ys Hrest).
  destruct (dm_goeq (abs a) (abs b)); reflexivity.
Qed.

Lemma de_maps : forall q xt, Forall (fun kv => DE q (snd kv)) xt -> forall yt, eq_total q (NFMap xt) (NFMap yt) ->
  deep_equal q (NFMap xt) (NFMap yt) = ROk (dm_goeq (DMap (map abs_entry xt)) (DMap (map abs_entry yt))).
Proof.
  intros q xt HF yt Ht. simpl. rewrite !map_length, len_eqb.
  destruct (Nat.eqb (length xt) (length yt)); simpl; auto.
  revert yt Ht. induction HF as [|[k a] xt Ha _ IH]; intros [|[k' b] yt] Ht; auto.
  destruct (eq_total_cons q _ a (NFMap xt) _ b (NFMap yt) Ht eq_refl eq_refl) as [Hab Hrest].
  simpl in *. rewrite (Ha b Hab), (IH yt Hrest). unfold key_eq. simpl.
  destruct (bytes_eqb k k'); simpl; auto. destruct (dm_goeq (abs a) (abs b)); reflexivity.
Qed.

Lemma de_scalar : forall q x, list_entries x = None -> map_entries x = None -> DE q x.
Proof.
  intros q x Hl Hm y Ht. destruct x; try discriminate Hl; try discriminate Hm.
  all: destruct y; try reflexivity.
  all: try (simpl; unfold scalar_equal; simpl; destruct (q_eq_asint q) eqn:Eq; try reflexivity;
            destruct Ht as [Hq|[H1 H2]]; [congruence|]; simpl in H1, H2; try rewrite H1; try rewrite H2; reflexivity).
  all: simpl; unfold scalar_equal; simpl; destruct (q_eq_asint q); reflexivity.
Qed.

Theorem deep_equal_spec : forall q x, DE q x.
Proof.
  intros q. induction x using node_ind2; try (apply de_scalar; reflexivity); intros y Ht.
  - destruct y; try reflexivity; exact (de_lists q x H _ Ht).
  - destruct y; try reflexivity; exact (de_maps q t H _ Ht).
  - destruct y; try reflexivity; exact (de_lists q x H _ Ht).
  - destruct y; try reflexivity; exact (de_maps q t H _ Ht).
Qed.

Lemma copy_list_body : forall xs, Forall wf xs ->
  ListBody AScript (map abs xs) (map ok (flat_map (fun v => [AssembleValue; AssignNode v]) xs ++ [Finish])).
Proof.
  induction 1; simpl.
  - constructor.
  - apply (LB_value AScript (abs x) (map abs l) [ok (AssignNode x)]); auto. constructor. auto.
Qed.

Lemma copy_map_body : forall t ks,
  NoDup (map fst t) -> (forall k, In k (map fst t) -> ~ In k ks) -> Forall (fun kv => wf (snd kv)) t ->
  MapBody AScript ks (map abs_entry t)
    (map ok (flat_map (fun kv : node * node => [AssembleKey; AssignNode (fst kv); AssembleValue; AssignNode (snd kv)])
                      (map (fun kv => (NString (fst kv), snd kv)) t) ++ [Finish])).
Proof.
  induction t as [|[k v] t]; intros ks Hnd Hdis Hwf; simpl.
  - constructor.
  - inversion Hnd; subst. inversion Hwf; subst. simpl in *.
    apply (MB_key AScript ks k (abs v) (map abs_entry t) [] (AssignNode (NString k)) [ok (AssignNode v)]).
    + apply Hdis. auto.
    + constructor.
    + constructor. reflexivity.
    + constructor. auto.
    + apply IHt; auto. intros k0 Hin [E|Hk]; [subst; contradiction|]. apply (Hdis k0); auto.
Qed.

Lemma copy_script_legal : forall q n,
  wf n -> (q_copy_asint q = false \/ forall z, n = NUint z -> (z < two63z)%Z) ->
  exists ops, copy_script q n = Ok ops /\ AScript (abs n) (map ok ops).
Proof.
  intros q n Hw Hu. destruct Hw; unfold copy_script; simpl.
  all: try (eexists; split; [reflexivity|]; simpl; constructor; fail).
  - destruct (q_copy_asint q); eexists; (split; [reflexivity|]); simpl; constructor.
  - (* a UintNode: AssignInt if it fits int64, else handed over whole (repaired) *)
    destruct (q_copy_asint q) eqn:Eq.
    + destruct Hu as [Hu|Hu]; [discriminate|]. specialize (Hu z eq_refl).
      apply Z.ltb_lt in Hu. rewrite Hu. eexists. split; [reflexivity|]. simpl. constructor.
    + destruct (z <? two63z)%Z; eexists; (split; [reflexivity|]); simpl.
      * constructor.
      * apply (AS_node (NUint z)). constructor.
  - eexists. split; [reflexivity|]. simpl map. constructor. apply copy_list_body, H.
  - eexists. split; [reflexivity|]. simpl map. constructor. apply copy_list_body, H.
  - eexists. split; [reflexivity|]. simpl map. constructor. apply copy_map_body; auto.
  - eexists. split; [reflexivity|]. simpl map. constructor. apply copy_map_body; auto.
Qed.

Lemma copy_by_script : forall q p n ops,
  copy_script q n = Ok ops -> Scripts q p (abs n) ops ->
  exists n', copy q p n = ROk n' /\ abs n' = abs n /\ wf n'.
Proof.
  intros q p n ops Hc Hs. destruct (ascript_run q p _ (map ok ops) Hs) as (n' & Hr & Hn & Hw).
  exists n'. split; auto. unfold copy. rewrite Hc, (runs_steps q ops _ _ Hr). reflexivity.
Qed.

Theorem copy_any : forall q n,
  wf n -> (q_copy_asint q = false \/ forall z, n = NUint z -> (z < two63z)%Z) ->
  exists n', copy q PAny n = ROk n' /\ abs n' = abs n /\ wf n'.
Proof.
  intros q n Hw Hu. destruct (copy_script_legal q n Hw Hu) as (ops & Hc & Hs).
  apply (copy_by_script q PAny n ops Hc), AP_any, Hs.
Qed.

Theorem copy_map : forall q n,
  wf n -> kind_of n = KMap ->
  exists n', copy q PMap n = ROk n' /\ abs n' = abs n /\ wf n'.
Proof.
  intros q n Hw Hk. destruct n; try discriminate Hk; inversion Hw; subst.
  all: eapply copy_by_script; [reflexivity|]; apply (AP_map_begin q []); [constructor|].
  all: apply copy_map_body; auto.
Qed.

Theorem copy_list : forall q n,
  wf n -> kind_of n = KList ->
  exists n', copy q PList n = ROk n' /\ abs n' = abs n /\ wf n'.
Proof.
  intros q n Hw Hk. destruct n; try discriminate Hk; inversion Hw; subst.
  all: eapply copy_by_script; [reflexivity|]; apply (AP_list_begin q []); [constructor|].
  all: apply copy_list_body; auto.
Qed.

Lemma copy_uint_refuted : exists n, wf n /\ copy pinned PAny n = RErr EOther.
Proof. exists (NUint two63z). split; [constructor|reflexivity]. Qed.

Lemma deep_equal_uint_refuted : exists n, wf n /\ deep_equal pinned n n = RPanic.
Proof. exists (NUint two63z). split; [constructor|reflexivity]. Qed.

Lemma copy_uint_fails : forall p z, (two63z <= z)%Z -> copy settled p (NUint z) = RErr EOther.
Proof.
  intros p z Hz. unfold copy, copy_script. simpl.
  destruct (z <? two63z)%Z eqn:E; [apply Z.ltb_lt in E; lia|reflexivity].
Qed.

Lemma deep_equal_total : forall q, q_eq_asint q = false ->
  forall x y, deep_equal q x y = ROk (dm_goeq (abs x) (abs y)).
Proof. intros q Hq x y. apply deep_equal_spec. left. exact Hq. Qed.

