(* Proofs/LinkInj.v — Link.Binary() is injective on well-formed links (64-bit codec / multihash
   codes and digest length; CIDv0 = dag-pb + sha2-256), so "same binary form" in the C05/C06 theorems
   can be read as "same link". *)
Require Import IP.Base.Bytes IP.DM.Value IP.Link.LinkSys IP.Link.LinkSpec.
Require Import IP.Proofs.BytesFacts IP.Proofs.LinkBase.
From Coq Require Import ZifyN ZifyNat ZifyBool.
Open Scope N_scope.

Lemma varint_go_inj f : forall a b r r',
  a < 128 ^ N.of_nat (S f) -> b < 128 ^ N.of_nat (S f) ->
  varint_go f a ++ r = varint_go f b ++ r' -> a = b /\ r = r'.
Proof.
  induction f as [|f IH]; intros a b r r' Ha Hb E.
  - cbn in E. inversion E; auto.
  - cbn [varint_go] in E.
    rewrite Nat2N.inj_succ, N.pow_succ_r' in Ha, Hb.
    (* [injection] would evaluate the additions *)
    remember (128 + a mod 128) as ha eqn:Hha. remember (128 + b mod 128) as hb eqn:Hhb.
    destruct (N.ltb_spec a 128) as [A|A]; destruct (N.ltb_spec b 128) as [B|B];
      cbn [app] in E; injection E as E1 E2.
    + auto.
    + clear - A E1 Hhb. lia.
    + clear - B E1 Hha. lia.
    + (* a continuation byte carries n mod 128, the rest of the code is that of n / 128 *)
      destruct (IH (a / 128) (b / 128) r r') as [Q ->]; auto.
      * apply N.div_lt_upper_bound; [discriminate|exact Ha].
      * apply N.div_lt_upper_bound; [discriminate|exact Hb].
      * split; [|reflexivity].
        rewrite (N.div_mod' a 128), (N.div_mod' b 128), Q. f_equal. clear - E1 Hha Hhb. lia.
Qed.

Definition u64 (n : N) : Prop := n < 18446744073709551616.

Lemma varint_inj a b r r' : u64 a -> u64 b -> varint a ++ r = varint b ++ r' -> a = b /\ r = r'.
Proof.
  unfold u64, varint. intros Ha Hb. apply varint_go_inj.
  - eapply N.lt_trans; [exact Ha|]. vm_compute. reflexivity.
  - eapply N.lt_trans; [exact Hb|]. vm_compute. reflexivity.
Qed.

Definition wf_link (l : link) : Prop :=
  (l_v0 l = true -> l_codec l = mc_dagpb /\ l_mhtype l = mh_sha2_256) /\
  u64 (l_codec l) /\ u64 (l_mhtype l) /\ u64 (lenN (l_digest l)).

(* the digest length is in the framing, so the multihash code is prefix-free too *)
Lemma multihash_bytes_inj a b r r' :
  u64 (l_mhtype a) -> u64 (lenN (l_digest a)) -> u64 (l_mhtype b) -> u64 (lenN (l_digest b)) ->
  multihash_bytes a ++ r = multihash_bytes b ++ r' ->
  l_mhtype a = l_mhtype b /\ l_digest a = l_digest b /\ r = r'.
Proof.
  unfold multihash_bytes. intros A1 A2 B1 B2 E. rewrite <- !app_assoc in E.
  apply varint_inj in E as [M E]; auto.
  apply varint_inj in E as [L E]; auto.
  apply (f_equal (take (lenN (l_digest a)))) in E.
  rewrite take_app, L, take_app in E. inversion E; auto.
Qed.

Theorem link_binary_inj a b : wf_link a -> wf_link b -> link_binary a = link_binary b -> a = b.
Proof.
  intros (Av0 & Ac & Am & Ad) (Bv0 & Bc & Bm & Bd) E. unfold link_binary in E.
  pose proof (multihash_bytes_inj a b [] [] Am Ad Bm Bd) as H. rewrite !app_nil_r in H.
  (* a CIDv0 starts with the sha2-256 code 18, a CIDv1 with the version byte 1 *)
  assert (V0 : forall x y t, l_mhtype x = mh_sha2_256 -> multihash_bytes x <> 1 :: y ++ t).
  { intros x y t M X. unfold multihash_bytes in X. rewrite M in X.
    change (varint mh_sha2_256) with [18] in X. discriminate X. }
  destruct a as [av ac am ad], b as [bv bc bm bd]; cbn [l_v0 l_codec l_mhtype l_digest] in *.
  destruct av, bv.
  - destruct (Av0 eq_refl) as [-> ->]. destruct (Bv0 eq_refl) as [-> ->].
    destruct (H E) as (_ & -> & _). reflexivity.
  - exfalso. destruct (Av0 eq_refl) as [_ M]. exact (V0 (Build_link true ac am ad) _ _ M E).
  - exfalso. destruct (Bv0 eq_refl) as [_ M]. exact (V0 (Build_link true bc bm bd) _ _ M (eq_sym E)).
  - injection E as E1. apply varint_inj in E1 as [-> E1]; auto.
    destruct (H E1) as (-> & -> & _). reflexivity.
Qed.

Lemma build_link_wf lp d l :
  u64 (lp_codec lp) -> u64 (lp_mhtype lp) -> u64 (lenN d) -> build_link lp d = Some l -> wf_link l.
Proof.
  intros Hc Hm Hd H.
  destruct (build_link_inv _ _ _ H) as (dg & s & -> & [(_ & _ & L & ->)|(_ & _ & ->)]);
    rewrite lenN_app in Hd; unfold wf_link, u64 in *; cbn.
  - rewrite L. repeat split; auto; unfold mc_dagpb, mh_sha2_256; lia.
  - split; [discriminate|]. repeat split; auto. lia.
Qed.

Lemma link_proto_u64 l : wf_link l -> u64 (lp_codec (link_proto l)) /\ u64 (lp_mhtype (link_proto l)).
Proof.
  intros (_ & C & M & _). unfold link_proto. destruct (l_v0 l); cbn; auto.
  unfold u64, mc_dagpb, mh_sha2_256. lia.
Qed.

Section VerifyEq.
  Variable hash : N -> bytes -> bytes.
  Hypothesis Hlen : forall mht bs, u64 (lenN (hash mht bs)).

  Theorem verify_ok_eq l bs :
    wf_link l ->
    (verify hash l bs = VOk <-> build_link (link_proto l) (hash (lp_mhtype (link_proto l)) bs) = Some l).
  Proof.
    intros W. rewrite verify_ok_binary. split.
    - intros (l2 & B & E). rewrite B. f_equal. apply link_binary_inj; auto.
      destruct (link_proto_u64 l W). eapply build_link_wf; eauto.
    - intros B. eauto.
  Qed.
End VerifyEq.
