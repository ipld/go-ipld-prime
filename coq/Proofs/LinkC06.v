(* Proofs/LinkC06.v — C06: whatever the storage does, a load that is not told to trust it returns
   only data that hashes to the link; a hash mismatch wins over anything the decoder says; read and
   open errors surface as errors; a store that does not succeed commits nothing. *)
Require Import IP.Base.Bytes IP.DM.Value IP.Codec.Cbor IP.Link.LinkSys IP.Link.LinkSpec.
Require Import IP.Proofs.BytesFacts IP.Proofs.LinkBase.
From Coq Require Import ZifyN ZifyNat ZifyBool.
Open Scope N_scope.

Section C06.
  Variable hasher_ok : N -> bool.
  Variable hash : N -> bytes -> bytes.     (* arbitrary: no collision-freedom, no length law *)
  Variable encoders : N -> option codec.
  Variable decoders : N -> option codec.

  Notation verify := (verify hash).
  Notation load_raw := (load_raw hasher_ok hash).
  Notation fill := (fill hasher_ok hash decoders).
  Notation load_plus_raw := (load_plus_raw hasher_ok hash decoders).
  Notation load_any := (load_any hasher_ok hash decoders).
  Notation store := (store hasher_ok hash encoders).

  Lemma load_raw_ok ro l :
    lo_status (load_raw ro l) = SOk ->
    exists chunks, ro = RStream chunks TEof /\ verify l (concat chunks) = VOk /\
                   load_raw ro l = {| lo_status := SOk; lo_node := None; lo_raw := Some (concat chunks) |}.
  Proof.
    unfold LinkSys.load_raw.
    destruct (negb (hasher_ok _)); [discriminate|].
    destruct ro as [|chunks [|]]; try discriminate.
    destruct (verify l (concat chunks)) eqn:V; try discriminate. eauto.
  Qed.

  Lemma load_plus_raw_ok ro l :
    lo_status (load_plus_raw ro l) = SOk ->
    exists chunks c n p e, ro = RStream chunks TEof /\ verify l (concat chunks) = VOk /\
      decoders (lp_codec (link_proto l)) = Some c /\ c_dec c (concat chunks) = Some (n, p, e) /\
      load_plus_raw ro l = {| lo_status := SOk; lo_node := Some n; lo_raw := Some (concat chunks) |}.
  Proof.
    unfold LinkSys.load_plus_raw.
    destruct (decoders _) as [c|] eqn:C; [|discriminate].
    destruct (lo_status (load_raw ro l)) eqn:S.
    - destruct (load_raw_ok ro l S) as (chunks & -> & V & E). rewrite E. cbn [lo_raw lo_status].
      destruct (c_dec c (concat chunks)) as [[[n p] e]|] eqn:D; [|discriminate].
      intros _. exists chunks, c, n, p, e. auto.
    - rewrite S. intros; discriminate.
    - rewrite S. intros; discriminate.
  Qed.

  Lemma load_plus_raw_fail ro l c :
    decoders (lp_codec (link_proto l)) = Some c -> lo_status (load_raw ro l) <> SOk ->
    load_plus_raw ro l = load_raw ro l.
  Proof.
    intros C S. unfold LinkSys.load_plus_raw. rewrite C.
    destruct (lo_status (load_raw ro l)); [contradiction| |]; reflexivity.
  Qed.

  (* Fill needs the codec law; LoadRaw and LoadPlusRaw above do not *)
  Hypothesis Hlaw : registry_consumes_all decoders.

  (* with a decoder that pulls the whole stream, the tee has fed the hasher the whole block in
     either branch of Fill *)
  Lemma fill_untrusted ro l :
    fill false ro l =
    let o := load_plus_raw ro l in {| lo_status := lo_status o; lo_node := lo_node o; lo_raw := None |}.
  Proof.
    unfold LinkSys.fill, LinkSys.load_plus_raw, LinkSys.load_raw, stream_dec.
    destruct (decoders _) as [c|] eqn:C; [|reflexivity].
    destruct (negb (hasher_ok _)); [reflexivity|].
    destruct ro as [|chunks t]; [reflexivity|].
    destruct (c_dec c (concat chunks)) as [[[n p] e]|] eqn:D.
    - destruct (Hlaw _ _ C _ _ _ _ D) as [-> ->].
      destruct t; [|reflexivity]. rewrite prefixN_all.
      destruct (verify l (concat chunks)); cbn; rewrite ?D; reflexivity.
    - destruct t; [|reflexivity]. destruct (verify l (concat chunks)); cbn; rewrite ?D; reflexivity.
  Qed.

  Lemma untrusted_load_fails f ro l c :
    decoders (lp_codec (link_proto l)) = Some c -> lo_status (load_raw ro l) <> SOk ->
    load_any f false ro l = load_raw ro l.
  Proof.
    intros C S. pose proof (load_plus_raw_fail ro l c C S) as P.
    destruct f; cbn [LinkSys.load_any]; rewrite ?fill_untrusted, ?P; auto.
    (* Fill: a failed LoadRaw carries neither node nor bytes *)
    all: revert S; unfold LinkSys.load_raw; destruct (negb (hasher_ok _)); [reflexivity|];
      destruct ro as [|chunks [|]]; try reflexivity;
      destruct (verify l (concat chunks)); try reflexivity; intros S; now destruct S.
  Qed.

  (* C06_sound *)
  Theorem sound f ro l :
    lo_status (load_any f false ro l) = SOk ->
    exists chunks,
      ro = RStream chunks TEof /\
      verify l (concat chunks) = VOk /\
      (forall n, lo_node (load_any f false ro l) = Some n ->
         exists c p e, decoders (lp_codec (link_proto l)) = Some c /\ c_dec c (concat chunks) = Some (n, p, e)) /\
      (forall raw, lo_raw (load_any f false ro l) = Some raw -> raw = concat chunks).
  Proof.
    destruct f; cbn [LinkSys.load_any]; rewrite ?fill_untrusted; cbn [lo_status]; intros S.
    2:{ destruct (load_raw_ok ro l S) as (chunks & -> & V & E).
        exists chunks. rewrite E. cbn. repeat split; auto.
        - discriminate.
        - intros raw H; inversion H; auto. }
    all: destruct (load_plus_raw_ok ro l S) as (chunks & c & n & p & e & -> & V & C & D & E);
      exists chunks; rewrite E; cbn; repeat split; auto;
      intros x H; inversion H; subst; eauto.
  Qed.

  (* C06_precedence *)
  Theorem precedence f chunks l c :
    decoders (lp_codec (link_proto l)) = Some c ->
    hasher_ok (lp_mhtype (link_proto l)) = true ->
    verify l (concat chunks) = VMismatch ->
    load_any f false (RStream chunks TEof) l = lfail EHashMismatch.
  Proof.
    intros C H V.
    assert (R : load_raw (RStream chunks TEof) l = lfail EHashMismatch).
    { unfold LinkSys.load_raw. rewrite H. cbn [negb]. now rewrite V. }
    rewrite (untrusted_load_fails f _ l c C); rewrite R; [reflexivity|discriminate].
  Qed.

  (* VPanic: BuildLink panics on a digest longer than the hash output *)
  Lemma precedence_panic f chunks l c :
    decoders (lp_codec (link_proto l)) = Some c ->
    hasher_ok (lp_mhtype (link_proto l)) = true ->
    verify l (concat chunks) = VPanic ->
    load_any f false (RStream chunks TEof) l = lpanic.
  Proof.
    intros C H V.
    assert (R : load_raw (RStream chunks TEof) l = lpanic).
    { unfold LinkSys.load_raw. rewrite H. cbn [negb]. now rewrite V. }
    rewrite (untrusted_load_fails f _ l c C); rewrite R; [reflexivity|discriminate].
  Qed.

  Lemma io_error_surfaces f trusted ro l :
    ro = ROpenErr \/ (exists chunks, ro = RStream chunks TErr) ->
    exists e, load_any f trusted ro l = lfail e.
  Proof.
    intros Hro.
    assert (R : exists e, load_raw ro l = lfail e).
    { unfold LinkSys.load_raw. destruct (negb (hasher_ok _)); [eauto|].
      destruct Hro as [->|(chunks & ->)]; eauto. }
    assert (F : exists e, fill trusted ro l = lfail e).
    { unfold LinkSys.fill. destruct (decoders _) as [c|] eqn:C; [|eauto].
      destruct (negb (hasher_ok _)); [eauto|].
      destruct Hro as [->|(chunks & ->)]; [eauto|]. unfold stream_dec.
      (* the decoder, if it succeeds, goes on to the end of the stream and meets the read error *)
      destruct (c_dec c (concat chunks)) as [[[n p] e]|] eqn:D.
      - destruct (Hlaw _ _ C _ _ _ _ D) as [-> ->]. destruct trusted; eauto.
      - destruct trusted; eauto. }
    destruct f; cbn [LinkSys.load_any]; auto.
    unfold LinkSys.load_plus_raw. destruct (decoders _); [|eauto].
    destruct R as [e ->]. cbn. eauto.
  Qed.

  Notation load_h := (load_h hasher_ok hash decoders).
  Notation reifier_handle := (reifier_handle hasher_ok hash decoders).

  Lemma reifier_handle_inv rm f h l h' :
    reifier_handle rm f h l = Some h' ->
    h' = h /\ (f = FLoad \/ f = FLoadPlusRaw) /\
    lo_status (load_any f (h_trusted h) (h_open h l) l) = SOk.
  Proof.
    unfold LinkSys.reifier_handle, status_ok. destruct rm; [discriminate| |];
      (destruct f; cbn [reifies andb]; try discriminate;
       destruct (lo_status _); try discriminate; intros E; inversion E; auto).
  Qed.

  Lemma load_h_ok rm f h l :
    lo_status (load_h rm f h l) = SOk ->
    load_h rm f h l = load_any f (h_trusted h) (h_open h l) l.
  Proof.
    unfold LinkSys.load_h. destruct rm; auto.
    destruct (reifies f && status_ok _); [discriminate|auto].
  Qed.

  Lemma reifier_load rm f h l h' rm' f' l' :
    reifier_handle rm f h l = Some h' -> lo_status (load_h rm' f' h' l') = SOk ->
    load_h rm' f' h' l' = load_any f' (h_trusted h) (h_open h l') l'.
  Proof. intros R S. apply reifier_handle_inv in R as [-> _]. now apply load_h_ok. Qed.

  Lemma store_write_refused latch sk w st lp v c chunks :
    encoders (lp_codec lp) = Some c -> hasher_ok (lp_mhtype lp) = true -> w_open_err w = false ->
    c_enc c v = Some chunks -> latch || negb (c_werr_ignored c) = true ->
    ~ accepted (w_cap w) (w_sched w) 0 chunks ->
    store latch sk w st lp v = (sfail (wfail_class w chunks), st).
  Proof.
    intros C H O E M NA. unfold LinkSys.store. rewrite C, H, O, E. cbn [negb].
    destruct (write_all _ _ _ _ _ _ _ _) as [[[wr hs] ee] la] eqn:W.
    destruct ee; [reflexivity|]. cbn [orb].
    destruct (latch && la) eqn:L; [reflexivity|].
    destruct (write_all_accepted _ _ _ _ _ _ _ _ _ _ M W L) as (_ & _ & A). contradiction.
  Qed.

  (* C06_store_write_error *)
  Theorem store_write_error latch sk w st lp v c chunks k :
    encoders (lp_codec lp) = Some c -> hasher_ok (lp_mhtype lp) = true -> w_open_err w = false ->
    latch || negb (c_werr_ignored c) = true ->
    c_enc c v = Some chunks -> w_cap w = Some k -> k < lenN (concat chunks) ->
    store latch sk w st lp v = (sfail (wfail_class w chunks), st).
  Proof.
    intros C H O M E K L. apply (store_write_refused latch sk w st lp v c); auto.
    rewrite K. intros A. apply accepted_cap in A; [lia|apply N.le_0_l].
  Qed.

  (* C06_store_transient_write_error *)
  Theorem store_transient_write_error latch sk w st lp v c pre x post :
    encoders (lp_codec lp) = Some c -> hasher_ok (lp_mhtype lp) = true -> w_open_err w = false ->
    latch || negb (c_werr_ignored c) = true ->
    c_enc c v = Some (pre ++ x :: post) ->
    nth_error (w_sched w) (length pre) = Some WFail ->
    so_status (fst (store latch sk w st lp v)) <> SOk /\ snd (store latch sk w st lp v) = st.
  Proof.
    intros C H O M E F. rewrite (store_write_refused latch sk w st lp v c _ C H O E M).
    - cbn. split; [discriminate|reflexivity].
    - intros A. exact (accepted_not_failed _ _ _ _ _ _ A F).
  Qed.
End C06.

Lemma raw_consumes_all : consumes_all raw_codec.
Proof. intros bs v n e H. cbn in H. inversion H; auto. Qed.

Lemma cbor_family_consumes_all links sm rt : consumes_all (cbor_family_codec links sm rt).
Proof.
  intros bs v n e. cbn [cbor_family_codec c_dec]. unfold decode.
  destruct (dec_val _ _ _ _ _ _ _) as [[[v0 b0] rest]|]; [|discriminate].
  cbn [cbor_dopts d_dont_parse_beyond].
  destruct rest; [|discriminate]. intros H; inversion H; subst. split; [|reflexivity].
  unfold lenN at 2. cbn. lia.
Qed.

Lemma default_registry_consumes_all rt dagjson json :
  consumes_all dagjson -> consumes_all json ->
  registry_consumes_all (default_registry rt dagjson json).
Proof.
  intros Hd Hj code c. unfold default_registry.
  destruct (code =? 113); [intros E; inversion E; apply cbor_family_consumes_all|].
  destruct (code =? 81); [intros E; inversion E; apply cbor_family_consumes_all|].
  destruct (code =? 85); [intros E; inversion E; apply raw_consumes_all|].
  destruct (code =? 297); [intros E; inversion E; subst; exact Hd|].
  destruct (code =? 512); [intros E; inversion E; subst; exact Hj|discriminate].
Qed.

(* toy instance used by the satisfiability examples and the refutations *)
Definition toy_hash (_ : N) (bs : bytes) : bytes := [lenN bs; match bs with b :: _ => b | [] => 0 end].
Definition toy_ok (_ : N) : bool := true.
Definition toy_lp : lproto := {| lp_version := 1; lp_codec := 85; lp_mhtype := 18; lp_mhlen := -1 |}.

(* ignores write errors, as refmt's JSON encoder does: the witness of C06_store_write_error_refuted
   (Props/C06.v) *)
Definition sloppy_codec : codec :=
  {| c_enc := fun _ => Some [[1]; [2]]; c_dec := fun _ => None; c_werr_ignored := true |}.

(* the hypotheses of the theorems above are satisfiable *)
Definition toy_registry := default_registry true raw_codec raw_codec.
Definition toy_link : link := {| l_v0 := false; l_codec := 85; l_mhtype := 18; l_digest := [3; 9] |}.

Example sound_hyp_sat :
  lo_status (load_any toy_ok toy_hash toy_registry FLoad false (RStream [[9]; [8; 7]] TEof) toy_link) = SOk.
Proof. vm_compute. reflexivity. Qed.

Example precedence_hyp_sat :
  toy_registry (lp_codec (link_proto toy_link)) = Some raw_codec /\
  toy_ok (lp_mhtype (link_proto toy_link)) = true /\
  verify toy_hash toy_link (concat [[9]; [8]]) = VMismatch.
Proof. vm_compute. auto. Qed.

Example store_atomic_hyp_sat :
  exists s st', store toy_ok toy_hash toy_registry true memstore_kind honest_w [] toy_lp DNull = (s, st') /\
                so_status s <> SOk.
Proof. eexists. eexists. split; [vm_compute; reflexivity|discriminate]. Qed.

Example toy_registry_law : registry_consumes_all toy_registry.
Proof. apply default_registry_consumes_all; apply raw_consumes_all. Qed.

Example store_write_error_hyp_sat :
  toy_registry (lp_codec toy_lp) = Some raw_codec /\ toy_ok (lp_mhtype toy_lp) = true /\
  c_werr_ignored raw_codec = false /\ c_enc raw_codec (DBytes [1; 2; 3]) = Some [[1; 2; 3]] /\
  1 < lenN (concat [[1; 2; 3]]) /\
  store toy_ok toy_hash toy_registry true memstore_kind
        {| w_open_err := false; w_cap := Some 1; w_sched := []; w_commit_err := false |} [] toy_lp (DBytes [1; 2; 3])
  = (sfail EIo, []).
Proof. vm_compute. repeat split; reflexivity. Qed.

Example io_read_hyp_sat :
  load_any toy_ok toy_hash toy_registry FFill false (RStream [[9]; [8; 7]] TErr) toy_link = lfail EIo.
Proof. vm_compute. reflexivity. Qed.

(* with one failing write in the middle (schedule [WOk; WFail], later writes succeed) Store without
   the latch reports success for a block with a hole, under a link that is not ComputeLink's:
   C06_store_transient_refuted (Props/C06.v) *)
Definition sloppy3_codec : codec :=
  {| c_enc := fun _ => Some [[1]; [2]; [3]]; c_dec := fun _ => None; c_werr_ignored := true |}.

Example store_transient_hyp_sat :
  let encoders := fun _ : N => Some sloppy3_codec in
  let w := {| w_open_err := false; w_cap := None; w_sched := [WOk; WFail]; w_commit_err := false |} in
  store toy_ok toy_hash encoders true memstore_kind w [] toy_lp DNull = (sfail EIo, []).
Proof. vm_compute. reflexivity. Qed.
