(* Proofs/CborCanon.v — the canonical DAG-CBOR form as a relation, and its uniqueness.  That the encoder model
   produces it, and that the strict head reader accepts the shortest heads only, are C02_canonical and
   C02_heads_shortest in Props/C02.v. *)
Require Import IP.Base.Bytes IP.DM.Value IP.Codec.Cid IP.Codec.Cbor IP.Codec.CborSpec IP.Gen.FromGo.
Require Import IP.Proofs.BytesFacts IP.Proofs.CborHead IP.Proofs.CborEnc.
From Coq Require Import ZifyN ZifyNat ZifyBool Permutation Sorted.
Open Scope N_scope.

(* [Canon v bs]: bs is the canonical DAG-CBOR encoding of v.
   - integer and length heads in the shortest form ([head] is minimal: C02_heads_shortest, Props/C02.v),
   - floats as 64-bit only, definite lengths only,
   - map entries ordered by key: shorter keys first, equal lengths bytewise,
   - links as tag 42 over a byte string holding 0x00 followed by the CID. *)
Inductive Canon : dm -> bytes -> Prop :=
| CNull : Canon DNull [246]
| CFalse : Canon (DBool false) [244]
| CTrue : Canon (DBool true) [245]
| CPos z : (0 <= z < two64z)%Z -> Canon (DInt z) (head 0 (Z.to_N z))
| CNeg z : (- two63z <= z < 0)%Z -> Canon (DInt z) (head 1 (Z.to_N (-1 - z)))
| CFloat f : Canon (DFloat f) (251 :: be 8 f)
| CString s : Canon (DString s) (head 3 (lenN s) ++ s)
| CBytes s : Canon (DBytes s) (head 2 (lenN s) ++ s)
| CLink c : Canon (DLink c) (head 6 42 ++ head 2 (lenN c + 1) ++ 0 :: c)
| CList l bss : Forall2 Canon l bss -> Canon (DList l) (head 4 (lenN l) ++ concat bss)
| CMap es es' bss :
    Permutation es es' -> StronglySorted (klt rfc_ltb) es' ->
    Forall2 (fun kv b => exists vb, Canon (snd kv) vb /\ b = (head 3 (lenN (fst kv)) ++ fst kv) ++ vb) es' bss ->
    Canon (DMap es) (head 5 (lenN es) ++ concat bss).

Lemma rd_head_head strict mj a r : mj < 8 -> a < two64 -> rd_head strict (head mj a ++ r) = Some (mj, a, r).
Proof. intros _. apply rd_head_of_head. Qed.

(* strict sortedness of the emitted entries already makes them unique: distinct keys are not needed *)
Lemma canon_functional v : forall b1 b2, Canon v b1 -> Canon v b2 -> b1 = b2.
Proof.
  induction v as [| b | z | f | s | s | c | l IH | es IH] using dm_ind2; intros b1 b2 H1 H2;
    inversion H1; inversion H2; subst; try reflexivity; try lia.
  - f_equal. f_equal. eapply (F2_unique Canon l); eassumption.
  - f_equal. f_equal.
    match goal with
    | Hp1 : Permutation es ?e1, Hs1 : StronglySorted _ ?e1, Hf1 : Forall2 _ ?e1 ?x,
      Hp2 : Permutation es ?e2, Hs2 : StronglySorted _ ?e2, Hf2 : Forall2 _ ?e2 ?y |- ?x = ?y =>
      assert (He : e1 = e2) by (apply (sorted_perm_unique rfc_ltb); auto using rfc_ltb_irrefl;
                           [apply rfc_ltb_trans|rewrite <- Hp1; exact Hp2]);
      subst e2;
      eapply (F2_unique _ e1); [|exact Hf1|exact Hf2];
      eapply Permutation_Forall; [exact Hp1|]
    end.
    rewrite Forall_forall in *. intros kv Hin b1 b2 (vb1 & Hc1 & ->) (vb2 & Hc2 & ->).
    f_equal. eapply IH; eauto.
Qed.
