(* Proofs/JsonEnc.v — Marshal + encoder: the output is the text of the key-sorted value's syntax
   tree; it depends on the value only through its key-sorted form (determinism). *)
Require Import IP.Base.Bytes IP.DM.Value IP.Codec.Utf8 IP.Codec.Base64 IP.Codec.DagJson.
Require Import IP.Proofs.BytesFacts IP.Proofs.CborEnc IP.Proofs.JsonTok IP.Proofs.JsonUnm.
From Coq Require Import Permutation.
Open Scope N_scope.

Section Enc.
  Variable fmt_float : N -> bytes.
  Variable cid_str : bytes -> bytes.
  Variable cid_ok : bytes -> bool.

  Notation lexsort := (sort_maps bytes_ltb).
  Notation tojs := (to_js fmt_float cid_str).
  Notation enc := (jenc fmt_float cid_str dagjson_eopts cid_ok).

  Fixpoint encodable (v : dm) : bool :=
    match v with
    | DInt z => in_int64 z
    | DFloat f => f64_finite f
    | DLink c => cid_ok c
    | DList l => forallb encodable l
    | DMap m => forallb (fun kv => encodable (snd kv)) m
    | _ => true
    end.

  Definition text (v : dm) : bytes := jtext (tojs v).

  Definition vmap (g : dm -> dm) (kv : bytes * dm) : bytes * dm := (fst kv, g (snd kv)).

  Definition EncOutcome (v : dm) : Prop :=
    match enc v with
    | Ok bs => encodable v = true /\ bs = text (lexsort v)
    | Err _ => encodable v = false
    end.

  Lemma enc_list_go l : Forall EncOutcome l ->
    match (fix go (l : list dm) : res jeerr (list bytes) :=
             match l with
             | [] => Ok []
             | x :: r => do a <- enc x; do b <- go r; Ok (a :: b)
             end) l with
    | Ok items => forallb encodable l = true /\ items = map (fun x => text (lexsort x)) l
    | Err _ => forallb encodable l = false
    end.
  Proof.
    induction 1 as [|x r Hx Hr IH]; [split; reflexivity|].
    unfold EncOutcome in Hx. cbn [forallb map]. destruct (enc x) as [a|e]; cbn [bind].
    - destruct Hx as [Ex ->]. rewrite Ex. cbn [andb].
      match goal with |- match (do b <- ?g; _) with _ => _ end => destruct g as [b|e] end; cbn [bind].
      + destruct IH as [Er ->]. split; [assumption|reflexivity].
      + assumption.
    - rewrite Hx. reflexivity.
  Qed.

  Lemma enc_map_go m : Forall (fun kv => EncOutcome (snd kv)) m ->
    match (fix go (m : list (bytes * dm)) : res jeerr (list (bytes * bytes)) :=
             match m with
             | [] => Ok []
             | (k, x) :: r => do a <- enc x; do b <- go r; Ok ((k, a) :: b)
             end) m with
    | Ok ents => forallb (fun kv => encodable (snd kv)) m = true /\
                 ents = map (fun kv => (fst kv, text (lexsort (snd kv)))) m
    | Err _ => forallb (fun kv => encodable (snd kv)) m = false
    end.
  Proof.
    induction 1 as [|[k x] r Hx Hr IH]; [split; reflexivity|].
    unfold EncOutcome in Hx. cbn [snd] in Hx. cbn [forallb map fst snd]. destruct (enc x) as [a|e]; cbn [bind].
    - destruct Hx as [Ex ->]. rewrite Ex. cbn [andb].
      match goal with |- match (do b <- ?g; _) with _ => _ end => destruct g as [b|e] end; cbn [bind].
      + destruct IH as [Er ->]. split; [assumption|reflexivity].
      + assumption.
    - rewrite Hx. reflexivity.
  Qed.

  Theorem enc_spec v : EncOutcome v.
  Proof.
    induction v as [|b|z|x|s|bs|c|l IH|m IH] using dm_ind2; unfold EncOutcome.
    - split; reflexivity.
    - destruct b; split; reflexivity.
    - cbn [jenc enc_scalar encodable]. destruct (in_int64 z); [split; reflexivity|reflexivity].
    - cbn [jenc enc_scalar encodable]. destruct (f64_finite x); [split; reflexivity|reflexivity].
    - split; reflexivity.
    - split; [reflexivity|]. unfold text, bytes_form. do 3 (unfold entry_text; cbn [sort_maps to_js jtext map join_comma fst snd]).
      cbn [app]. repeat (rewrite <- app_assoc; cbn [app]). reflexivity.
    - cbn [jenc enc_scalar encodable je_links dagjson_eopts]. destruct (cid_ok c); [split; [reflexivity|]|reflexivity].
      unfold text, link_form. do 3 (unfold entry_text; cbn [sort_maps to_js jtext map join_comma fst snd]).
      cbn [app]. repeat (rewrite <- app_assoc; cbn [app]). reflexivity.
    - cbn [jenc encodable]. pose proof (enc_list_go l IH) as H.
      match type of H with match ?g with _ => _ end => destruct g as [items|e] end; cbn [bind].
      + destruct H as [E ->]. split; [assumption|]. unfold text. cbn [sort_maps to_js jtext].
        now rewrite !map_map.
      + assumption.
    - cbn [jenc encodable]. pose proof (enc_map_go m IH) as H.
      match type of H with match ?g with _ => _ end => destruct g as [ents|e] end; cbn [bind].
      + destruct H as [E ->]. split; [assumption|]. unfold text. cbn [sort_maps to_js jtext je_sort dagjson_eopts jsort_entries].
        do 2 f_equal.
        rewrite (sort_map_snd bytes_ltb (fun x => jtext (tojs (lexsort x))) m).
        rewrite (sort_map_snd bytes_ltb lexsort m).
        rewrite !map_map. reflexivity.
      + assumption.
  Qed.

  Corollary enc_ok v : encodable v = true -> enc v = Ok (text (lexsort v)).
  Proof. intros E. pose proof (enc_spec v) as H. unfold EncOutcome in H. destruct (enc v); [destruct H; now subst|congruence]. Qed.

  Corollary enc_ok_inv v bs : enc v = Ok bs -> encodable v = true /\ bs = text (lexsort v).
  Proof. intros E. pose proof (enc_spec v) as H. unfold EncOutcome in H. now rewrite E in H. Qed.
End Enc.
