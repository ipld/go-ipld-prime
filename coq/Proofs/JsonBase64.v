(* Proofs/JsonBase64.v — base64: Go's decoder (Raw, then Std as fallback) inverts RawStdEncoding. *)
Require Import IP.Base.Bytes IP.Codec.Base64 IP.Proofs.BytesFacts.
From Coq Require Import ZifyN ZifyNat ZifyBool.
Open Scope N_scope.

Lemma b64_val_char v : v < 64 -> b64_val (b64_char v) = Some v.
Proof.
  intros H. unfold b64_char.
  destruct (N.ltb_spec v 26).
  { unfold b64_val. replace ((65 <=? 65 + v) && (65 + v <=? 90)) with true by lia. f_equal. lia. }
  destruct (N.ltb_spec v 52).
  { set (c := 97 + (v - 26)). unfold b64_val. replace ((65 <=? c) && (c <=? 90)) with false by (subst c; lia).
    replace ((97 <=? c) && (c <=? 122)) with true by (subst c; lia). subst c. f_equal. lia. }
  destruct (N.ltb_spec v 62).
  { set (c := 48 + (v - 52)). unfold b64_val. replace ((65 <=? c) && (c <=? 90)) with false by (subst c; lia).
    replace ((97 <=? c) && (c <=? 122)) with false by (subst c; lia).
    replace ((48 <=? c) && (c <=? 57)) with true by (subst c; lia). subst c. f_equal. lia. }
  destruct (N.eqb_spec v 62); [subst; reflexivity|]. replace v with 63 by lia. reflexivity.
Qed.

Lemma b64_dec_char pad c r q v : b64_val c = Some v ->
  b64_dec pad (c :: r) q =
  match q with [x; y; z] => ocons (b64_out [x; y; z; v]) (b64_dec pad r []) | _ => b64_dec pad r (q ++ [v]) end.
Proof. intros H. cbn [b64_dec]. now rewrite H. Qed.

Lemma b64_dec_quad pad c1 c2 c3 c4 v1 v2 v3 v4 R :
  b64_val c1 = Some v1 -> b64_val c2 = Some v2 -> b64_val c3 = Some v3 -> b64_val c4 = Some v4 ->
  b64_dec pad (c1 :: c2 :: c3 :: c4 :: R) [] = ocons (b64_out [v1; v2; v3; v4]) (b64_dec pad R []).
Proof.
  intros H1 H2 H3 H4.
  now rewrite (b64_dec_char _ _ _ _ _ H1), (b64_dec_char _ _ _ _ _ H2), (b64_dec_char _ _ _ _ _ H3), (b64_dec_char _ _ _ _ _ H4).
Qed.

Lemma b64_raw_roundtrip : forall bs, Forall (fun b => b < 256) bs -> b64_dec false (b64_encode bs) [] = Some bs.
Proof.
  (* a sextet is the low bits of one byte above the high bits of the next: digit_split takes it apart again, and
     x / d * d + x mod d = x puts each byte back together *)
  assert (Q : forall x d, x / d * d + x mod d = x) by (intros x d; rewrite (N.div_mod' x d) at 3; lia).
  (* three bytes at a time, as b64_encode recurses; F is taken apart by Forall_cons_iff because an inversion would
     rewrite r, which the guard has to recognise *)
  fix IH 1. intros [|a [|b [|c r]]] F.
  - reflexivity.
  - cbn [b64_encode b64_dec].
    apply Forall_cons_iff in F as [Ha _]. rewrite !b64_val_char by (try apply N.div_lt_upper_bound; lia). cbn [app b64_out].
    destruct (digit_split 16 (a mod 4) 0) as [E _]; [lia|]. rewrite N.add_0_r in E. rewrite E. now rewrite Q.
  - apply Forall_cons_iff in F as [Ha F]. apply Forall_cons_iff in F as [Hb _]. cbn [b64_encode b64_dec].
    assert (Hb' : b / 16 < 16) by (apply N.div_lt_upper_bound; lia).
    rewrite !b64_val_char by (try apply N.div_lt_upper_bound; lia). cbn [app b64_out].
    destruct (digit_split 16 (a mod 4) (b / 16) Hb') as [-> ->].
    destruct (digit_split 4 (b mod 16) 0) as [E _]; [lia|]. rewrite N.add_0_r in E. rewrite E. now rewrite !Q.
  - apply Forall_cons_iff in F as [Ha F]. apply Forall_cons_iff in F as [Hb F]. apply Forall_cons_iff in F as [Hc F].
    assert (Hb' : b / 16 < 16) by (apply N.div_lt_upper_bound; lia).
    assert (Hc' : c / 64 < 4) by (apply N.div_lt_upper_bound; lia).
    cbn [b64_encode].
    rewrite (b64_dec_quad false _ _ _ _ (a / 4) ((a mod 4) * 16 + b / 16) ((b mod 16) * 4 + c / 64) (c mod 64))
      by (apply b64_val_char; try apply N.div_lt_upper_bound; lia).
    rewrite (IH r F). cbn [ocons b64_out app].
    destruct (digit_split 16 (a mod 4) (b / 16) Hb') as [-> ->].
    destruct (digit_split 4 (b mod 16) (c / 64) Hc') as [-> ->]. now rewrite !Q.
Qed.

(* the bytes part of C04 *)
Theorem base64_roundtrip bs : Forall (fun b => b < 256) bs -> b64_decode_go (b64_encode bs) = Some bs.
Proof. intros F. unfold b64_decode_go. now rewrite (b64_raw_roundtrip bs F). Qed.

