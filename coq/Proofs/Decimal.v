(* Proofs/Decimal.v — decimal numerals: what strconv's base-10 rendering of a natural number looks like
   (digits, no leading zero, one digit below ten) and that its digits carry the number.  The models
   define the rendering over N four times (Basic.fmt_dec, DagJson.ndigits, Selector.dec_digits,
   Transform.dec_digits), each convertible with [digits10]; NodeSeg, JsonInt and XformSeg take their round
   trips from here (nothing is proved of Selector's copy; Heap/Script.v's runs over nat). *)
Require Import IP.Base.Bytes.
From Coq Require Import ZifyN ZifyNat ZifyBool.
Open Scope N_scope.

Definition digit (c : N) : Prop := 48 <= c <= 57.

(* as strconv's ParseInt / ParseUint accumulate it *)
Fixpoint dval (ds : bytes) (acc : N) : N :=
  match ds with [] => acc | d :: r => dval r (acc * 10 + (d - 48)) end.

Lemma dval_app a b acc : dval (a ++ b) acc = dval b (dval a acc).
Proof. revert acc. induction a as [|d a IH]; intros acc; cbn [app dval]; [reflexivity|apply IH]. Qed.

Fixpoint digits10 (fuel : nat) (n : N) (acc : bytes) : bytes :=
  match fuel with
  | O => acc
  | S f => let acc' := (48 + n mod 10) :: acc in
           if n <? 10 then acc' else digits10 f (n / 10) acc'
  end.

Lemma digits10_spec f : forall n acc, n < 10 ^ N.of_nat (S f) ->
  exists d D, digits10 (S f) n acc = (48 + d) :: D ++ acc /\ d < 10 /\ Forall digit D /\
              (1 <= n -> 1 <= d) /\ (n < 10 -> D = []) /\ dval ((48 + d) :: D) 0 = n.
Proof.
  induction f as [|f IH]; intros n acc Hn; cbn [digits10]; destruct (N.ltb_spec n 10) as [L|L].
  1,3: rewrite N.mod_small by assumption; exists n, []; cbn [dval]; repeat split; auto; try lia; constructor.
  - cbn in Hn. lia.
  - assert (Hn' : n / 10 < 10 ^ N.of_nat (S f)) by (rewrite (Nat2N.inj_succ (S f)), N.pow_succ_r' in Hn; lia).
    destruct (IH (n / 10) ((48 + n mod 10) :: acc) Hn') as (d & D & E & Hd & HD & H1 & _ & V).
    exists d, (D ++ [48 + n mod 10]). cbn [digits10] in E. rewrite E, <- app_assoc.
    repeat split; try assumption; try lia.
    + apply Forall_app. split; [assumption|]. constructor; [unfold digit; lia|constructor].
    + change ((48 + d) :: D ++ [48 + n mod 10]) with (((48 + d) :: D) ++ [48 + n mod 10]).
      rewrite dval_app, V. cbn [dval]. lia.
Qed.
