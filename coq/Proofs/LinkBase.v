(* Proofs/LinkBase.v — basic facts about the link model: BuildLink is idempotent through the
   link's own prototype, a freshly built link verifies, a write phase of Store that ends clean had every
   Write accepted, the inversion of Store, finite-map facts about the storage. *)
Require Import IP.Base.Bytes IP.DM.Value IP.Link.LinkSys IP.Link.LinkSpec IP.Proofs.BytesFacts.
From Coq Require Import ZifyN ZifyNat ZifyBool.
Open Scope N_scope.

Lemma take_prefix_again {A} n (l p s : list A) :
  take n l = Some (p, s) -> take (lenN p) l = Some (p, s).
Proof. intros H. apply take_some in H as [-> _]. apply take_app. Qed.

Lemma prefixN_all (l : bytes) : prefixN (lenN l) l = l.
Proof. unfold prefixN. rewrite <- (app_nil_r l) at 2. now rewrite take_app. Qed.

Lemma link_eqb_refl l : link_eqb l l = true.
Proof. apply bytes_eqb_refl. Qed.

Lemma link_eqb_binary a b : link_eqb a b = true <-> link_binary a = link_binary b.
Proof. apply bytes_eqb_eq. Qed.

Lemma build_link_inv lp d l :
  build_link lp d = Some l ->
  exists dg s, d = dg ++ s /\
    ((lp_version lp = 0 /\ lp_mhtype lp = mh_sha2_256 /\ lenN dg = 32 /\
      l = {| l_v0 := true; l_codec := mc_dagpb; l_mhtype := mh_sha2_256; l_digest := dg |}) \/
     (lp_version lp = 1 /\ (lp_mhtype lp = mh_identity -> s = []) /\
      l = {| l_v0 := false; l_codec := lp_codec lp; l_mhtype := lp_mhtype lp; l_digest := dg |})).
Proof.
  unfold build_link. intros H.
  destruct ((lp_version lp =? 0) && _) eqn:G; [discriminate|].
  match type of H with match ?x with _ => _ end = _ => destruct x as [dg|] eqn:D; [|discriminate] end.
  assert (P : exists s, d = dg ++ s /\ (lp_mhtype lp = mh_identity -> s = [])).
  { destruct (N.eqb_spec (lp_mhtype lp) mh_identity) as [I|I].
    - cbn in D. inversion D. exists []. now rewrite app_nil_r.
    - destruct (lp_mhlen lp =? -1)%Z.
      + inversion D. exists []. now rewrite app_nil_r.
      + destruct (lp_mhlen lp <? 0)%Z; [discriminate|].
        destruct (take (Z.to_N (lp_mhlen lp)) d) as [[p s]|] eqn:T; [|discriminate].
        inversion D; subst. apply take_some in T as [-> _]. exists s. split; [reflexivity|].
        intros; contradiction. }
  destruct P as (s & -> & Hid). exists dg, s. split; [reflexivity|].
  destruct (N.eqb_spec (lp_version lp) 0) as [V0|V0].
  - cbn [andb] in G. apply orb_false_elim in G as [G _]. apply negb_false_iff, N.eqb_eq in G.
    destruct (N.eqb_spec (lenN dg) 32); inversion H. left. auto.
  - destruct (N.eqb_spec (lp_version lp) 1); inversion H. right. auto.
Qed.

Lemma build_link_mhtype lp d l :
  build_link lp d = Some l -> lp_mhtype (link_proto l) = lp_mhtype lp.
Proof.
  intros H. destruct (build_link_inv _ _ _ H) as (dg & s & _ & [(_ & M & _ & ->)|(_ & _ & ->)]); cbn; auto.
Qed.

(* the prototype read back carries the digest length, and truncating to it a second time is a no-op *)
Lemma build_link_idem lp d l :
  build_link lp d = Some l -> build_link (link_proto l) d = Some l.
Proof.
  intros H. destruct (build_link_inv _ _ _ H) as (dg & s & -> & [(_ & _ & L32 & ->)|(_ & Hid & ->)]);
    unfold build_link; cbn [link_proto l_v0 lp_version lp_mhtype lp_mhlen lp_codec l_codec l_mhtype l_digest].
  - change (0 =? 0) with true. change (mh_sha2_256 =? mh_sha2_256) with true.
    change (mh_sha2_256 =? mh_identity) with false. cbn [negb orb andb Z.eqb Z.ltb Z.compare Pos.eqb].
    change (Z.to_N 32) with 32. rewrite <- L32, take_app. rewrite L32. reflexivity.
  - change (1 =? 0) with false. cbn [andb]. change (1 =? 1) with true.
    destruct (N.eqb_spec (lp_mhtype lp) mh_identity) as [I|I].
    + rewrite (Hid I), app_nil_r. reflexivity.
    + replace (Z.of_N (lenN dg) =? -1)%Z with false by lia.
      replace (Z.of_N (lenN dg) <? 0)%Z with false by lia.
      rewrite N2Z.id, take_app. reflexivity.
Qed.

Section Facts.
  Variable hash : N -> bytes -> bytes.

  Lemma verify_built lp bs l :
    build_link lp (hash (lp_mhtype lp) bs) = Some l -> verify hash l bs = VOk.
  Proof.
    intros H. unfold verify. rewrite (build_link_mhtype _ _ _ H), (build_link_idem _ _ _ H).
    now rewrite link_eqb_refl.
  Qed.

  Lemma verify_ok_binary l bs :
    verify hash l bs = VOk <->
    exists l2, build_link (link_proto l) (hash (lp_mhtype (link_proto l)) bs) = Some l2 /\
               link_binary l2 = link_binary l.
  Proof.
    unfold verify, link_eqb. destruct (build_link _ _) as [l2|].
    - destruct (bytes_eqb_spec (link_binary l2) (link_binary l)) as [B|B].
      + split; eauto.
      + split; [discriminate|]. intros (l3 & H & B'). inversion H; subst. contradiction.
    - split; [discriminate|]. intros (l3 & H & _). discriminate.
  Qed.

  Lemma verify_mismatch_binary l bs :
    verify hash l bs = VMismatch <->
    exists l2, build_link (link_proto l) (hash (lp_mhtype (link_proto l)) bs) = Some l2 /\
               link_binary l2 <> link_binary l.
  Proof.
    unfold verify, link_eqb. destruct (build_link _ _) as [l2|].
    - destruct (bytes_eqb_spec (link_binary l2) (link_binary l)) as [B|B].
      + split; [discriminate|]. intros (l3 & H & B'). inversion H; subst. contradiction.
      + split; eauto.
    - split; [discriminate|]. intros (l3 & H & _). discriminate.
  Qed.
End Facts.

Lemma write_all_latched ignored cap sched used stuck chunks w h e l :
  write_all true ignored cap sched used stuck true chunks = (w, h, e, l) -> e = true \/ l = true.
Proof.
  revert sched used stuck w h e l; induction chunks as [|c r IH]; intros sched used stuck w h e l;
    cbn [write_all andb].
  - intros E; inversion E; auto.
  - destruct ignored; [apply IH|]. intros E; inversion E; auto.
Qed.

Fixpoint accepted (cap : option N) (sched : list wact) (used : N) (chunks : list bytes) : Prop :=
  match chunks with
  | [] => True
  | c :: r =>
    match cap with None => True | Some k => used + lenN c <= k end /\
    match sched with WFail :: _ => False | WShort n :: _ => lenN c <= n | _ => True end /\
    accepted cap (tl sched) (used + lenN c) r
  end.

Lemma write_all_whole latch ignored cap sched used chunks :
  accepted cap sched used chunks ->
  write_all latch ignored cap sched used false false chunks = (concat chunks, concat chunks, false, false).
Proof.
  revert sched used; induction chunks as [|c r IH]; intros sched used; cbn [write_all concat accepted];
    [reflexivity|]. intros (F & S & A). rewrite andb_false_r.
  replace (match cap with None => true | Some k => used + lenN c <=? k end) with true
    by (destruct cap; [symmetry; apply N.leb_le; exact F|reflexivity]).
  cbn [negb orb]. destruct sched as [|[| |n] sched']; cbn [tl] in *; [| |contradiction|];
    try (apply N.leb_le in S; rewrite S); now rewrite (IH _ _ A).
Qed.

Lemma write_all_honest latch ignored used chunks :
  write_all latch ignored None [] used false false chunks = (concat chunks, concat chunks, false, false).
Proof.
  apply write_all_whole. revert used; induction chunks as [|c r IH]; intros used; cbn [accepted tl]; auto.
Qed.

Lemma write_result_inv (x : bytes * bytes * bool * bool) (f g : bytes -> bytes) w h e l :
  (let '(w0, h0, e0, l0) := x in (f w0, g h0, e0, l0)) = (w, h, e, l) ->
  exists w0 h0, x = (w0, h0, e, l) /\ w = f w0 /\ h = g h0.
Proof. destruct x as [[[w0 h0] e0] l0]. intros E; inversion E; eauto. Qed.

Lemma write_all_accepted latch ignored cap sched used stuck chunks w h l :
  latch || negb ignored = true ->
  write_all latch ignored cap sched used stuck false chunks = (w, h, false, l) ->
  latch && l = false ->
  w = concat chunks /\ h = concat chunks /\ accepted cap sched used chunks.
Proof.
  intros Hm.
  (* an encoder that runs past a failed Write is only allowed with the latch, which then keeps the
     error to the end *)
  assert (Hl : ignored = true -> latch = true) by (intros ->; now rewrite orb_false_r in Hm).
  revert sched used stuck w h l; induction chunks as [|c r IH]; intros sched used stuck w h l;
    cbn [write_all concat accepted].
  - intros E _; inversion E; auto.
  - rewrite andb_false_r.
    destruct (stuck || negb _) eqn:St.
    + destruct ignored; [|intros E; inversion E]. rewrite (Hl eq_refl).
      intros R L. apply write_all_latched in R as [R|R]; [discriminate R|subst l; discriminate L].
    + assert (Fit : match cap with None => True | Some k => used + lenN c <= k end).
      { apply orb_false_elim in St as [_ St]. apply negb_false_iff in St.
        destruct cap; [apply N.leb_le; exact St|exact I]. }
      destruct sched as [|[| |n] sched']; cbn [tl].
      * intros E L. apply write_result_inv in E as (w0 & h0 & R & -> & ->).
        destruct (IH _ _ _ _ _ _ R L) as (-> & -> & A). auto.
      * intros E L. apply write_result_inv in E as (w0 & h0 & R & -> & ->).
        destruct (IH _ _ _ _ _ _ R L) as (-> & -> & A). auto.
      * destruct ignored; [|intros E; inversion E]. rewrite (Hl eq_refl).
        intros R L. apply write_all_latched in R as [R|R]; [discriminate R|subst l; discriminate L].
      * destruct (N.leb_spec (lenN c) n) as [G|G].
        -- intros E L. apply write_result_inv in E as (w0 & h0 & R & -> & ->).
           destruct (IH _ _ _ _ _ _ R L) as (-> & -> & A). auto.
        -- destruct ignored; [|intros E; inversion E]. rewrite (Hl eq_refl).
           intros E L. apply (write_result_inv _ (app (prefixN n c)) (fun x => x)) in E as (w0 & h0 & R & _).
           apply write_all_latched in R as [R|R]; [discriminate R|subst l; discriminate L].
Qed.

Lemma write_all_clean latch ignored cap sched used stuck chunks w h l :
  latch || negb ignored = true ->
  write_all latch ignored cap sched used stuck false chunks = (w, h, false, l) ->
  latch && l = false ->
  w = concat chunks /\ h = concat chunks.
Proof. intros M W L. destruct (write_all_accepted _ _ _ _ _ _ _ _ _ _ M W L) as (-> & -> & _). auto. Qed.

Lemma prefixN_le n (l : bytes) : lenN (prefixN n l) <= n.
Proof.
  unfold prefixN. destruct (take n l) as [[p s]|] eqn:T.
  - apply take_some in T as [_ ->]. reflexivity.
  - rewrite take_spec in T. destruct (N.ltb_spec (lenN l) n); [lia|discriminate].
Qed.

Lemma write_all_cap latch ignored k sched used stuck latched chunks w h e l :
  used <= k ->
  write_all latch ignored (Some k) sched used stuck latched chunks = (w, h, e, l) ->
  used + lenN w <= k.
Proof.
  revert sched used stuck latched w h e l; induction chunks as [|c r IH];
    intros sched used stuck latched w h e l U; cbn [write_all].
  - intros E; inversion E. cbn. lia.
  - (* a Write hands the writer a piece p of c, counted in used' and within k; the phase then stops
       or goes on from used' *)
    assert (Stop : forall (p : bytes) b1 b2, used + lenN p <= k ->
              (p, @nil N, b1, b2) = (w, h, e, l) -> used + lenN w <= k)
      by (intros p b1 b2 P E; inversion E; subst; exact P).
    assert (Go : forall p (g : bytes -> bytes) sched' used' stuck' latched', used + lenN p <= used' <= k ->
              (let '(w0, h0, e0, l0) := write_all latch ignored (Some k) sched' used' stuck' latched' r in
               (p ++ w0, g h0, e0, l0)) = (w, h, e, l) -> used + lenN w <= k).
    { intros p g sched' used' stuck' latched' P E. apply write_result_inv in E as (w0 & h0 & R & -> & _).
      apply IH in R; [|lia]. rewrite lenN_app. lia. }
    assert (Fail : forall stuck', (if ignored then write_all latch ignored (Some k) (tl sched) used stuck' true r
                                   else ([], [], true, true)) = (w, h, e, l) -> used + lenN w <= k)
      by (intros stuck'; destruct ignored; [apply IH; exact U|apply Stop; cbn; lia]).
    destruct (latch && latched); [destruct ignored; [apply IH; exact U|apply Stop; cbn; lia]|].
    destruct (N.leb_spec (used + lenN c) k) as [F|F]; cbn [negb]; [|rewrite orb_true_r; apply Fail].
    rewrite orb_false_r.
    destruct (if stuck then WFail else match sched with a :: _ => a | [] => WOk end) as [| |n];
      [apply Go; lia|apply Fail|].
    destruct (N.leb_spec (lenN c) n) as [G|G]; [apply Go; lia|].
    pose proof (prefixN_le n c). destruct ignored; [apply Go; lia|apply Stop; lia].
Qed.

Lemma accepted_cap k sched used chunks :
  accepted (Some k) sched used chunks -> used <= k -> used + lenN (concat chunks) <= k.
Proof. intros A U. exact (write_all_cap false false _ _ _ _ _ _ _ _ _ _ U (write_all_whole _ _ _ _ _ _ A)). Qed.

Lemma accepted_not_failed cap sched used pre x post :
  accepted cap sched used (pre ++ x :: post) -> nth_error sched (length pre) <> Some WFail.
Proof.
  revert sched used; induction pre as [|p pre IH]; intros sched used; cbn [app accepted length].
  - intros (_ & S & _) N. destruct sched as [|a s]; [discriminate|]. cbn in N. inversion N; subst. exact S.
  - intros (_ & _ & A) N. destruct sched as [|a s]; [discriminate|]. exact (IH _ _ A N).
Qed.

Section Store.
  Variable hasher_ok : N -> bool.
  Variable hash : N -> bytes -> bytes.
  Variable encoders : N -> option codec.

  Notation store := (store hasher_ok hash encoders).

  Lemma store_inv latch sk w st lp v s st' :
    store latch sk w st lp v = (s, st') ->
    (so_status s <> SOk /\ so_status s <> SErr ECommit /\ st' = st) \/
    exists c chunks wr hs la l,
      encoders (lp_codec lp) = Some c /\ hasher_ok (lp_mhtype lp) = true /\ c_enc c v = Some chunks /\
      write_all latch (c_werr_ignored c) (w_cap w) (w_sched w) 0 false false chunks = (wr, hs, false, la) /\
      latch && la = false /\
      build_link lp (hash (lp_mhtype lp) hs) = Some l /\
      s = {| so_status := if w_commit_err w then SErr ECommit else SOk; so_link := Some l |} /\
      st' = if w_commit_err w then st else put sk st (skey sk l) wr.
  Proof.
    unfold LinkSys.store.
    assert (Early : forall s0, so_status s0 <> SOk -> so_status s0 <> SErr ECommit ->
                               (s0, st) = (s, st') ->
                               so_status s <> SOk /\ so_status s <> SErr ECommit /\ st' = st).
    { intros s0 A B E. inversion E; subst. auto. }
    destruct (encoders _) as [c|] eqn:C; [|left; eapply Early; eauto; discriminate].
    destruct (hasher_ok _) eqn:H; cbn [negb]; [|left; eapply Early; eauto; discriminate].
    destruct (w_open_err w); [left; eapply Early; eauto; discriminate|].
    destruct (c_enc c v) as [chunks|] eqn:En; [|left; eapply Early; eauto; discriminate].
    destruct (write_all _ _ _ _ _ _ _ _) as [[[wr hs] ee] la] eqn:W.
    destruct ee; cbn [orb];
      [left; eapply Early; eauto; cbn; unfold wfail_class; destruct (first_short _ _ _ _); discriminate|].
    destruct (latch && la) eqn:L;
      [left; eapply Early; eauto; cbn; unfold wfail_class; destruct (first_short _ _ _ _); discriminate|].
    destruct (build_link _ _) as [l|] eqn:B; [|left; eapply Early; eauto; discriminate].
    intros E. right. exists c, chunks, wr, hs, la, l.
    destruct (w_commit_err w); inversion E; subst; auto 10.
  Qed.

End Store.

Lemma lookup_remove_key st k k' :
  lookup (remove_key st k) k' = if bytes_eqb k' k then None else lookup st k'.
Proof.
  induction st as [|[k0 b0] r IH]; cbn [remove_key lookup].
  - now destruct (bytes_eqb k' k).
  - destruct (bytes_eqb_spec k k0) as [<-|N0]; cbn [lookup]; rewrite IH.
    + now destruct (bytes_eqb k' k).
    + destruct (bytes_eqb_spec k' k0) as [->|]; [|reflexivity].
      apply not_eq_sym, bytes_eqb_neq in N0. now rewrite N0.
Qed.

Lemma lookup_put_other sk st k b k' : k' <> k -> lookup (put sk st k b) k' = lookup st k'.
Proof.
  intros N. apply bytes_eqb_neq in N. unfold put.
  destruct (lookup st k); [destruct (sk_overwrite sk)|]; cbn [lookup]; rewrite ?N, ?lookup_remove_key, ?N; reflexivity.
Qed.

Lemma lookup_put_same sk st k b :
  lookup (put sk st k b) k = match lookup st k with
                             | Some old => if sk_overwrite sk then Some b else Some old
                             | None => Some b
                             end.
Proof.
  unfold put. destruct (lookup st k) eqn:L; [destruct (sk_overwrite sk)|]; cbn [lookup];
    rewrite ?bytes_eqb_refl; auto.
Qed.

Lemma lookup_put_cases sk st k b k' x :
  lookup (put sk st k b) k' = Some x -> (k' = k /\ x = b) \/ lookup st k' = Some x.
Proof.
  destruct (bytes_eqb_spec k' k) as [->|N].
  - rewrite lookup_put_same.
    destruct (lookup st k) as [old|] eqn:L; [destruct (sk_overwrite sk)|]; intros H; inversion H; subst; auto.
  - rewrite lookup_put_other; auto.
Qed.
