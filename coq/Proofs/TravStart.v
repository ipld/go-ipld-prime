(* C15, StartAtPath: when the unrestricted walk completes, visits the start path, and explored siblings are pairwise
   distinct, the walk started at that path yields exactly: the loads of the links lying on the start path, followed
   by the unrestricted trace from the first visit of the start path on (start_closed_form, from any position on the
   start path). *)
Require Import IP.Base.Bytes IP.DM.Value IP.Trav.Selector IP.Trav.Walk IP.Trav.Controls IP.Trav.ControlsSpec
  IP.Proofs.BytesFacts IP.Proofs.TravFacts IP.Proofs.TravCtl.
From Coq Require Import Lia.
Open Scope Z_scope.

(* the start path as ParsePath / the harness give it: string segments *)
Definition start_ctl (sp : list bytes) : ctl := {| c_start := map SegS sp; c_once := false; c_skip := [] |}.

Fixpoint nodup_strs (l : list bytes) : bool :=
  match l with [] => true | x :: r => negb (mem_bytes x r) && nodup_strs r end.

Definition kid_strs (ks : list (seg * dm)) : list bytes := map (fun k => seg_string (fst k)) ks.

(* false only for selectors whose Interests() repeat a segment, or maps with repeated keys *)
Fixpoint walk_distinct (q : quirks) (g : list (bytes * dm)) (f : nat) (n : dm) (s : sel) : bool :=
  match f with
  | O => true
  | S f' =>
      if is_container n then
        nodup_strs (kid_strs (children q n s)) &&
        forallb (fun k => match explore q s n (fst k) with
                          | XOk (Some s') =>
                              match snd k with
                              | DLink c => match assoc c g with Some b => walk_distinct q g f' b s' | None => true end
                              | v => walk_distinct q g f' v s'
                              end
                          | _ => true
                          end) (children q n s)
      else true
  end.

Lemma path_strs_SegS sp : path_strs (map SegS sp) = sp.
Proof. unfold path_strs. rewrite map_map. cbn. apply map_id. Qed.

Lemma path_strs_app a b : path_strs (a ++ b) = path_strs a ++ path_strs b.
Proof. apply map_app. Qed.

Lemma seg_equals_SegS ps y : seg_equals ps (SegS y) = bytes_eqb (seg_string ps) y.
Proof. destruct ps; reflexivity. Qed.

Lemma step_path_prefix q g f ls P n s k :
  Forall (fun e => exists sfx, ev_path e = (P ++ [fst k]) ++ sfx) (fst (explore_step q g (walk q g f) ls P n s k)).
Proof.
  unfold explore_step. destruct (explore q s n (fst k)) as [[s'|]| |]; cbn; try constructor.
  destruct (snd k); try apply walk_path_prefix.
  destruct (assoc c g) as [b|]; cbn.
  - pose proof (walk_path_prefix q g f (c :: ls) (P ++ [fst k]) b s') as H.
    destruct (walk q g f (c :: ls) (P ++ [fst k]) b s') as [e' o']. cbn in *.
    constructor; [exists []; rewrite app_nil_r; reflexivity|exact H].
  - constructor; [exists []; rewrite app_nil_r; reflexivity|constructor].
Qed.

Lemma strs_eqb_refl a : strs_eqb a a = true.
Proof. induction a; cbn; [reflexivity|]. rewrite bytes_eqb_refl; exact IHa. Qed.
Lemma strs_prefixb_app a b : strs_prefixb a (a ++ b) = true.
Proof. induction a; cbn; [reflexivity|]. rewrite bytes_eqb_refl; exact IHa. Qed.
Lemma strs_eqb_cancel a b c : strs_eqb (a ++ b) (a ++ c) = strs_eqb b c.
Proof. induction a; cbn; [reflexivity|]. rewrite bytes_eqb_refl; exact IHa. Qed.
Lemma strs_prefixb_cancel a b c : strs_prefixb (a ++ b) (a ++ c) = strs_prefixb b c.
Proof. induction a; cbn; [reflexivity|]. rewrite bytes_eqb_refl; exact IHa. Qed.
Lemma strs_eqb_length a : forall b, strs_eqb a b = true -> length a = length b.
Proof.
  induction a as [|x a IH]; destruct b; cbn; try discriminate; auto.
  intros H. apply andb_true_iff in H. destruct H as [_ H]. f_equal. apply IH; exact H.
Qed.

Lemma split_at_none sp t : Forall (fun e => at_path sp e = false) t -> split_at sp t = (t, []).
Proof.
  induction 1 as [|e t He Ht IH]; [reflexivity|]. cbn. rewrite He, IH. reflexivity.
Qed.

Lemma start_spec_skip sp a b :
  Forall (fun e => at_path sp e = false /\ on_path_load sp e = false) a ->
  start_spec sp (a ++ b) = start_spec sp b.
Proof.
  unfold start_spec. induction 1 as [|e a [H1 H2] Ha IH]; [reflexivity|].
  cbn [app split_at]. rewrite H1.
  destruct (split_at sp (a ++ b)) as [x y]. destruct (split_at sp b) as [x' y'].
  cbn [filter]. rewrite H2. exact IH.
Qed.

Lemma start_spec_app sp a b :
  Exists (fun e => at_path sp e = true) a -> start_spec sp (a ++ b) = start_spec sp a ++ b.
Proof.
  unfold start_spec. induction a as [|e a IH]; intros H; [inversion H|].
  cbn [app split_at]. destruct (at_path sp e) eqn:E.
  - reflexivity.
  - inversion H as [? ? H1|? ? H1]; subst; [congruence|].
    specialize (IH H1).
    destruct (split_at sp (a ++ b)) as [x y]. destruct (split_at sp a) as [x' y'].
    cbn [filter]. destruct (on_path_load sp e); cbn [app]; rewrite IH; reflexivity.
Qed.

Section Start.
  Variable q : quirks.
  Variable g : list (bytes * dm).
  Variable sp : list bytes.
  Let SP := map SegS sp.
  Let C := start_ctl sp.

  Definition past_rel (ls : list bytes) (y : res) (st : wst) (r : cres) : Prop := w_budget st = None -> r = (y, st).

  Lemma past_closed : ctl_closed C past_rel.
  Proof.
    unfold past_rel. split; [|split; [|split]].
    - reflexivity.
    - intros ls [e o] [e' o'] x2 st r1 H1 H2 Hb. rewrite (H1 Hb). destruct o; try reflexivity.
      cbn [cthen]. rewrite (H2 st Hb). reflexivity.
    - intros ls ev e o x st _ _ Hx Hb. unfold check_node. rewrite Hb, (Hx st Hb). reflexivity.
    - intros ls P l e o x st Hx Hb. cbn [c_once C start_ctl andb c_skip mem_bytes]. unfold check_link.
      rewrite Hb, (Hx st Hb). reflexivity.
  Qed.

  Lemma past_len P : (length sp <= length P)%nat -> inert C false P.
  Proof. intros H. right. cbn [c_start C start_ctl]. rewrite map_length. exact H. Qed.

  Definition start_form (f : nat) : Prop :=
    forall seen ls P n s t rest,
      walk q g f ls P n s = (t, OOk) -> walk_distinct q g f n s = true ->
      sp = path_strs P ++ rest ->
      Exists (fun e => at_path SP e = true) t ->
      cwalk q C g f (nst seen) false ls P n s = (start_spec SP t, OOk, nst seen).

  Definition kid_distinct (f : nat) (n : dm) (s : sel) (k : seg * dm) : bool :=
    match explore q s n (fst k) with
    | XOk (Some s') =>
        match snd k with
        | DLink c => match assoc c g with Some b => walk_distinct q g f b s' | None => true end
        | v => walk_distinct q g f v s'
        end
    | _ => true
    end.

  Lemma step_start f (IH : start_form f) seen ls P n s k t y rest :
    explore_step q g (walk q g f) ls P n s k = (t, OOk) ->
    kid_distinct f n s k = true ->
    sp = path_strs P ++ y :: rest -> seg_string (fst k) = y ->
    Exists (fun e => at_path SP e = true) t ->
    cexplore_step q C g (cwalk q C g f) ls P n s (nst seen) false k = (start_spec SP t, OOk, nst seen).
  Proof.
    intros Hk Hd Hsp Hy Hex. unfold explore_step in Hk. unfold cexplore_step. unfold kid_distinct in Hd.
    destruct (explore q s n (fst k)) as [[s'|]| |]; try discriminate.
    2:{ inversion Hk; subst. inversion Hex. }
    assert (Hsp' : sp = path_strs (P ++ [fst k]) ++ rest).
    { rewrite path_strs_app. cbn. rewrite Hy, <- app_assoc. exact Hsp. }
    destruct (snd k) eqn:Ek; try (apply (IH seen ls (P ++ [fst k]) _ s' t rest Hk Hd Hsp' Hex)).
    cbn [c_once C start_ctl andb c_skip mem_bytes]. unfold check_link; cbn [w_budget nst].
    destruct (assoc c g) as [b|]; [|discriminate].
    destruct (walk q g f (c :: ls) (P ++ [fst k]) b s') as [e o] eqn:Ew.
    inversion Hk; subst. clear Hk.
    assert (Hex' : Exists (fun e => at_path SP e = true) e).
    { inversion Hex as [? ? H1|? ? H1]; subst; [discriminate H1|exact H1]. }
    fold (nst seen). rewrite (IH seen (c :: ls) (P ++ [fst k]) b s' e rest Ew Hd Hsp' Hex').
    unfold start_spec. cbn [split_at]. change (at_path SP (ELoad (P ++ [fst k]) c ls)) with false.
    destruct (split_at SP e) as [x z]. cbn [filter].
    replace (on_path_load SP (ELoad (P ++ [fst k]) c ls)) with true; [reflexivity|].
    unfold on_path_load, SP. rewrite path_strs_SegS. cbn [is_load ev_path andb].
    symmetry. rewrite Hsp' at 1. apply strs_prefixb_app.
  Qed.

  Lemma before_start P y rest : sp = path_strs P ++ y :: rest ->
    (length P < length sp)%nat /\ Nat.ltb (length P) (length (c_start C)) = true /\
    nth_error (c_start C) (length P) = Some (SegS y).
  Proof.
    intros Hsp. assert (Hlen : (length P < length sp)%nat).
    { rewrite Hsp, app_length. unfold path_strs. rewrite map_length. cbn. lia. }
    cbn [c_start C start_ctl]. rewrite map_length. repeat split; [exact Hlen|apply Nat.ltb_lt, Hlen|].
    rewrite Hsp, map_app, nth_error_app2; unfold path_strs; rewrite !map_length; [|lia].
    rewrite Nat.sub_diag. reflexivity.
  Qed.

  Lemma start_decide_before P ps y rest : sp = path_strs P ++ y :: rest ->
    start_decide C P ps false false
    = if bytes_eqb (seg_string ps) y then (false, true, true) else (false, false, false).
  Proof.
    intros Hsp. destruct (before_start P y rest Hsp) as (_ & Hc & Hnth). unfold start_decide.
    destruct (c_start C); [destruct (length P); discriminate|].
    cbn [negb andb]. rewrite Hc, Hnth, seg_equals_SegS. destruct (bytes_eqb (seg_string ps) y); reflexivity.
  Qed.

  Lemma step_off_path f ls P n s k y rest :
    sp = path_strs P ++ y :: rest -> bytes_eqb (seg_string (fst k)) y = false ->
    Forall (fun a => at_path SP a = false /\ on_path_load SP a = false)
           (fst (explore_step q g (walk q g f) ls P n s k)).
  Proof.
    intros Hsp Eq. eapply Forall_impl; [|apply step_path_prefix]. intros x [sfx Hq].
    unfold at_path, on_path_load, SP. rewrite path_strs_SegS, Hq, Hsp, !path_strs_app, <- app_assoc. cbn [path_strs map app].
    rewrite strs_eqb_cancel, strs_prefixb_cancel. cbn. rewrite Eq. cbn. split; apply andb_false_r.
  Qed.

  Lemma loop_start f (IH : start_form f) seen ls P n s y rest :
    sp = path_strs P ++ y :: rest ->
    forall ks t,
      seqk (explore_step q g (walk q g f) ls P n s) ks = (t, OOk) ->
      nodup_strs (kid_strs ks) = true ->
      forallb (kid_distinct f n s) ks = true ->
      Exists (fun e => at_path SP e = true) t ->
      cloop C (cexplore_step q C g (cwalk q C g f) ls P n s) P ks (nst seen) false false
      = (start_spec SP t, OOk, nst seen).
  Proof.
    intros Hsp. induction ks as [|k r IHr]; intros t Hs Hnd Hkd Hex.
    - inversion Hs; subst. inversion Hex.
    - apply seqk_ok_inv in Hs. destruct Hs as (e & e' & Hk & Hr & ->).
      cbn [kid_strs map nodup_strs] in Hnd. apply andb_true_iff in Hnd. destruct Hnd as [Hnm Hnd].
      cbn [forallb] in Hkd. apply andb_true_iff in Hkd. destruct Hkd as [Hkd1 Hkd].
      cbn [cloop]. rewrite (start_decide_before P (fst k) y rest Hsp).
      destruct (bytes_eqb (seg_string (fst k)) y) eqn:Eq.
      + (* the child on the start path: explored with PastStartAtPath still false; all later siblings
           are walked in full *)
        apply bytes_eqb_eq in Eq.
        assert (He' : Forall (fun a => at_path SP a = false /\ on_path_load SP a = false) e').
        { change e' with (fst (e', OOk)). rewrite <- Hr. apply (seqk_inv _ (fun _ => True)); [exact I|].
          intros k' Hin. split; [|exact I].
          apply (step_off_path f ls P n s k' y rest Hsp).
          destruct (bytes_eqb (seg_string (fst k')) y) eqn:E; [|reflexivity].
          apply bytes_eqb_eq in E. apply negb_true_iff in Hnm. rewrite <- Hnm. symmetry.
          apply mem_bytes_In. rewrite Eq, <- E. exact (in_map _ r k' Hin). }
        assert (Hexe : Exists (fun a => at_path SP a = true) e).
        { apply Exists_app in Hex. destruct Hex as [H|H]; [exact H|].
          apply Exists_exists in H. destruct H as (x & Hin & Hx).
          rewrite Forall_forall in He'. destruct (He' x Hin) as [H1 _]. rewrite H1 in Hx. discriminate. }
        rewrite (step_start f IH seen ls P n s k e y rest Hk Hkd1 Hsp Eq Hexe).
        rewrite (ctl_sim_loop q C g _ past_closed f ls P n s r (nst seen) false true (or_intror eq_refl) eq_refl).
        rewrite Hr, start_spec_app by exact Hexe. reflexivity.
      + pose proof (step_off_path f ls P n s k y rest Hsp Eq) as Hoff. rewrite Hk in Hoff. cbn [fst] in Hoff.
        rewrite start_spec_skip by exact Hoff.
        apply IHr; auto.
        apply Exists_app in Hex. destruct Hex as [H|H]; [|exact H].
        apply Exists_exists in H. destruct H as (x & Hin & Hx).
        rewrite Forall_forall in Hoff. destruct (Hoff x Hin) as [H1 _]. rewrite H1 in Hx. discriminate.
  Qed.

  Theorem start_closed_form : forall f, start_form f.
  Proof.
    induction f as [|f IH]; intros seen ls P n s t rest Hw Hd Hsp Hex; [discriminate|].
    destruct rest as [|y rest].
    - (* the start path has been reached: from here on the walk is unrestricted *)
      rewrite app_nil_r in Hsp.
      assert (Hp : inert C false P) by (apply past_len; rewrite Hsp; unfold path_strs; rewrite map_length; apply le_n).
      rewrite (ctl_sim q C g _ past_closed (S f) (nst seen) false ls P n s Hp eq_refl).
      rewrite Hw. f_equal. f_equal.
      rewrite walk_S in Hw.
      assert (Hhd : exists r, t = visit_event P n s ls :: r).
      { destruct (is_container n).
        - destruct (seqk (explore_step q g (walk q g f) ls P n s) (children q n s)) as [e o].
          inversion Hw; eauto.
        - inversion Hw; eauto. }
      destruct Hhd as [r ->]. unfold start_spec. cbn [split_at].
      replace (at_path SP (visit_event P n s ls)) with true; [reflexivity|].
      unfold at_path, SP. rewrite visit_event_is_visit, visit_event_path, path_strs_SegS, Hsp.
      symmetry. apply strs_eqb_refl.
    - rewrite walk_S in Hw. rewrite cwalk_S. unfold check_node; cbn [w_budget nst].
      destruct (before_start P y rest Hsp) as (Hlen & Hc & _). cbn [negb andb]. rewrite Hc.
      assert (Hnv : at_path SP (visit_event P n s ls) = false /\ on_path_load SP (visit_event P n s ls) = false).
      { unfold at_path, on_path_load, SP. rewrite path_strs_SegS, visit_event_path.
        split.
        - destruct (strs_eqb (path_strs P) sp) eqn:E; [|apply andb_false_r].
          apply strs_eqb_length in E. unfold path_strs in E. rewrite map_length in E. lia.
        - unfold visit_event. destruct (match_sel s n); reflexivity. }
      (* walk_distinct (S f) n s unfolds to nodup_strs of the children's strings && forallb (kid_distinct f n s) *)
      cbn [walk_distinct] in Hd.
      destruct (is_container n).
      + destruct (seqk (explore_step q g (walk q g f) ls P n s) (children q n s)) as [e o] eqn:Es.
        inversion Hw; subst. clear Hw.
        apply andb_true_iff in Hd. destruct Hd as [Hnd Hkd].
        fold (nst seen).
        rewrite (loop_start f IH seen ls P n s y rest Hsp (children q n s) e Es Hnd Hkd).
        * cbn [app]. change (visit_event P n s ls :: e) with ([visit_event P n s ls] ++ e).
          rewrite start_spec_skip; [reflexivity|]. constructor; [exact Hnv|constructor].
        * inversion Hex as [? ? H1|? ? H1]; subst; [|exact H1].
          destruct Hnv as [Hn _]. rewrite Hn in H1. discriminate.
      + inversion Hw; subst. inversion Hex as [? ? H1|? ? H1]; subst.
        * destruct Hnv as [Hn _]. rewrite Hn in H1. discriminate.
        * inversion H1.
  Qed.
End Start.
