(* Binding as a function of the call history.  With the registry reused (the
   repaired setting) the outcome of every Wrap / Prototype+build / Marshal / Unmarshal call is the
   outcome of the same call on the initial state, whatever calls came before, and no call ends in
   the duplicate-type-name panic.  On the pinned setting both fail (witnesses below). *)
Require Import IP.Base.Bytes IP.DM.Value IP.Bind.GoVal IP.Bind.Bind IP.Bind.Spec IP.Proofs.BindFacts.
Open Scope N_scope.

Section shape_ind2.
  Variable P : shape -> Prop.
  Hypothesis Hb : P SBool.
  Hypothesis Hi : forall k, P (SInt k).
  Hypothesis Hf : forall b, P (SFloat b).
  Hypothesis Hs : P SString.
  Hypothesis Hy : P SBytes.
  Hypothesis Hl : forall k, P (SLink k).
  Hypothesis Hn : P SNode.
  Hypothesis Hp : forall s, P s -> P (SPtr s).
  Hypothesis Hsl : forall n s, P s -> P (SSlice n s).
  Hypothesis Hst : forall n fs, Forall (fun f => P (snd f)) fs -> P (SStruct n fs).
  Hypothesis Hm : forall k v, P k -> P v -> P (SGoMap k v).
  Fixpoint shape_ind2 (s : shape) : P s :=
    match s with
    | SBool => Hb | SInt k => Hi k | SFloat b => Hf b | SString => Hs | SBytes => Hy
    | SLink k => Hl k | SNode => Hn
    | SPtr x => Hp x (shape_ind2 x)
    | SSlice n x => Hsl n x (shape_ind2 x)
    | SStruct n fs => Hst n fs ((fix go (fs : list (bytes * shape)) : Forall (fun f => P (snd f)) fs :=
        match fs with
        | [] => Forall_nil _
        | (a, x) :: r => Forall_cons (a, x) (shape_ind2 x) (go r)
        end) fs)
    | SGoMap k v => Hm k v (shape_ind2 k) (shape_ind2 v)
    end.
End shape_ind2.

(* inferGoType only ever fails on a field name that is no Go identifier *)
Definition fails_reflect {A} (r : bres A) : Prop := forall e, r = Err e -> e = PReflect.

Lemma fr_bind : forall {A B} (r : bres A) (f : A -> bres B),
  fails_reflect r -> (forall x, fails_reflect (f x)) -> fails_reflect (bind r f).
Proof. intros A B r f Hr Hf e E. destruct r as [x|e0]; [exact (Hf x e E)|].
  inversion E; subst. exact (Hr e eq_refl).
Qed.

Lemma infer_gotype_err : forall t, fails_reflect (infer_gotype t).
Proof.
  induction t using sty_ind2; try (intros e E; discriminate E); cbn [infer_gotype].
  - apply fr_bind; [exact IHt | intros x e E; discriminate E].
  - apply fr_bind; [exact IHt1 | intros x]. apply fr_bind; [exact IHt2 | intros y e E; discriminate E].
  - apply fr_bind; [|intros x e E; discriminate E].
    induction H as [|f fs Hf _ IH]; [intros e E; discriminate E|].
    cbn [ig_fields]. apply fr_bind; [exact Hf | intros x].
    destruct (negb (is_ident (title (f_name f)))); [intros e E; inversion E; reflexivity|].
    apply fr_bind; [exact IH | intros y e E; discriminate E].
  - apply fr_bind; [|intros x e E; discriminate E].
    induction H as [|m ms Hm _ IH]; [intros e E; discriminate E|].
    cbn [ig_members]. apply fr_bind; [exact Hm | intros x].
    destruct (negb (is_ident (title (sty_name (snd m))))); [intros e E; inversion E; reflexivity|].
    apply fr_bind; [exact IH | intros y e E; discriminate E].
Qed.

Section Pure.
  Variable q : quirks.
  Variable n32 : N -> N.
  Hypothesis Hreuse : q_reuse_registered q = true.

  Definition settled {X} (bad : X) (f : registry -> registry * X) : Prop :=
    exists res, res <> bad /\ forall r, snd (f r) = res.

  Lemma settled_at : forall {X} (f : registry -> registry * X) res r,
    (forall r, snd (f r) = res) -> f r = (fst (f r), res).
  Proof. intros X f res r H. rewrite <- (H r). apply surjective_pairing. Qed.

  Lemma settled_const : forall {X} (bad x : X), x <> bad -> settled bad (fun r => (r, x)).
  Proof. intros X bad x H. exists x. split; [exact H | reflexivity]. Qed.

  (* with reuse, Accumulate never fails *)
  Lemma acc_snd : forall nm r (k : sty),
    snd (match accumulate q nm r with
         | (r2, Err e) => (r2, Err e)
         | (r2, Ok _) => (r2, Ok k)
         end) = Ok k.
  Proof.
    intros nm r k. unfold accumulate. rewrite Hreuse. destruct (reg_mem nm r); reflexivity.
  Qed.

  Lemma is_fields_settled : forall ss,
    Forall (fun f => settled (Err PDup) (infer_schema q (snd f))) ss ->
    settled (Err PDup) (is_fields (fun ns => infer_schema q (snd ns)) ss).
  Proof.
    induction 1 as [|[n s] ss [res [Hn Hres]] _ [rs [Hns Hrs]]]; cbn [snd] in *.
    - exists (Ok []). split; [discriminate | reflexivity].
    - exists (match res, rs with
              | Ok t, Ok fs => Ok ((n, n, t, false, false) :: fs)
              | Ok _, Err e | Err e, _ => Err e
              end).
      split; [destruct res, rs; congruence|].
      intros r. cbn [is_fields snd]. rewrite (settled_at _ res r Hres).
      destruct res; [|reflexivity].
      rewrite (settled_at _ rs _ Hrs). destruct rs; reflexivity.
  Qed.

  Lemma infer_settled : forall s, settled (Err PDup) (infer_schema q s).
  Proof.
    induction s using shape_ind2; try (apply settled_const; discriminate).
    - destruct k; apply settled_const; discriminate.
    - destruct b; apply settled_const; discriminate.
    - destruct IHs as [res [Hn Hres]].
      exists (match res with
              | Ok et => Ok (TList (match n with [] => str_List_ ++ sty_name et | _ => n end) et (shape_is_ptr s))
              | Err e => Err e
              end).
      split; [destruct res; congruence|].
      intros r. cbn [infer_schema]. rewrite (settled_at _ res r Hres).
      destruct res; [apply acc_snd | reflexivity].
    - destruct (is_fields_settled fs H) as [res [Hn Hres]].
      exists (match res, n with
              | Ok fl, [] => Err PInfer
              | Ok fl, _ => Ok (TStruct n fl SRMap)
              | Err e, _ => Err e
              end).
      split; [destruct res, n; congruence|].
      intros r. cbn [infer_schema]. rewrite (settled_at _ res r Hres).
      destruct res; [|reflexivity]. destruct n; [reflexivity | apply acc_snd].
  Qed.

  Lemma resolve_settled : forall a s, settled (Err PDup) (resolve q a s).
  Proof.
    intros a s. unfold resolve.
    destruct s; try (apply settled_const; discriminate);
      (destruct a; [apply settled_const; destruct (verify_compat t _); discriminate | apply infer_settled]).
  Qed.

  Lemma via_resolve : forall a s (k : sty -> outcome), (forall t, k t <> OFail PDup) ->
    settled (OFail PDup) (fun r => match resolve q a s r with
                                   | (r1, Err e) => (r1, OFail e)
                                   | (r1, Ok t) => (r1, k t)
                                   end).
  Proof.
    intros a s k Hk. destruct (resolve_settled a s) as [res [Hn Hres]].
    exists (match res with Ok t => k t | Err e => OFail e end).
    split; [destruct res; [apply Hk | congruence]|].
    intros r. rewrite (settled_at _ res r Hres). destruct res; reflexivity.
  Qed.

  Lemma step_settled : forall c, settled (OFail PDup) (fun r => step q n32 r c).
  Proof.
    destruct c; cbn [step].
    - exact (via_resolve a s (fun t => OView (view q LType t s g) (view q LRepr t s g)) (fun t => ltac:(discriminate))).
    - exact (via_resolve a s (fun t => OValue (asm q lv n32 t s (zero_of s) false d)) (fun t => ltac:(discriminate))).
    - exact (via_resolve a s (fun t => ORepr (view q LRepr t s g)) (fun t => ltac:(discriminate))).
    - (* Unmarshal resolves the schema a second time, with the same answer *)
      destruct (resolve_settled a s) as [res [Hn Hres]].
      exists (match res with Ok t => OValue (asm q LRepr n32 t s (zero_of s) false d) | Err e => OFail e end).
      split; [destruct res; congruence|].
      intros r. rewrite (settled_at _ res r Hres). destruct res as [t|e]; [|reflexivity].
      destruct (asm q LRepr n32 t s (zero_of s) false d); [|reflexivity].
      rewrite (settled_at _ (Ok t) _ Hres). reflexivity.
    - destruct (infer_gotype t) as [s|e] eqn:E; apply settled_const; [discriminate|].
      apply (infer_gotype_err t) in E. subst. discriminate.
  Qed.

  Theorem run_pure : forall cs r,
    run q n32 r cs = map (fun c => snd (step q n32 registry0 c)) cs.
  Proof.
    induction cs as [|c cs IH]; intros r; [reflexivity|].
    cbn [run map]. destruct (step_settled c) as [o [_ Ho]].
    f_equal; [|apply IH]. transitivity o; [apply Ho | symmetry; apply Ho].
  Qed.

  Theorem step_never_dup : forall c r, snd (step q n32 r c) <> OFail PDup.
  Proof. intros c r. destruct (step_settled c) as [o [Hn Ho]]. rewrite (Ho r). exact Hn. Qed.
End Pure.

Definition name_D : bytes := [68].
Definition shape_D : shape := SStruct name_D [([78], SInt I64)].     (* type D struct { N int64 } *)
Definition value_D : gv := GStruct [GInt 1%Z].

(* Wrap(&d, nil); Wrap(&d, nil): the second call panics with "duplicate type name: D", the first
   (the same call on the initial state) succeeded *)
Lemma rewrap_refuted : forall n32,
  exists c, run pinned n32 registry0 [c; c] <> map (fun c => snd (step pinned n32 registry0 c)) [c; c]
            /\ nth 1 (run pinned n32 registry0 [c; c]) (OFail XOther) = OFail PDup.
Proof.
  intros n32. exists (CWrap Inferred shape_D value_D). split; [|reflexivity].
  vm_compute. discriminate.
Qed.

(* one call is enough when a struct has two fields of the same unnamed slice type *)
Definition shape_two_lists : shape :=
  SStruct [67] [([88], SSlice [] SString); ([89], SSlice [] SString)].

Example rewrap_repaired : forall n32,
  let c := CWrap Inferred shape_D value_D in
  run repaired n32 registry0 [c; c] =
  [OView (Ok (DMap [([78], DInt 1%Z)])) (Ok (DMap [([78], DInt 1%Z)]));
   OView (Ok (DMap [([78], DInt 1%Z)])) (Ok (DMap [([78], DInt 1%Z)]))].
Proof. reflexivity. Qed.
