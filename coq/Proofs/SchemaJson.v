(* Proofs/SchemaJson.v — the typed layer over the concrete DAG-JSON codec: the bytes round trip of C08 for
   json_enc / json_decode of Codec/DagJson.v, from the codec facts of Proofs/JsonPerm.v (C04's round trip and
   order independence) and SchemaPerm.rebuild_peq, step for step as Proofs/SchemaCbor.v.  A1, A2 (strconv float
   text) and CID (CID text round trip) remain hypotheses. *)
Require Import IP.Base.Bytes IP.DM.Value IP.Codec.DagJson.
Require Import IP.Schema.Types IP.Schema.View IP.Schema.Conform IP.Schema.Sem IP.Schema.Perm.
Require Import IP.Proofs.BytesFacts IP.Proofs.CborEnc.
Require Import IP.Proofs.SchemaBase IP.Proofs.SchemaBuild IP.Proofs.SchemaRepr IP.Proofs.SchemaRound
  IP.Proofs.SchemaTop IP.Proofs.SchemaPerm IP.Proofs.SchemaRefute.
Require Import IP.Proofs.JsonEnc IP.Proofs.JsonSort IP.Proofs.JsonMain IP.Proofs.JsonPerm.
Open Scope N_scope.

Theorem dagjson_enc_peq fmt_float cid_str d d' : dm_wf d = true -> peq d d' ->
  json_enc fmt_float cid_str d = json_enc fmt_float cid_str d'.
Proof. intros Hw Hp. apply json_enc_perm; [apply dm_wf_keys_nodup; exact Hw|apply peq_perm_eq; exact Hp]. Qed.

Section SchemaJson.
  Variable fmt_float : N -> bytes.
  Variable parse_float : bytes -> option N.
  Variable cid_str : bytes -> bytes.
  Variable cid_parse : bytes -> option bytes.
  Variable cid_ok : bytes -> bool.
  Hypothesis HA1 : A1 fmt_float parse_float.
  Hypothesis HA2 : A2 fmt_float.
  Hypothesis HCID : CID cid_str cid_parse cid_ok.

  Notation json_bytes := (json_enc fmt_float cid_str).
  Notation jdec := (json_decode parse_float cid_parse).
  Notation within := (json_within cid_ok).

  (* the abstract-codec hypotheses of C08_bytes hold of dag-json on every tree in its domain *)
  Theorem dagjson_dec_enc d : within d -> exists d', jdec (json_bytes d) = Ok (d', []) /\ peq d d'.
  Proof.
    intros Hw. exists (lexsort d). split; [exact (json_decode_encode fmt_float parse_float cid_str cid_parse cid_ok HA1 HA2 HCID d Hw)|]. apply perm_eq_peq. apply pe_sort_maps.
  Qed.

  (* C08 over dag-json (C08_bytes_dagjson).  The one premise besides A1, A2, CID is that the representation
     tree is in dag-json's domain (json_within): finite floats none of which is an integer below 1e21
     (refmt's emitFloat, the known C04 finding), valid UTF-8 strings and keys, int64 ints, defined CIDs, no
     reserved shape inside Any content, decoder depth <= 1024. *)
  Theorem typed_dagjson_roundtrip e t v :
    wf t = true -> has_type t v = true ->
    within (repr_spec t v) ->
    exists d' v', jdec (json_bytes (repr_spec t v)) = Ok (d', []) /\
                  rbuild e qoff t d' = BOk v' /\ veq v v' /\ has_type t v' = true /\
                  repr e qoff t v' = Some (repr_spec t v') /\
                  json_bytes (repr_spec t v') = json_bytes (repr_spec t v).
  Proof.
    intros Hwf Hh Hw.
    destruct (dagjson_dec_enc _ Hw) as (d' & Hdec & Hp).
    destruct (rebuild_peq e qoff t v d' (strict_qoff e) (views_off_qoff e) Hwf Hh Hp) as (v' & Hb & Hv & Hh' & Hr & Hp').
    exists d', v'. repeat split; auto. symmetry. apply dagjson_enc_peq; auto. now apply repr_spec_wf.
  Qed.
End SchemaJson.
