(* Proofs/NodeC12.v — C12 for the basicnode assemblers: a repeated key is reported by the call that
   supplies it and leaves the assembler as it was (here the state; the equation of the two runs is
   C12_dup_rollback in Props/C12.v), and a script with every kind of injection. *)
Require Import IP.Base.Bytes IP.DM.Value IP.Node.Basic IP.Node.Protocol IP.Proofs.NodeBuild.
Open Scope N_scope.

Corollary dup_rollback_state : forall q s0 pre_ops rej post tr t m r k,
  run_tol q s0 pre_ops = (tr, Some (SOpen (FMap t m MaInitial :: r))) ->
  mem_key k m = true -> DupCall k rej ->
  snd (run_tol q s0 (pre_ops ++ map fst rej ++ post)) = snd (run_tol q s0 (pre_ops ++ post)).
Proof.
  intros. rewrite !run_tol_app, H, (runs_more q _ rej _ (dup_call_noop q t m r k rej H1 H0)). reflexivity.
Qed.

(* satisfiability of the hypotheses *)
Example injected_script :
  AScript (DMap [([97], DInt 1); ([98], DList [DNull])])
    [ ok (BeginMap 7);
      ok (AssembleEntry [97]); ok (AssignInt 1);
      (AssembleEntry [97], SErr ERepeatedKey);
      ok AssembleKey; (AssignInt 5, SErr EWrongKind); (AssignString [97], SErr ERepeatedKey);
      ok AssembleKey; (AssignNode (NInt 3), SErr EOther); ok (AssignString [98]); ok AssembleValue;
        ok (BeginList (-4)); ok AssembleValue; ok AssignNull; ok Finish;
      ok Finish ].
Proof.
  apply AS_map.
  apply (MB_entry AScript [] [97] (DInt 1) _ [ok (AssignInt 1)]); [simpl; tauto|constructor|].
  apply (MB_dup_entry AScript [[97]] [97]); [simpl; auto|].
  apply (MB_dup_key AScript [[97]] [97] _ [(AssignInt 5, SErr EWrongKind)] (AssignString [97])); [simpl; auto| | constructor |].
  { constructor; [|constructor]. apply KT_wrong. reflexivity. }
  apply (MB_key AScript [[97]] [98] (DList [DNull]) [] [(AssignNode (NInt 3), SErr EOther)] (AssignString [98])
           [ok (BeginList (-4)); ok AssembleValue; ok AssignNull; ok Finish]).
  - simpl. intros [H|H]; [discriminate|auto].
  - constructor; [|constructor]. apply (KT_node (NInt 3) EWrongKind). reflexivity.
  - constructor.
  - apply AS_list. apply (LB_value AScript DNull [] [ok AssignNull]); constructor.
  - constructor.
Qed.
