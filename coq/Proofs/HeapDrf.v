(* Proofs/HeapDrf.v — data-race freedom from disjoint footprints (the classical theorem), for the
   goroutine model of Heap/Footprint.v.  If no thread's writes (stores and allocations, as logged
   when it runs ALONE from the initial heap) touch an address in another thread's footprint,
   then in EVERY interleaving of single accesses every thread
   performs exactly the accesses it performs alone — so no two threads are ever about to make
   conflicting accesses, and each thread that finishes has the result it has alone.
   Proof: a run depends on the heap only through the cells its log names, the addresses it allocates among them, as
   long as its arena has not become shorter ([run_local]); so at every point of an interleaving each thread, run
   alone from the shared heap as it is then, still makes the rest of its solo accesses ([sim1]): an access of another
   thread that changes the heap, an allocation too, lies in that thread's write footprint, hence outside them, and
   arenas only grow.  Nothing is asked of the arenas; [drf_check] wants them distinct, and empty at the start. *)
Require Import IP.Base.Bytes IP.Heap.GoMem IP.Heap.Footprint IP.Proofs.HeapMem.
From Coq Require Import List Arith Bool Lia.
Import ListNotations.
Local Open Scope nat_scope.

Lemma wfp_writes : forall l, wfp l = writes l.
Proof.
  unfold wfp. induction l as [|[a|a|a] l IH]; cbn; [reflexivity | exact IH | |]; rewrite IH; reflexivity.
Qed.

Section Drf.
  Variables V R : Type.
  Notation heap := (heap V).
  Notation thread := (thread V R).

  Definition premise (h0 : heap) (ts : list thread) : Prop :=
    forall i j ti tj, i <> j -> nth_error ts i = Some ti -> nth_error ts j = Some tj ->
      forall a, In a (wfp (alone_log h0 ti)) -> ~ In a (fp (alone_log h0 tj)).

  (* decidable, so that the refuted instances of Props/C20.v exhibit their race by one evaluation *)
  Definition racy_at (i j : nat) (c : conf V R) : bool :=
    match nth_error (snd c) i, nth_error (snd c) j with
    | Some ti, Some tj =>
        match next_ev ti (fst c), next_ev tj (fst c) with
        | Some ei, Some ej => conflict ei ej
        | _, _ => false
        end
    | _, _ => false
    end.

  Lemma racy_at_sound : forall i j c, i <> j -> racy_at i j c = true -> racy c.
  Proof.
    unfold racy_at; intros i j c Hij H.
    destruct (nth_error (snd c) i) as [ti|] eqn:Ei; [|discriminate].
    destruct (nth_error (snd c) j) as [tj|] eqn:Ej; [|discriminate].
    destruct (next_ev ti (fst c)) as [ei|] eqn:Ni; [|discriminate].
    destruct (next_ev tj (fst c)) as [ej|] eqn:Nj; [|discriminate].
    exists i, j, ti, tj, ei, ej. auto 7.
  Qed.

  Lemma disjoint_b_sound : forall xs ys, disjoint_b xs ys = true -> forall a, In a xs -> ~ In a ys.
  Proof.
    unfold disjoint_b; intros xs ys H a Ha Hin. rewrite forallb_forall in H. specialize (H a Ha).
    apply negb_true_iff in H. assert (existsb (addr_eqb a) ys = true); [|congruence].
    apply existsb_exists. exists a. split; [assumption | apply addr_eqb_refl].
  Qed.

  Lemma nodup_b_sound : forall l, nodup_b l = true -> NoDup l.
  Proof.
    induction l as [|x l IH]; cbn; intros H; constructor.
    - apply andb_true_iff in H. destruct H as [H _]. apply negb_true_iff in H.
      intros Hin. assert (existsb (Nat.eqb x) l = true); [|congruence].
      apply existsb_exists. exists x. split; [assumption | apply Nat.eqb_refl].
    - apply andb_true_iff in H. apply IH. tauto.
  Qed.

  Lemma others_ok_sound : forall h0 w i ts k, others_ok V R h0 w i ts k = true ->
    forall j tj, nth_error ts j = Some tj -> i <> k + j -> forall a, In a w -> ~ In a (fp (alone_log h0 tj)).
  Proof.
    induction ts as [|t ts IH]; cbn; intros k H j tj Hj Hn a Ha; [destruct j; discriminate|].
    apply andb_true_iff in H. destruct H as [H1 H2]. destruct j as [|j]; cbn in Hj.
    - inversion Hj; subst. apply orb_true_iff in H1. destruct H1 as [H1|H1].
      + apply Nat.eqb_eq in H1. lia.
      + eapply disjoint_b_sound; eauto.
    - eapply (IH (S k)); eauto. lia.
  Qed.

  Lemma all_ok_sound : forall h0 all ts i, all_ok V R h0 all ts i = true ->
    forall n ti, nth_error ts n = Some ti ->
    forall j tj, nth_error all j = Some tj -> i + n <> j -> forall a, In a (wfp (alone_log h0 ti)) -> ~ In a (fp (alone_log h0 tj)).
  Proof.
    induction ts as [|t ts IH]; cbn; intros i H n ti Hn j tj Hj Hne a Ha; [destruct n; discriminate|].
    apply andb_true_iff in H. destruct H as [H1 H2]. destruct n as [|n]; cbn in Hn.
    - inversion Hn; subst. eapply (others_ok_sound _ _ _ _ 0 H1 j); eauto. lia.
    - eapply (IH (S i)); eauto. lia.
  Qed.

  Lemma drf_check_sound : forall h0 ts, drf_check h0 ts = true -> premise h0 ts.
  Proof.
    unfold drf_check; intros h0 ts H. apply andb_true_iff in H. destruct H as [_ H3].
    intros i j ti tj Hij Hi Hj a Ha. eapply (all_ok_sound _ _ _ 0 H3 i ti Hi j tj Hj); eauto.
  Qed.

  Lemma run_step1 : forall (p : prog V R) ar h p' h1 e o hf l,
    step1 ar p h = Some (p', h1, e) -> run ar p h = (o, hf, l) ->
    exists l', l = e :: l' /\ run ar p' h1 = (o, hf, l').
  Proof.
    intros p ar h p' h1 e o hf l Hs Hr. destruct p as [x|a k|a c k|c k|]; cbn in *; try discriminate.
    - destruct (hget h a) as [c|]; inversion Hs; subst.
      + destruct (run ar (k c) h1) as [[o1 h2] l1]. inversion Hr; subst. eauto.
      + inversion Hr; subst. eauto.
    - destruct (hget h a) as [c0|]; inversion Hs; subst.
      + destruct (run ar p' (hset h a c)) as [[o1 h2] l1]. inversion Hr; subst. eauto.
      + inversion Hr; subst. eauto.
    - destruct (halloc ar h c) as [h2 a] eqn:Ea. inversion Hs; subst.
      destruct (run ar (k a) h1) as [[o1 h3] l1]. inversion Hr; subst. eauto.
  Qed.

  Lemma run_local : forall A (p : prog V A) ar h o h' l, run ar p h = (o, h', l) ->
    forall g, (forall a, In a (fp l) -> hgetv g a = hgetv h a) ->
    length (nth ar h []) <= length (nth ar g []) ->
    exists g', run ar p g = (o, g', l).
  Proof.
    intros * Hr. apply run_Run in Hr.
    induction Hr as [| | a k h c o h' l G Hr IH | a k h G | a c k h c0 o h' l G Hr IH | a c k h G | c k h h1 a o h' l Ea Hr IH];
      intros g Hag Hlen; cbn in *; try (eexists; reflexivity);
      try (assert (Ga : hget g a = hget h a) by (unfold hget; rewrite Hag by auto; reflexivity); rewrite Ga, G).
    - destruct (IH g) as [g' E]; eauto. rewrite E. eauto.
    - eauto.
    - destruct (IH (hset g a c)) as [g' E]; [| rewrite !hset_len; assumption | rewrite E; eauto].
      intros x Hx. destruct (addr_dec a x) as [<-|Hn]; [|rewrite !hgetv_hset_other by assumption; auto].
      apply hget_some in G. destruct G as [v G]. rewrite (hgetv_hset_same _ _ _ _ _ _ G).
      eapply hgetv_hset_same. rewrite Hag by auto. exact G.
    - eauto.
    - destruct (halloc ar g c) as [g1 a'] eqn:Eg.
      (* [a] is in the log and free in [h], hence free in [g]: the arena of [g], no shorter, is exactly as long *)
      assert (a' = a).
      { pose proof (Hag a (or_introl eq_refl)) as Fa. rewrite (proj2 (hgetv_halloc_new _ _ _ _ _ _ Ea)) in Fa.
        unfold halloc in *. inversion Ea; inversion Eg; subst. apply nth_error_None in Fa. cbn in Fa. f_equal. lia. }
      subst a'. destruct (IH g1) as [g' E]; [| | rewrite E; eauto].
      + intros x Hx. destruct (addr_dec x a) as [->|Hn].
        * rewrite (proj1 (hgetv_halloc_new _ _ _ _ _ _ Eg)), (proj1 (hgetv_halloc_new _ _ _ _ _ _ Ea)). reflexivity.
        * rewrite (hgetv_halloc_old _ _ _ _ _ _ x Eg), (hgetv_halloc_old _ _ _ _ _ _ x Ea) by assumption. auto.
      + rewrite (halloc_len _ _ _ _ _ _ ar Eg), (halloc_len _ _ _ _ _ _ ar Ea), Nat.eqb_refl. lia.
  Qed.

  Lemma hgetv_hset_any : forall (h : heap) a c x, x <> a -> hgetv (hset h a c) x = hgetv h x.
  Proof. intros. apply hgetv_hset_other. congruence. Qed.

  Lemma step1_frame : forall (p : prog V R) ar h p' h1 e, step1 ar p h = Some (p', h1, e) ->
    forall x, x <> ev_addr e -> hgetv h1 x = hgetv h x.
  Proof.
    intros p ar h p' h1 e Hs x Hx. destruct p as [y|a k|a c k|c k|]; cbn in *; try discriminate.
    - destruct (hget h a); inversion Hs; subst; reflexivity.
    - destruct (hget h a); inversion Hs; subst; [|reflexivity]. apply hgetv_hset_other. cbn in Hx. congruence.
    - destruct (halloc ar h c) as [h2 a] eqn:Ea. inversion Hs; subst. cbn in Hx. eapply hgetv_halloc_old; eauto.
  Qed.

  Lemma step1_read_same : forall (p : prog V R) ar h p' h1 e, step1 ar p h = Some (p', h1, e) ->
    ev_is_write e = false -> h1 = h.
  Proof.
    intros p ar h p' h1 e Hs Hw. destruct p as [y|a k|a c k|c k|]; cbn in *; try discriminate.
    - destruct (hget h a); inversion Hs; subst; reflexivity.
    - destruct (hget h a); inversion Hs; subst; discriminate.
    - destruct (halloc ar h c) as [h2 a]. inversion Hs; subst. discriminate.
  Qed.

  Lemma step1_grows : forall (p : prog V R) ar h p' h1 e, step1 ar p h = Some (p', h1, e) ->
    forall r, length (nth r h []) <= length (nth r h1 []).
  Proof.
    intros p ar h p' h1 e Hs r. destruct p as [y|a k|a c k|c k|]; cbn in *; try discriminate.
    - destruct (hget h a); inversion Hs; subst; reflexivity.
    - destruct (hget h a); inversion Hs; subst; [rewrite hset_len|]; reflexivity.
    - destruct (halloc ar h c) as [h2 a] eqn:Ea. inversion Hs; subst.
      rewrite (halloc_len _ _ _ _ _ _ r Ea). destruct (r =? ar); lia.
  Qed.

  Lemma in_wfp : forall e l, In e l -> ev_is_write e = true -> In (ev_addr e) (wfp l).
  Proof. intros. unfold wfp. apply in_map. apply filter_In. auto. Qed.

  Section Sim.
    Variables (h0 : heap) (ts0 : list thread).
    Hypothesis HP : premise h0 ts0.

    Definition sim1 (H : heap) (t0 t : thread) : Prop :=
      exists pre rest hf, alone_log h0 t0 = pre ++ rest /\ run (t_ar t) (t_prog t) H = (alone_out h0 t0, hf, rest).

    Definition sim (c : conf V R) : Prop :=
      forall i t, nth_error (snd c) i = Some t -> exists t0, nth_error ts0 i = Some t0 /\ sim1 (fst c) t0 t.

    Lemma sim_init : sim (h0, ts0).
    Proof.
      intros i t Hi. cbn [fst snd] in *. exists t. split; [exact Hi|].
      unfold sim1, alone_log, alone_out, alone. destruct (run (t_ar t) (t_prog t) h0) as [[o hf] l].
      exists [], l, hf. split; reflexivity.
    Qed.

    Lemma sim1_next : forall H t0 t, sim1 H t0 t ->
      forall p' H1 e, step1 (t_ar t) (t_prog t) H = Some (p', H1, e) ->
      In e (alone_log h0 t0) /\
      sim1 H1 t0 {| t_ar := t_ar t; t_prog := p' |}.
    Proof.
      intros H t0 t (pre & rest & hf & Hal & Hrun) p' H1 e Hs.
      destruct (run_step1 _ _ _ _ _ _ _ _ _ Hs Hrun) as (rest' & -> & Hrun').
      split; [rewrite Hal; apply in_or_app; right; left; reflexivity|].
      exists (pre ++ [e]), rest', hf. rewrite <- app_assoc. auto.
    Qed.

    Lemma sim_step : forall c k c', sim c -> tstep k c = Some c' -> sim c'.
    Proof.
      intros [H ts] k c' Hs Hk. unfold tstep in Hk.
      destruct (nth_error ts k) as [tk|] eqn:Ek; [|discriminate].
      destruct (step1 (t_ar tk) (t_prog tk) H) as [[[p' H1] e]|] eqn:Es; [|discriminate].
      inversion Hk; subst c'. clear Hk. cbn [fst snd] in *.
      destruct (Hs k tk Ek) as (t0k & Hk0 & Sk).
      destruct (sim1_next H t0k tk Sk p' H1 e Es) as [Hin Hsk].
      intros i t Hi. cbn [fst snd] in *.
      destruct (Nat.eq_dec k i) as [<-|Hne].
      - rewrite nth_error_upd_same in Hi by (apply nth_error_Some; congruence). inversion Hi; subst t. eauto.
      - (* another thread: if the access of k changed the heap it is in k's write footprint, so outside what
           thread i has still to access *)
        rewrite nth_error_upd_other in Hi by assumption.
        destruct (Hs i t Hi) as (t0 & Hi0 & pre & rest & hf & Hal & Hrun).
        exists t0. split; [assumption|].
        destruct (run_local _ _ _ _ _ _ _ Hrun H1) as [hf1 E1]; [| |exists pre, rest, hf1; auto].
        + intros a Ha. destruct (ev_is_write e) eqn:W; [|rewrite (step1_read_same _ _ _ _ _ _ Es W); reflexivity].
          apply (step1_frame _ _ _ _ _ _ Es). intros ->.
          apply (HP k i t0k t0 Hne Hk0 Hi0 (ev_addr e)); [apply in_wfp; assumption|].
          rewrite Hal. unfold fp in *. rewrite map_app. apply in_or_app. right. assumption.
        + apply (step1_grows _ _ _ _ _ _ Es).
    Qed.

    Lemma sim_sched : forall s c, sim c -> sim (sched_run s c).
    Proof.
      induction s as [|i s IH]; cbn; intros c Hc; [assumption|].
      destruct (tstep i c) as [c'|] eqn:E; [apply IH; eapply sim_step; eauto | apply IH; assumption].
    Qed.

    Lemma sim_not_racy : forall c, sim c -> ~ racy c.
    Proof.
      intros [H ts] Hs (i & j & ti & tj & ei & ej & Hij & Hi & Hj & Ni & Nj & Hc). cbn [fst snd] in *.
      destruct (Hs i ti Hi) as (t0i & Hi0 & Si0). destruct (Hs j tj Hj) as (t0j & Hj0 & Sj0).
      unfold next_ev in Ni, Nj.
      destruct (step1 (t_ar ti) (t_prog ti) H) as [[[pi Hi1] ei']|] eqn:Si; [|discriminate]. inversion Ni; subst ei'.
      destruct (step1 (t_ar tj) (t_prog tj) H) as [[[pj Hj1] ej']|] eqn:Sj; [|discriminate]. inversion Nj; subst ej'.
      destruct (sim1_next H t0i ti Si0 _ _ _ Si) as [Ini _].
      destruct (sim1_next H t0j tj Sj0 _ _ _ Sj) as [Inj _].
      unfold conflict in Hc. apply andb_true_iff in Hc. destruct Hc as [Ha Hw]. apply addr_eqb_eq in Ha.
      apply orb_true_iff in Hw. destruct Hw as [Hw|Hw].
      - apply (HP i j t0i t0j Hij Hi0 Hj0 (ev_addr ei)).
        + apply in_wfp; assumption.
        + rewrite Ha. unfold fp. apply in_map. assumption.
      - apply (HP j i t0j t0i (not_eq_sym Hij) Hj0 Hi0 (ev_addr ej)).
        + apply in_wfp; assumption.
        + rewrite <- Ha. unfold fp. apply in_map. assumption.
    Qed.

    Lemma sim_finished : forall c, sim c -> forall i t o, nth_error (snd c) i = Some t -> finished t = Some o ->
      exists t0, nth_error ts0 i = Some t0 /\ alone_out h0 t0 = o.
    Proof.
      intros [H ts] Hs i t o Hi Hf. cbn [fst snd] in *.
      destruct (Hs i t Hi) as (t0 & Hi0 & pre & rest & hf & Hal & Hrun). exists t0. split; [assumption|].
      unfold finished in Hf.
      destruct (t_prog t); try discriminate; cbn in Hrun; inversion Hrun; inversion Hf; subst; congruence.
    Qed.
  End Sim.

  Theorem drf_of_premise : forall (h0 : heap) (ts : list thread), premise h0 ts ->
    race_free (h0, ts) /\
    forall s i t o, nth_error (snd (sched_run s (h0, ts))) i = Some t -> finished t = Some o ->
      exists t0 : thread, nth_error ts i = Some t0 /\ alone_out h0 t0 = o.
  Proof.
    intros h0 ts HP. split.
    - intros s. apply (sim_not_racy h0 ts HP). apply sim_sched; [assumption | apply sim_init; assumption].
    - intros s i t o Hi Hf. eapply (sim_finished h0 ts); eauto. apply sim_sched; [assumption | apply sim_init; assumption].
  Qed.

End Drf.
