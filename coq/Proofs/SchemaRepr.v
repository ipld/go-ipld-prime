(* Proofs/SchemaRepr.v — the views of C08: with the view defects off, the representation view the impl-model
   computes is the canonical view of the specified representation ([view_step], [views_ok]; the step needs the
   children's representations to have the kinds their strategies fix, which they have because they conform:
   SchemaRound.repr_kinds), and the type-level view is [tview_spec] ([tview_ok]). *)
Require Import IP.Base.Bytes IP.DM.Value IP.Schema.Types IP.Schema.View IP.Schema.Conform IP.Schema.Sem
  IP.Proofs.SchemaBase IP.Proofs.SchemaRound.
From Coq Require Import Lia.
Open Scope N_scope.

Definition views_off (e : engine) (q : quirks) : Prop :=
  on e q q_listpairs_iter_index = false /\ on e q q_kinded_enum_kind = false /\
  on e q q_kinded_len = false /\ on e q q_union_any = false.

Lemma views_off_qoff e : views_off e qoff.
Proof. destruct e; repeat split. Qed.

Lemma indexed_map {A B} (f : A -> B) l i : indexed i (map f l) = map (fun x => (fst x, f (snd x))) (indexed i l).
Proof. revert i; induction l as [|x l IH]; intros i; cbn; auto. now rewrite IH. Qed.

Lemma map_snd_indexed {A} (l : list A) i : map snd (indexed i l) = l.
Proof. revert i; induction l as [|x l IH]; intros i; cbn; auto. now rewrite IH. Qed.

Lemma filter_indexed {A} (p : A -> bool) l i :
  map snd (filter (fun ix => p (snd ix)) (indexed i l)) = filter p l.
Proof.
  revert i; induction l as [|x l IH]; intros i; cbn; auto.
  destruct (p x); cbn; now rewrite IH.
Qed.

(* beyond reprEnd every slot is absent *)
Lemma filter_upto_end {F} (fs : list F) (vs : list (maybe tv)) :
  filter (fun x => negb (is_absent (snd x))) (firstn (repr_end vs) (zip fs vs)) =
  filter (fun x => negb (is_absent (snd x))) (zip fs vs).
Proof.
  revert fs; induction vs as [|v vs IH]; intros fs; destruct fs as [|f fs]; cbn [zip]; auto.
  { now rewrite firstn_nil. }
  cbn. destruct (Nat.eqb (repr_end vs) 0) eqn:E0.
  - apply Nat.eqb_eq in E0. destruct (is_absent v) eqn:Ea; cbn.
    + specialize (IH fs). rewrite E0 in IH. cbn in IH. exact IH.
    + rewrite Ea. cbn. f_equal. apply IH.
  - cbn. destruct (negb (is_absent v)); [f_equal|]; apply IH.
Qed.

Lemma all_absent_end (ws : list (maybe tv)) : forallb (fun b => b) (map is_absent ws) = true -> repr_end ws = O.
Proof.
  induction ws as [|w ws IH]; cbn; auto. rewrite andb_true_iff. intros [Hw H]. now rewrite (IH H), Hw.
Qed.

Lemma firstn_end_present {F} (fs : list F) (vs : list (maybe tv)) :
  trailing_opt (map is_absent vs) = true ->
  firstn (repr_end vs) (zip fs vs) = filter (fun x => negb (is_absent (snd x))) (zip fs vs).
Proof.
  revert fs; induction vs as [|v vs IH]; intros fs Ht; destruct fs as [|f fs]; cbn [zip]; auto.
  - now rewrite firstn_nil.
  - cbn. cbn in Ht. destruct (is_absent v) eqn:Ea.
    + rewrite (all_absent_end vs Ht). cbn. symmetry. exact (all_absent_present fs vs Ht).
    + cbn. rewrite andb_false_r. cbn. f_equal. apply IH. exact Ht.
Qed.

Lemma repr_end_present {F} (fs : list F) (vs : list (maybe tv)) :
  length vs = length fs -> trailing_opt (map is_absent vs) = true ->
  repr_end vs = length (filter (fun x : F * maybe tv => negb (is_absent (snd x))) (zip fs vs)).
Proof.
  intros Hl Ht. rewrite <- (firstn_end_present fs vs Ht), firstn_length, zip_length by auto.
  clear Ht. rewrite <- Hl. clear. symmetry. apply Nat.min_l.
  induction vs as [|v vs IH]; cbn; auto. destruct (Nat.eqb (repr_end vs) 0 && is_absent v); cbn; lia.
Qed.

Lemma count_absent_present {F} (fs : list F) (vs : list (maybe tv)) :
  length vs = length fs ->
  (Z.of_nat (length fs) - Z.of_nat (length (filter is_absent vs)))%Z =
  Z.of_nat (length (filter (fun x : F * maybe tv => negb (is_absent (snd x))) (zip fs vs))).
Proof.
  revert fs; induction vs as [|v vs IH]; intros fs H; destruct fs as [|f fs]; try discriminate; auto.
  cbn [length] in H. specialize (IH fs ltac:(lia)). cbn [zip filter snd length].
  destruct (is_absent v); cbn [negb length]; lia.
Qed.

Section ViewStep.
  Variables (e : engine) (q : quirks).
  Hypothesis Hv : views_off e q.
  Variables (hs : ty -> tv -> bool) (rp : ty -> tv -> dm) (rv : ty -> tv -> ov).
  Hypothesis Hk : kinds_ok hs rp.
  Hypothesis Hrec : forall c v, hs c v = true -> wf c = true -> rv c v = ov_of_dm (rp c v).

  Lemma rv_maybe_ok opt nul c m :
    wf c = true -> has_maybe hs opt nul c m = true -> is_absent m = false ->
    rv_maybe rv c m = ov_of_dm (repr_maybe rp c m).
  Proof.
    intros Hc Hh Ha. destruct m; cbn in *; try discriminate; auto.
  Qed.

  Lemma has_fields_present fs vs :
    Forall (fun f => wf (snd f) = true) fs -> has_fields hs fs vs = true ->
    forall x, In x (present fs vs) ->
      rv_maybe rv (snd (fst x)) (snd x) = ov_of_dm (repr_maybe rp (snd (fst x)) (snd x)).
  Proof.
    intros Hwf Hh x Hx. apply filter_In in Hx as [Hx Ha]. apply negb_true_iff in Ha.
    destruct (has_fields_all hs fs vs Hwf Hh x Hx) as [Hm Hc]. eapply rv_maybe_ok; eauto.
  Qed.

  Lemma view_step t v :
    has_step hs rp t v = true -> wf t = true ->
    rview_step e q rv t v = ov_of_dm (repr_step rp t v).
  Proof.
    intros Hh Hwf. destruct Hv as (Hli & Hke & Hkl & Hua).
    destruct t; destruct v; cbn [has_step] in Hh; try discriminate; try (destruct w; discriminate);
      try reflexivity.
    - cbn [rview_step repr_step ov_of_dm]. rewrite !map_length. f_equal. f_equal.
      rewrite map_map. apply map_ext_in. intros x Hx.
      rewrite forallb_forall in Hh. specialize (Hh x Hx).
      destruct x; cbn in *; try discriminate; auto.
    - cbn [rview_step repr_step ov_of_dm]. rewrite !map_length. f_equal.
      rewrite map_map. apply map_ext_in. intros x Hx. cbn. f_equal.
      apply andb_true_iff in Hh as [_ Hh]. rewrite forallb_forall in Hh. specialize (Hh x Hx).
      destruct (snd x); cbn in *; try discriminate; auto.
    - destruct (wf_struct_inv _ _ Hwf) as (_ & Hch & Hloc).
      apply andb_true_iff in Hh as [Hf Hr].
      pose proof (has_fields_length _ _ _ Hf) as Hlen.
      pose proof (has_fields_present fs fs0 Hch Hf) as Hp. unfold present in Hp.
      destruct r; cbn [rview_step repr_step ov_of_dm].
      + unfold len_minus_absents, fields_upto_end, present. rewrite filter_upto_end.
        rewrite (count_absent_present fs fs0 Hlen), !map_length. f_equal.
        rewrite map_map. apply map_ext_in. intros x Hx. cbn. f_equal. apply Hp; auto.
      + unfold fields_upto_end, present. rewrite (firstn_end_present fs fs0 Hr), (repr_end_present fs fs0 Hlen Hr).
        rewrite !map_length. f_equal. f_equal. rewrite map_map. apply map_ext_in. intros x Hx. apply Hp; auto.
      + (* every field is a present string *)
        destruct Hloc as (_ & _ & Hj). rewrite Forall_forall in Hj.
        rewrite (mapM_ext _ (fun x => Some (str_of (repr_maybe rp (snd (fst x)) (snd x))))), mapM_Some;
          [reflexivity|].
        intros x Hx. destruct (has_fields_all hs fs fs0 Hch Hf x Hx) as [Hm Hc].
        destruct (Hj (fst x) (zip_In_fst _ _ _ Hx)) as (Ho & Hn & Hks). rewrite Ho, Hn in Hm.
        destruct (snd x) as [| |w]; cbn in Hm; try discriminate.
        cbn [rv_maybe repr_maybe]. rewrite (Hrec _ _ Hm Hc), (kinds_string _ _ _ _ Hk Hm Hc Hks). reflexivity.
      + rewrite Hli. unfold len_minus_absents, fields_upto_end, present.
        rewrite (count_absent_present fs fs0 Hlen), !map_length. f_equal. f_equal.
        rewrite map_map.
        rewrite <- (filter_upto_end fs fs0).
        rewrite <- (filter_indexed (fun x => negb (is_absent (snd x))) (firstn (repr_end fs0) (zip fs fs0)) 0%Z).
        rewrite !map_map. apply map_ext_in. intros ix Hix. cbn.
        unfold pair_view. f_equal. f_equal. f_equal. f_equal.
        apply Hp. rewrite <- (filter_upto_end fs fs0).
        rewrite <- (filter_indexed (fun x => negb (is_absent (snd x))) (firstn (repr_end fs0) (zip fs fs0)) 0%Z).
        apply in_map. exact Hix.
    - destruct (nth_error ms i) as [m|] eqn:En; [|discriminate].
      destruct (wf_member _ _ _ _ Hwf En) as [Hc Hm].
      cbn [rview_step repr_step]. rewrite En.
      assert (Hmv : member_view e q rv (snd m) v = ov_of_dm (rp (snd m) v)).
      { unfold member_view. rewrite Hua. destruct (snd m); apply Hrec; auto. }
      rewrite Hmv. destruct r.
      + reflexivity.
      + rewrite Hke, Hkl. destruct (snd m); try reflexivity. destruct int_repr; reflexivity.
      + now rewrite (kinds_string _ _ _ _ Hk Hh Hc (proj1 Hm)).
    - cbn [rview_step repr_step]. destruct (existsb_find _ _ Hh) as [x [Hx _]]. rewrite Hx.
      destruct int_repr; reflexivity.
  Qed.
End ViewStep.

Theorem views_ok e q : views_off e q ->
  forall n t v, has_f n t v = true -> wf t = true -> rview_f e q n t v = ov_of_dm (repr_f n t v).
Proof.
  intros Hv. induction n as [|n IH]; intros t v Hh Hwf; [discriminate|].
  unfold rview_f, repr_f. cbn [fuel_rec]. cbn [has_f] in Hh.
  apply (view_step e q Hv (has_f n) (repr_f n)); auto. apply repr_kinds.
Qed.

(* the impl-model reads every field, absent ones as Absent *)
Theorem tview_ok e q : on e q q_union_any = false ->
  forall n t v, tvw_f e q n t v = tview_f n t v.
Proof.
  intros Hua. induction n as [|n IH]; intros t v; [reflexivity|].
  unfold tvw_f, tview_f in *. cbn [fuel_rec].
  destruct t; destruct v; try reflexivity; cbn.
  - f_equal. f_equal. apply map_ext. intros x. destruct x; cbn; auto.
  - f_equal. apply map_ext. intros x. f_equal. destruct (snd x); cbn; auto.
  - f_equal. apply map_ext. intros x. f_equal. destruct (snd x); cbn; auto.
  - destruct (nth_error ms i); auto. rewrite Hua. f_equal. f_equal. f_equal. destruct (snd p); auto.
Qed.
