(* Proofs/HeapScript.v — the clients of coq/Heap/Script.v (dump, encode, walk, Copy, FocusedTransform,
   the value producers, one script step, the re-dump of all registers) do nothing to the heap but
   make API calls: each is a finite sequence of [xs] steps.  Hence, when the legality flag they carry
   is still true at the end, the state they reach is the state of a Legal history of API calls
   ([steps_legal_history]), and C11's theorems apply to everything the harness runs. *)
Require Import IP.Base.Bytes IP.DM.Value IP.Heap.GoMem IP.Heap.BasicHeap IP.Heap.Script.
From Coq Require Import List Arith Bool ZArith.
Import ListNotations.
Local Open Scope nat_scope.

Section Steps.
  Variable cf : cfg.

  Inductive Steps : X -> X -> Prop :=
  | st_refl : forall x, Steps x x
  | st_step : forall x p x' r x'', xs cf x p = (x', r) -> Steps x' x'' -> Steps x x''.

  Lemma steps_trans : forall a b c, Steps a b -> Steps b c -> Steps a c.
  Proof. induction 1; intros; [assumption | econstructor; eauto]. Qed.

  Lemma steps_xs : forall x p, Steps x (fst (xs cf x p)).
  Proof. intros. destruct (xs cf x p) eqn:E. econstructor; [exact E | constructor]. Qed.

  Lemma fold_steps : forall (A B : Type) (f : B -> A -> B) (proj : B -> X) l b0,
    (forall b a, Steps (proj b) (proj (f b a))) -> Steps (proj b0) (proj (fold_left f l b0)).
  Proof.
    induction l as [|a l IH]; cbn; intros b0 H; [constructor|].
    eapply steps_trans; [apply H | apply IH; assumption].
  Qed.

  Theorem steps_legal_history : forall x x', Steps x x' -> snd x' = true ->
    snd x = true /\ exists hs, legalh cf (fst x) hs = true /\ runh cf (fst x) hs = fst x'.
  Proof.
    induction 1 as [x | x p x' r x'' E S IH]; intros Hf.
    - split; [assumption|]. exists []. split; reflexivity.
    - destruct (IH Hf) as [Hf' (hs & Hl & Hr)]. unfold xs in E. destruct x as [ps lg].
      destruct (pstep cf ps p) as [ps' r'] eqn:Ep. inversion E; subst. cbn in *.
      apply andb_true_iff in Hf'. destruct Hf' as [-> Hleg]. split; [reflexivity|].
      exists (p :: hs). cbn. rewrite Ep. cbn. rewrite Hleg, Hl. split; [reflexivity | exact Hr].
  Qed.

  Lemma xh_steps : forall x p, Steps x (fst (fst (xh cf x p))).
  Proof. intros. unfold xh. pose proof (steps_xs x p) as E. destruct (xs cf x p). exact E. Qed.

  (* an iteration of a fold that makes one call and adds what it returns to the accumulator *)
  Lemma steps_collect : forall (A B : Type) x (y : X * A) (F : A -> B),
    Steps x (fst y) -> Steps x (fst (let '(xb, d) := y in (xb, F d))).
  Proof. intros A B x [xb d] F H. exact H. Qed.

  (* destructure the next [xh] / [xs] call of the goal and account for it *)
  Ltac nx :=
    cbn [fst];
    match goal with
    | |- Steps ?x ?x => constructor
    | |- Steps ?x (fst (if ?b then _ else _)) => destruct b
    | |- Steps ?x (fst (fst (if ?b then _ else _))) => destruct b
    | |- Steps ?x (fst (fst (fst (if ?b then _ else _)))) => destruct b
    | |- Steps ?x (fst ?t) =>
        match t with
        | context [xh cf x ?p] =>
            let x1 := fresh "x" in let o1 := fresh "o" in let h1 := fresh "h" in let E := fresh "E" in
            pose proof (xh_steps x p) as E; destruct (xh cf x p) as [[x1 o1] h1]; cbn [fst] in E;
            eapply steps_trans; [exact E|]; clear E
        | context [xs cf x ?p] =>
            let x1 := fresh "x" in let r1 := fresh "r" in let E := fresh "E" in
            pose proof (steps_xs x p) as E; destruct (xs cf x p) as [x1 r1]; cbn [fst] in E;
            eapply steps_trans; [exact E|]; clear E
        end
    end.

  (* account for the next fold of the goal, each iteration of which is a sequence of steps ([pr]
     projects the accumulator to its state): leaves the iteration, then the rest of the goal *)
  Ltac nfold pr :=
    match goal with
    | |- context [fold_left ?f ?l ?b0] =>
        let F := fresh "F" in
        pose proof (fold_steps _ _ f pr l b0) as F;
        match type of b0 with
        | (_ * _ * _ * _)%type => destruct (fold_left f l b0) as [[[? ?] ?] ?]
        | (_ * _ * _)%type => destruct (fold_left f l b0) as [[? ?] ?]
        | _ => destruct (fold_left f l b0)
        end; cbn [fst] in F;
        eapply steps_trans; [apply F|]; clear F
    end.

  (* account for a call whose lemma is [L : Steps x (fst .. (call))]: destructure the call's result in the
     goal and go on from the state it reached *)
  Ltac callee t := match t with fst ?u => callee u | _ => t end.
  Ltac nc L :=
    let E := fresh "E" in
    pose proof L as E;
    match type of E with Steps _ ?y =>
      let c := callee y in
      match type of c with (_ * _ * _)%type => destruct c as [[? ?] ?] | _ => destruct c end
    end;
    cbn [fst] in E; eapply steps_trans; [exact E|]; clear E.

  Lemma lookup_kind_steps : forall x r a, Steps x (fst (lookup_kind cf x r a)).
  Proof. intros. unfold lookup_kind. repeat nx. Qed.

  Lemma dump_steps : forall fuel x r, Steps x (fst (dump cf fuel x r)).
  Proof.
    induction fuel as [|f IH]; intros x r; cbn [dump]; [constructor|].
    destruct (nref_kind r); try (destruct (kind_skind _)); repeat nx.
    - destruct r0 as [[| |[]]|]; repeat nx.
    - destruct r0 as [[| |[]]|]; try (repeat nx; fail). destruct r1 as [[| |[]]|]; try (repeat nx; fail).
      nfold (@fst X (list dnode)).
      { intros [xa ds0] c. apply steps_collect, IH. }
      nfold (@fst X (list kind)); [|repeat nx].
      intros [xa ks0] i. apply steps_collect, lookup_kind_steps.
    - destruct r0 as [[| |[]]|]; try (repeat nx; fail). destruct r1 as [[| |[]]|]; try (repeat nx; fail).
      nfold (@fst X (list (bytes * dnode))).
      { intros [xa ds0] c. apply steps_collect, IH. }
      nfold (@fst X (list kind)).
      { intros [xa ks0] kc. apply steps_collect, lookup_kind_steps. }
      nfold (@fst X (list kind)); [|repeat nx].
      intros [xa ks0] k. apply steps_collect, lookup_kind_steps.
  Qed.

  Lemma encread_steps : forall fuel x r, Steps x (fst (encread cf fuel x r)).
  Proof.
    induction fuel as [|f IH]; intros x r; cbn [encread]; [constructor|].
    destruct (nref_kind r); try (destruct (kind_skind _)); repeat nx.
    - destruct r1 as [[| |[]]|]; try (repeat nx; fail).
      nfold (@fst X bool); [|repeat nx].
      intros [xa ok] c. apply steps_collect, IH.
    - destruct r1 as [[| |[]]|]; try (repeat nx; fail).
      nfold (@fst X bool); [|repeat nx].
      intros [xa ok] c. apply steps_collect, IH.
  Qed.

  Lemma count_steps : forall fuel x r, Steps x (fst (count cf fuel x r)).
  Proof.
    induction fuel as [|f IH]; intros x r; cbn [count]; [constructor|].
    destruct (nref_kind r); repeat nx.
    - destruct r0 as [[| |[]]|]; try (repeat nx; fail).
      nfold (@fst X nat); [|repeat nx].
      intros [xa cnt] c. apply steps_collect, IH.
    - destruct r0 as [[| |[]]|]; try (repeat nx; fail).
      nfold (@fst X nat); [|repeat nx].
      intros [xa cnt] c. apply steps_collect, IH.
  Qed.

  Lemma assemble_steps : forall d x h, Steps x (fst (assemble cf x h d)).
  Proof.
    induction d using dm_ind2; intros x h; cbn [assemble]; try (repeat nx; fail).
    - nx. nx; [nx|].
      (* [go]: the element loop of [assemble], as it stands in the goal *)
      match goal with |- context [?go x0 l] => assert (G : forall x1, Steps x1 (fst (go x1 l))) end.
      { induction H as [|c rest Hc _ IHr]; intros x1; cbn [fst]; [constructor|].
        nx. nx; [nx|]. nc (Hc x2 h1). nx; [constructor | apply IHr]. }
      nc (G x0). repeat nx.
    - nx. nx; [nx|].
      match goal with |- context [?go x0 m] => assert (G : forall x1, Steps x1 (fst (go x1 m))) end.
      { induction H as [|[k c] rest Hc _ IHr]; intros x1; cbn [fst snd] in *; [constructor|].
        nx. nx; [nx|]. nc (Hc x2 h1). nx; [constructor | apply IHr]. }
      nc (G x0). repeat nx.
  Qed.
  Lemma build_of_steps : forall x b, Steps x (fst (fst (build_of cf x b))).
  Proof. intros. unfold build_of. nc (xh_steps x (PBuild b)). cbn; constructor. Qed.

  Lemma make_steps : forall x d, Steps x (fst (fst (make cf x d))).
  Proof.
    intros. unfold make. nx.
    match goal with |- context [assemble cf ?x1 ?b d] => nc (assemble_steps d x1 b) end.
    nx; [constructor | apply build_of_steps].
  Qed.

  Lemma copy_into_steps : forall x r h, Steps x (fst (copy_into cf x r h)).
  Proof.
    intros x r h. unfold copy_into.
    destruct (nref_kind r); try (repeat nx; fail);
      try (destruct (kind_skind _); [|repeat nx]; nx; destruct r0 as [[| |[]]|]; repeat nx).
    - nx. destruct r0 as [[| |[| | | | | | |b [sl|]]]|]; repeat nx.
    - nx. destruct r0 as [[| |[]]|]; try (repeat nx; fail). nx. nx; [nx|]. nx.
      destruct r0 as [[| |[]]|]; try (repeat nx; fail).
      nfold (@fst X sobs); [|repeat nx].
      intros [xa oa] c. cbn [fst]. destruct (negb (is_ok oa)); [constructor|]. repeat nx.
    - nx. destruct r0 as [[| |[]]|]; try (repeat nx; fail). nx. nx; [nx|]. nx.
      destruct r0 as [[| |[]]|]; try (repeat nx; fail).
      nfold (@fst X sobs); [|repeat nx].
      intros [xa oa] c. cbn [fst]. destruct (negb (is_ok oa)); [constructor|]. repeat nx.
  Qed.

  Lemma copy_steps : forall x r p, Steps x (fst (fst (copy cf x r p))).
  Proof.
    intros. unfold copy. nx.
    match goal with |- context [copy_into cf ?x1 r ?b] => nc (copy_into_steps x1 r b) end.
    nx; [constructor | apply build_of_steps].
  Qed.
  Ltac nf IH :=
    match goal with |- context [ftrans cf ?f ?xx ?nn ?hh ?pp ?rr] => nc (IH xx nn hh pp rr) end.

  Lemma ftrans_steps : forall fuel x n na p repl, Steps x (fst (ftrans cf fuel x n na p repl)).
  Proof.
    induction fuel as [|f IH]; intros x n na p repl; cbn [ftrans]; [constructor|].
    destruct p as [|sg p2]; [repeat nx|].
    destruct n as [r|].
    2:{ nx. nx; [nx|]. nx. nx; [nx|]. nx. nx; [nx|]. nx. nx; [nx|]. nf IH. repeat nx. }
    destruct (nref_kind r); try (cbn; constructor).
    - nx. destruct r0 as [[| |[]]|]; try (repeat nx; fail). nx. nx; [nx|].
      destruct sg as [k|ti]; [nx|]. nx.
      destruct r0 as [[| |[]]|]; try (repeat nx; fail).
      nfold (fun acc : X * sobs * bool * nat => fst (fst (fst acc))); [|repeat nx].
      intros [[[xa oa] rep] i] c. cbn [fst]. destruct (negb (is_ok oa)); [constructor|].
      nx. nx; [nx|]. destruct (i =? ti); [|repeat nx]. nf IH. repeat nx.
    - nx. destruct r0 as [[| |[]]|]; try (repeat nx; fail). nx. nx; [nx|].
      match goal with |- context [xs cf (match p2 with [] => ?a | _ :: _ => ?b end) ?pp] =>
        assert (S2 : Steps b (match p2 with [] => a | _ :: _ => b end))
          by (destruct p2; [apply steps_xs | constructor]);
        generalize dependent (match p2 with [] => a | _ :: _ => b end) end.
      intros x2' S2. eapply steps_trans; [exact S2|]. nx.
      destruct r0 as [[| |[]]|]; try (repeat nx; fail).
      nfold (fun acc : X * sobs * bool => fst (fst acc)).
      + intros [[xa oa] rep] kc. cbn [fst]. destruct (negb (is_ok oa)); [constructor|].
        nx. nx; [nx|]. nx. nx; [nx|]. nx. nx; [nx|].
        destruct (bytes_eqb (fst kc) (seg_string sg)); [|repeat nx].
        destruct p2; [repeat nx|]. nf IH. repeat nx.
      + nx; [nx|]. nx; [repeat nx|]. destruct p2; [|cbn; constructor].
        nx. nx; [nx|]. nx. nx; [nx|]. nx. nx; [nx|]. nf IH. repeat nx.
  Qed.

  (* from here on the recursive clients are used through their lemmas only: never unfold them on
     their (large, literal) fuel *)
  Arguments ftrans : simpl never.
  Arguments dump : simpl never.
  Arguments encread : simpl never.
  Arguments count : simpl never.
  Arguments assemble : simpl never.
  Arguments copy_into : simpl never.

  Lemma transform_steps : forall x r p repl, Steps x (fst (fst (transform cf x r p repl))).
  Proof.
    intros. unfold transform. (* 64 is the fuel [transform] gives [ftrans] *)
    destruct r; try (cbn [fst]; constructor); (nx; nf (ftrans_steps 64); nx; [nx | apply build_of_steps]).
  Qed.

  Lemma sstep_steps : forall st o, Steps (sx st) (sx (fst (sstep cf st o))).
  Proof.
    intros st o. unfold sstep.
    destruct o;
      try (destruct (match reg st n with HNode r => Some r | _ => None end) as [r|] eqn:En; [|cbn [fst sx push]; constructor]).
    all: try (match goal with |- context [xh cf ?x ?p] => nc (xh_steps x p) end; cbn; constructor).
    - nc (make_steps (sx st) d). cbn; constructor.
    - nc (copy_steps (sx st) r p). cbn; constructor.
    - nc (steps_xs (sx st) (PRead (HNode r) (ALookupS k))). cbn; constructor.
    - nc (steps_xs (sx st) (PRead (HNode r) (ALookupI i))). cbn; constructor.
    - destruct (match reg st repl with HNode r0 => Some r0 | _ => None end) as [rr|]; [|cbn [fst sx push]; constructor].
      nc (transform_steps (sx st) r p rr). cbn; constructor.
    - nc (encread_steps dump_fuel (sx st) r). cbn; constructor.
    - nc (count_steps dump_fuel (sx st) r). cbn; constructor.
    - nc (steps_xs (sx st) (PReaderRead (reg st r) k)). cbn; constructor.
    - nc (steps_xs (sx st) (PReaderSeek (reg st r) off wh)). cbn; constructor.
  Qed.

  Lemma redump_steps : forall st, Steps (sx st) (sx (fst (redump cf st))).
  Proof.
    intros st. unfold redump.
    nfold (fun acc : X * list (nat * dnode * dnode) * nat => fst (fst acc)); [|cbn; constructor].
    intros [[xa outa] ia] h. cbn [fst]. destruct h; try constructor.
    nc (dump_steps dump_fuel xa r).
    match goal with |- context [dump cf dump_fuel ?x1 r] => nc (dump_steps dump_fuel x1 r) end. constructor.
  Qed.

  Lemma sstep_full_steps : forall st o, Steps (sx st) (sx (fst (fst (sstep_full cf st o)))).
  Proof.
    intros st o. unfold sstep_full.
    pose proof (sstep_steps st o) as E1. destruct (sstep cf st o) as [st1 ob]. cbn [fst] in E1.
    pose proof (redump_steps st1) as E2. destruct (redump cf st1) as [st2 ds]. cbn [fst] in *.
    eapply steps_trans; eauto.
  Qed.

  Fixpoint run_script (st : sstate) (os : list sop) : sstate :=
    match os with [] => st | o :: r => run_script (fst (fst (sstep_full cf st o))) r end.

  Lemma run_script_steps : forall os st, Steps (sx st) (sx (run_script st os)).
  Proof.
    induction os as [|o os IH]; intros st; cbn; [constructor|].
    eapply steps_trans; [apply sstep_full_steps | apply IH].
  Qed.

  Lemma run_script_app : forall os1 os2 st, run_script st (os1 ++ os2) = run_script (run_script st os1) os2.
  Proof. induction os1; cbn; intros; auto. Qed.
End Steps.
