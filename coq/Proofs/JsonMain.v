(* Proofs/JsonMain.v — C04 assembled: decode (encode v) = Ok (sort v) for json_safe values and any float predicate whose
   texts carry a '.' or an exponent (roundtrip), sortedness of the output, and what a number text without '.' or exponent decodes to
   (integer_text_decodes), hence the refutation for each integral float (refuted_float).  C04_deterministic, C04_refuted_float and C04_roundtrip_repaired follow from these in Props/C04.v. *)
Require Import IP.Base.Bytes IP.DM.Value IP.Codec.Utf8 IP.Codec.Base64 IP.Codec.DagJson.
Require Import IP.Proofs.BytesFacts IP.Proofs.JsonUtf8 IP.Proofs.JsonString IP.Proofs.JsonInt IP.Proofs.JsonBase64.
Require Import IP.Proofs.JsonTok IP.Proofs.JsonAbs IP.Proofs.JsonTotal IP.Proofs.JsonUnm IP.Proofs.JsonEnc IP.Proofs.JsonSort.
From Coq Require Import Permutation Sorting.Sorted.
From Coq Require Import ZifyN ZifyNat ZifyBool.
Open Scope N_scope.

Lemma ascii_valid s : Forall (fun b => b < 128) s -> utf8_valid s = true.
Proof.
  unfold utf8_valid. induction 1 as [|b r Hb Hr IH]; [reflexivity|].
  cbn [length utf8_valid_fuel]. rewrite utf8_decode_ascii by assumption.
  unfold rune_error. destruct (N.eqb_spec b 65533); [lia|]. cbn [andb skipn]. exact IH.
Qed.

Lemma b64_char_ascii v : b64_char v < 128.
Proof.
  unfold b64_char. destruct (v <? 26) eqn:A; [lia|]. destruct (v <? 52) eqn:B; [lia|].
  destruct (v <? 62) eqn:C; [lia|]. destruct (v =? 62); lia.
Qed.

Lemma b64_encode_ascii : forall bs, Forall (fun b => b < 128) (b64_encode bs).
Proof.
  fix IH 1. intros [|a [|b [|c r]]]; cbn [b64_encode]; repeat (constructor; [apply b64_char_ascii|]);
    [constructor..|apply IH].
Qed.

Lemma digits_scan_syntax ds : forall (j : nat) acc, acc < 10 ^ N.of_nat j -> (lead_digits ds + j <= 19)%nat ->
  (exists c, In c ds /\ is_digit c = false) -> digits_scan ds acc = PSyntax.
Proof.
  induction ds as [|d r IH]; intros j acc Ha Hl (c & Hin & Hc); [contradiction|].
  cbn [digits_scan]. cbn [lead_digits] in Hl. destruct (is_digit d) eqn:Hd; [|reflexivity].
  assert (Dd : 48 <= d <= 57) by (now apply is_digit_iff).
  assert (Ha' : acc * 10 + (d - 48) < 10 ^ N.of_nat (S j)).
  { rewrite Nat2N.inj_succ, N.pow_succ_r'. lia. }
  assert (P19 : 10 ^ N.of_nat (S j) <= 10 ^ 19) by (apply N.pow_le_mono_r; lia).
  assert (10 ^ 19 < two64) by (vm_compute; reflexivity).
  destruct (N.leb_spec two64 (acc * 10 + (d - 48))); [lia|].
  apply (IH (S j)); [assumption|lia|].
  exists c. split; [|assumption]. destruct Hin as [->|Hin]; [congruence|assumption].
Qed.

Lemma parse_int_syntax t : has_dot_or_e t = true -> (int_prefix_len t <= 19)%nat -> parse_int t = PISyntax.
Proof.
  intros H L. unfold has_dot_or_e in H. apply existsb_exists in H. destruct H as (c & Hin & Hc).
  assert (Nd : is_digit c = false /\ c <> 45).
  { unfold is_digit, is_e in *. lia. }
  destruct Nd as [Nd N45].
  destruct t as [|c0 ds]; [reflexivity|]. unfold parse_int. unfold int_prefix_len in L.
  destruct (N.eqb_spec c0 45) as [->|Hc0].
  - destruct ds as [|d ds']; [reflexivity|].
    rewrite (digits_scan_syntax (d :: ds') 0 0); [reflexivity|cbn; lia|lia|].
    exists c. split; [|assumption]. destruct Hin as [E|Hin]; [congruence|assumption].
  - rewrite (digits_scan_syntax (c0 :: ds) 0 0); [reflexivity|cbn; lia|lia|].
    exists c. split; assumption.
Qed.

Section Main.
  Variable fmt_float : N -> bytes.
  Variable parse_float : bytes -> option N.
  Variable cid_str : bytes -> bytes.
  Variable cid_parse : bytes -> option bytes.
  Variable cid_ok : bytes -> bool.
  (* what is assumed of strconv / refmt's emitFloat (Hparse, Htext) and of go-cid (Hcid, Hcid_utf8): A1, A2 or A2R, and CID
     at the end of this file, with [gf] left open *)
  Hypothesis Hparse : forall f, f64_finite f = true -> parse_float (fmt_float f) = Some f.
  (* [gf] selects the floats whose text is assumed to carry a '.' or an exponent: with refmt v0.90's emitFloat
     the floats that are not integers below 1e21 (A2), with an emitFloat that always writes one, all (A2R) *)
  Variable gf : N -> bool.
  Hypothesis Htext : forall f, f64_finite f = true -> gf f = true -> float_text_frac (fmt_float f) = true.
  Hypothesis Hcid : forall c, cid_ok c = true -> cid_parse (cid_str c) = Some c.
  Hypothesis Hcid_utf8 : forall c, cid_ok c = true -> utf8_valid (cid_str c) = true.

  Notation safe := (json_safe cid_ok gf).
  Notation tojs := (to_js fmt_float cid_str).
  Notation text := (text fmt_float cid_str).

  Lemma float_num_ok f : f64_finite f = true -> gf f = true ->
    num_ok parse_float (fmt_float f) (TFloat f).
  Proof.
    intros Hf Hi. pose proof (Htext f Hf Hi) as T. unfold float_text_frac in T.
    apply andb_true_iff in T. destruct T as [T Tp]. apply andb_true_iff in T. destruct T as [Tn Td].
    apply Nat.leb_le in Tp. destruct (json_number_scan _ Tn) as (c & r & E & Hc & Hs).
    exists c, r. repeat split; try assumption.
    unfold num_token. now rewrite parse_int_syntax, Hparse.
  Qed.

  Lemma int_num_ok z : in_int64 z = true -> num_ok parse_float (print_int z) (TInt z).
  Proof.
    intros Hz. destruct (json_number_scan _ (print_int_number z)) as (mb & t & E & Hmb & Hs).
    exists mb, t. repeat split; try assumption. unfold num_token. now rewrite int_roundtrip.
  Qed.

  Theorem to_js_ok v : safe v = true -> js_ok parse_float (tojs v).
  Proof.
    induction v as [|b|z|f|s|bs|c|l IH|m IH] using dm_ind2; intros Sf; cbn [to_js js_ok json_safe] in *.
    - exact I.
    - exact I.
    - now apply int_num_ok.
    - apply andb_true_iff in Sf. destruct Sf as [Hf Hg]. now apply float_num_ok.
    - exact Sf.
    - repeat split; try reflexivity. apply ascii_valid, b64_encode_ascii.
    - repeat split; try reflexivity. now apply Hcid_utf8.
    - apply js_ok_arr. apply Forall_forall. intros y Hy. apply in_map_iff in Hy. destruct Hy as (x & <- & Hx).
      rewrite Forall_forall in IH. rewrite forallb_forall in Sf. apply IH; auto.
    - apply js_ok_obj. apply Forall_forall. intros kv Hkv. apply in_map_iff in Hkv. destruct Hkv as (kv0 & <- & Hin).
      apply andb_true_iff in Sf. destruct Sf as [_ S3]. rewrite forallb_forall in S3. specialize (S3 kv0 Hin).
      apply andb_true_iff in S3. destruct S3 as [Sk Sv]. cbn [fst snd]. split; [exact Sk|].
      rewrite Forall_forall in IH. now apply IH.
  Qed.

  Lemma safe_encodable v : safe v = true -> encodable cid_ok v = true.
  Proof.
    induction v as [|b|z|f|s|bs|c|l IH|m IH] using dm_ind2; intros Sf; cbn [json_safe encodable] in *; try reflexivity; try assumption.
    - apply andb_true_iff in Sf. tauto.
    - rewrite forallb_forall in *. rewrite Forall_forall in IH. intros x Hx. apply IH; auto.
    - apply andb_true_iff in Sf. destruct Sf as [_ S3]. rewrite forallb_forall in *. rewrite Forall_forall in IH.
      intros kv Hkv. specialize (S3 kv Hkv). apply andb_true_iff in S3. apply IH; tauto.
  Qed.

  Notation encode := (jenc fmt_float cid_str dagjson_eopts cid_ok).
  Notation decode := (jdecode parse_float cid_parse dagjson_dopts).

  (* C04, round trip, for every decoder that reifies links and bytes (dag-json's does), whatever its depth limit and
     whether or not it looks beyond the value: a json_safe value within the limit decodes from its encoding to the
     key-sorted value, kinds included *)
  Theorem roundtrip_opts o v : jd_links o = true -> jd_bytes o = true ->
    safe v = true -> (Z.of_N (jdepth v) <= jmax_depth o)%Z ->
    exists bs, encode v = Ok bs /\ jdecode parse_float cid_parse o bs = Ok (lexsort v, []).
  Proof.
    intros Ol Ob Sf Dp. exists (text (lexsort v)). split; [apply enc_ok; now apply safe_encodable|].
    set (w := lexsort v).
    assert (Sw : safe w = true) by (now apply safe_sort).
    assert (Dk : depth_ok o 0 w) by (pose proof (depth_sort v); unfold depth_ok, w; lia).
    pose proof (to_js_ok w Sw) as Okw.
    destruct (tok_top parse_float (tojs w) [] Okw I) as (ts' & Y). rewrite app_nil_r in Y.
    destruct (toks_nonempty fmt_float cid_str w) as (k & L & Tk & _). unfold toks in Tk. rewrite Tk in Y.
    inversion Y as [|? ? ? ts1 r1 ? ? ? St Y1]; subst.
    unfold jdecode. unfold JsonEnc.text. rewrite St.
    pose proof (U fmt_float parse_float cid_str cid_parse cid_ok Hcid o Ol Ob gf w Sw
                  (jdec_fuel (jtext (tojs w))) 0%nat [] 0%Z) as HU.
    unfold toks in HU. rewrite Tk in HU. cbn [hd tl] in HU. rewrite !app_nil_r in HU.
    (* fuel: two units per token (need_toks), a byte of text per token (Yields_shorter), and jdec_fuel supplies three
       per byte *)
    assert (Fu : (need w <= jdec_fuel (jtext (tojs w)))%nat).
    { pose proof (need_toks fmt_float cid_str w) as B. unfold toks in B. rewrite Tk in B.
      pose proof (Yields_shorter _ _ _ _ _ _ Y) as T. unfold jdec_fuel. cbn [length] in *. lia. }
    specialize (HU Fu Dk (winI_single k)).
    assert (R0 : Rel parse_float ts' [] {| lb := []; lts := ts1; lin := r1 |} (0%nat, L))
      by (split; [reflexivity|]; exists L; split; [reflexivity|exact Y1]).
    destruct (proj1 (unm_lock parse_float cid_parse ts' [] _) _ _ _ _ _ R0 _ _ HU) as (ls' & EU & (Hn & Ls & HL & Y')).
    rewrite EU. cbn [snd] in HL. symmetry in HL. apply app_eq_nil in HL. destruct HL as [Hb ->].
    inversion Y'; subst.
    match goal with H : lin ls' = _ |- _ => rewrite H || rewrite <- H | H : _ = lin ls' |- _ => rewrite <- H end.
    (* nothing is left behind the value, so the trailing-input rule has nothing to reject *)
    destruct (jd_dont_parse_beyond o), k; reflexivity.
  Qed.

  Theorem roundtrip v : safe v = true -> jdepth v <= 1024 ->
    exists bs, encode v = Ok bs /\ decode bs = Ok (lexsort v, []).
  Proof.
    intros Sf Dp. apply roundtrip_opts; try reflexivity; [exact Sf|].
    (* the 1024 of the statement meets the constant generated from codec/dagjson/unmarshal.go here: if
       defaultMaxDepth changes there, this step fails, as it should *)
    change (jmax_depth dagjson_dopts) with 1024%Z. lia.
  Qed.

  (* with enc_ok and pm_sort this gives C04_deterministic (Props/C04.v) *)
  Lemma encodable_sort v : encodable cid_ok (lexsort v) = encodable cid_ok v.
  Proof.
    induction v as [| | | | | | |l IH|m IH] using dm_ind2; try reflexivity.
    - cbn [sort_maps encodable]. induction IH as [|x r Hx _ IHr]; cbn [map forallb]; [reflexivity|now rewrite Hx, IHr].
    - rewrite lexsort_map. cbn [encodable]. rewrite <- (forallb_perm _ _ _ (lex_sort_perm (map sort_entry m))).
      induction IH as [|x r Hx _ IHr]; cbn [map forallb sort_entry snd]; [reflexivity|now rewrite Hx, IHr].
  Qed.

  Theorem sorted_output v : uniq v = true -> maps_sorted (lexsort v).
  Proof.
    induction v as [| | | | | | |l IH|m IH] using dm_ind2; intros Uq; try exact I.
    - cbn [sort_maps maps_sorted]. cbn [uniq] in Uq. induction IH as [|x r Hx Hr IHr]; [exact I|].
      cbn [forallb] in Uq. apply andb_true_iff in Uq. destruct Uq. cbn [map]. split; [exact (Hx H)|exact (IHr H0)].
    - rewrite lexsort_map. cbn [maps_sorted]. cbn [uniq] in Uq. apply andb_true_iff in Uq. destruct Uq as [ND Uv]. split.
      + apply (sort_sorted bytes_ltb bytes_ltb_trans bytes_ltb_total). unfold keys, sort_entry. rewrite map_fst_pair. now apply nodup_keys_iff.
      + assert (Hall : Forall (fun kv => maps_sorted (snd kv)) (sort_kv bytes_ltb (map sort_entry m))).
        { apply Forall_forall. intros kv Hkv.
          apply (Permutation_in _ (Permutation_sym (lex_sort_perm (map sort_entry m)))) in Hkv.
          apply in_map_iff in Hkv. destruct Hkv as (kv0 & <- & Hin). rewrite Forall_forall in IH. rewrite forallb_forall in Uv.
          unfold sort_entry. cbn [snd]. apply IH; auto. }
        induction Hall as [|a r Ha Hr IHr]; [exact I|split; assumption].
  Qed.
End Main.

Section Refute.
  Variable fmt_float : N -> bytes.
  Variable parse_float : bytes -> option N.
  Variable cid_str : bytes -> bytes.
  Variable cid_parse : bytes -> option bytes.
  Variable cid_ok : bytes -> bool.

  Lemma num_run_nodot st t st' : num_run st t = Some st' -> has_dot_or_e t = false ->
    (st = SNeg \/ st = SZero \/ st = SInt) -> Forall digit_c t /\ (st = SNeg -> nst_final st' = true -> t <> []).
  Proof.
    revert st. induction t as [|c r IH]; intros st R H S0.
    - cbn in R. inversion R; subst. split; [constructor|]. intros -> F. discriminate.
    - cbn [num_run] in R. cbn [has_dot_or_e existsb] in H. apply orb_false_iff in H. destruct H as [Hc Hr].
      apply orb_false_iff in Hc. destruct Hc as [Hdot He].
      destruct (num_step st c) as [st1|] eqn:St; [|discriminate].
      assert (D : is_digit c = true /\ (st1 = SZero \/ st1 = SInt)).
      { destruct S0 as [-> | [-> | ->]]; cbn [num_step] in St; rewrite ?Hdot, ?He in St; [|discriminate|].
        - destruct (N.eqb_spec c 48) as [-> | ]; [inversion St; auto|]. destruct (is_digit c); inversion St; auto.
        - destruct (is_digit c); inversion St; auto. }
      destruct D as (Dc & S1).
      destruct (IH st1 R Hr) as (Fr & _); [destruct S1; auto|].
      split; [constructor; [now apply is_digit_iff|assumption]|discriminate].
  Qed.

  Lemma digits_scan_digits ds : Forall digit_c ds -> forall acc, digits_scan ds acc <> PSyntax.
  Proof.
    induction 1 as [|d r Hd Hr IH]; intros acc; cbn [digits_scan]; [discriminate|].
    replace (is_digit d) with true by (symmetry; now apply is_digit_iff).
    destruct (two64 <=? acc * 10 + (d - 48)); [discriminate|apply IH].
  Qed.

  Lemma int_text_not_float t : json_number t = true -> has_dot_or_e t = false -> parse_int t <> PISyntax.
  Proof.
    intros J H. destruct t as [|c r]; [discriminate|]. cbn [json_number] in J.
    apply andb_true_iff in J. destruct J as [Jc Jr].
    destruct (num_run (num_start c) r) as [st|] eqn:R; [|discriminate].
    cbn [has_dot_or_e existsb] in H. apply orb_false_iff in H. destruct H as [_ Hr].
    unfold parse_int. unfold num_start in R. destruct (N.eqb_spec c 45) as [->|Nc].
    - destruct (num_run_nodot SNeg r st R Hr) as (Fr & NE); [auto|].
      specialize (NE eq_refl Jr). destruct r as [|d r']; [congruence|].
      pose proof (digits_scan_digits (d :: r') Fr 0) as Hs.
      destruct (digits_scan (d :: r') 0); try congruence. destruct (two63 <? n); discriminate.
    - assert (Dc : digit_c c) by (cbn [orb] in Jc; now apply is_digit_iff).
      destruct (num_run_nodot _ r st R Hr) as (Fr & _); [destruct (c =? 48); auto|].
      pose proof (digits_scan_digits (c :: r) (Forall_cons _ Dc Fr) 0) as Hs.
      destruct (digits_scan (c :: r) 0); try congruence. destruct (two63 <=? n); discriminate.
  Qed.

  (* ParseFloat is never asked for such a text; the byte lost after a top-level number is none here, the text ends with
     the number *)
  Theorem integer_text_decodes o t : json_number t = true -> has_dot_or_e t = false ->
    jdecode parse_float cid_parse o t = match parse_int t with PIVal z => Ok (DInt z, []) | _ => Err JDOther end.
  Proof using parse_float cid_parse.
    clear fmt_float cid_str cid_ok. intros J Hd. pose proof (int_text_not_float _ J Hd) as NS.
    destruct (json_number_scan _ J) as (c & r & -> & B & Sc). specialize (Sc [] I). rewrite app_nil_r in Sc.
    unfold jdecode. rewrite (tstep_top parse_float) by apply (number_head_ok c B). rewrite accept_number, Sc by exact B.
    unfold num_token. destruct (parse_int (c :: r)) as [| |z]; [congruence|reflexivity|].
    cbn [finish_step ts_stk ts_init].
    replace (jdec_fuel (c :: r)) with (S (jdec_fuel r + 2)) by (unfold jdec_fuel; cbn [length]; lia).
    rewrite unm_S. cbn [unm_step lin tl forallb]. now destruct (jd_dont_parse_beyond o).
  Qed.

  (* Under A2 an integral float below 1e21 never comes back as a float: the faithful model refutes
     the full round-trip statement for every such float (1.0, -0.0, 1e20, ...). *)
  Theorem refuted_float f : f64_finite f = true -> f64_integral_small f = true ->
    float_text_ok f (fmt_float f) = true ->
    jenc fmt_float cid_str dagjson_eopts cid_ok (DFloat f) = Ok (fmt_float f) /\
    forall rest, jdecode parse_float cid_parse dagjson_dopts (fmt_float f) <> Ok (DFloat f, rest).
  Proof.
    intros Hf Hi T. split; [cbn [jenc enc_scalar]; now rewrite Hf|].
    unfold float_text_ok in T. rewrite Hi in T. apply andb_true_iff in T. destruct T as [J Hd].
    apply negb_true_iff in Hd. intros rest. rewrite (integer_text_decodes _ _ J Hd).
    destruct (parse_int (fmt_float f)); discriminate.
  Qed.
End Refute.

Definition A1 (fmt_float : N -> bytes) (parse_float : bytes -> option N) : Prop :=
  forall f, f64_finite f = true -> parse_float (fmt_float f) = Some f.
Definition A2 (fmt_float : N -> bytes) : Prop :=
  forall f, f64_finite f = true -> float_text_ok f (fmt_float f) = true.
Definition A2R (fmt_float : N -> bytes) : Prop :=
  forall f, f64_finite f = true -> float_text_frac (fmt_float f) = true.
Definition CID (cid_str : bytes -> bytes) (cid_parse : bytes -> option bytes) (cid_ok : bytes -> bool) : Prop :=
  (forall c, cid_ok c = true -> cid_parse (cid_str c) = Some c) /\
  (forall c, cid_ok c = true -> utf8_valid (cid_str c) = true).

Definition nonintegral (f : N) : bool := negb (f64_integral_small f).
Definition any_float (f : N) : bool := true.

Definition roundtrip_for fmt_float parse_float cid_str cid_parse cid_ok (good : N -> bool) : Prop :=
  forall v, json_safe cid_ok good v = true -> jdepth v <= 1024 ->
    exists bs, jenc fmt_float cid_str dagjson_eopts cid_ok v = Ok bs /\
               jdecode parse_float cid_parse dagjson_dopts bs = Ok (sort_maps bytes_ltb v, []).

Lemma roundtrip_nonintegral :
  forall fmt_float parse_float cid_str cid_parse cid_ok,
    A1 fmt_float parse_float -> A2 fmt_float -> CID cid_str cid_parse cid_ok ->
    roundtrip_for fmt_float parse_float cid_str cid_parse cid_ok nonintegral.
Proof.
  intros fmt_float parse_float cid_str cid_parse cid_ok H1 H2 [H3 H4] v.
  apply (roundtrip fmt_float parse_float cid_str cid_parse cid_ok H1 nonintegral); try assumption.
  intros f Hf Hg. specialize (H2 f Hf). unfold float_text_ok in H2. unfold nonintegral in Hg.
  apply negb_true_iff in Hg. now rewrite Hg in H2.
Qed.

Example safe_example :
  json_safe (fun c => negb (is_nil c)) nonintegral
    (DMap [([47], DMap [([98; 121; 116; 101; 115], DInt 1)]); ([107], DList [DBytes [1; 2; 255]; DLink [1; 85; 0; 0]; DFloat 4609434218613702656; DString [226; 128; 168]])]) = true.
Proof. vm_compute. reflexivity. Qed.

Example pm_example :
  pm (DMap [([98], DInt 1); ([97], DNull)]) (DMap [([97], DNull); ([98], DInt 1)]) /\
  uniq (DMap [([98], DInt 1); ([97], DNull)]) = true.
Proof.
  split; [|reflexivity]. apply (pm_map _ [([97], DNull); ([98], DInt 1)]).
  - apply perm_swap.
  - repeat constructor.
Qed.
