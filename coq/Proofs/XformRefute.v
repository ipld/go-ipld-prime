(* Proofs/XformRefute.v — two consequences of C16_focus / C16_focus_errors as predicates over the quirk
   record: a completed transform returns the SPEC's tree (of C16_focus only the clause res = raw t'), and
   the transform does not panic where the SPEC defines a tree.  Both hold for the repaired model; each
   confirmed defect refutes one of them, with a witness, for every record that has its switch on.
   Also: examples showing that the hypotheses of the theorems are satisfiable (with a link crossed). *)
Require Import IP.Base.Bytes IP.DM.Value IP.Xform.Transform IP.Proofs.BytesFacts IP.Proofs.XformBase IP.Proofs.XformFocus
  IP.Proofs.XformLaws.
From Coq Require Import Lia.
Open Scope Z_scope.

Definition C16_returns_spec (q : quirks) : Prop :=
  forall ltb mklink f cp fault fuel st root p t res st' log,
    (forall x v, owf x -> f x = Some v -> wf_dm v = true) ->
    raw t = root -> valid st t -> wfx t ->
    focused_transform ltb mklink q f cp fault fuel st root p = Ok (res, (st', log)) ->
    match xupdate ltb mklink f cp st t p with
    | XNeedLoad => True
    | XOk (Some t') _ => res = raw t'
    | _ => False
    end.

Definition C16_no_panic (q : quirks) : Prop :=
  forall ltb mklink f cp fault fuel st root p t t' seen,
    (forall x v, owf x -> f x = Some v -> wf_dm v = true) ->
    raw t = root -> valid st t -> wfx t ->
    xupdate ltb mklink f cp st t p = XOk (Some t') seen ->
    (p = [] -> root_accepts root (raw t') = true) ->
    focused_transform ltb mklink q f cp fault fuel st root p <> Err EPanic.

Lemma returns_spec_fixed : C16_returns_spec q_fixed.
Proof.
  intros ltb mklink f cp fault fuel st root p t res st' log Hf <- Hv Hw HF.
  pose proof (focus_spec ltb mklink f cp fault Hf fuel st t p Hv Hw) as H. rewrite HF in H. unfold focus_rel in H.
  destruct (xupdate ltb mklink f cp st t p) as [[t'|] seen| |]; auto. now destruct H.
Qed.

Lemma no_panic_fixed : C16_no_panic q_fixed.
Proof.
  intros ltb mklink f cp fault fuel st root p t t' seen Hf <- Hv Hw HX Hacc HF.
  pose proof (focus_spec ltb mklink f cp fault Hf fuel st t p Hv Hw) as H. rewrite HF, HX in H.
  destruct H as [[H|H]|(Hp & Hna & _)]; try discriminate. rewrite (Hacc Hp) in Hna. discriminate.
Qed.

Definition no_order : bytes -> bytes -> bool := fun _ _ => false.
Definition no_link : dm -> cid := fun _ => [].
Definition fdel : option dm -> option dm := fun _ => None.
Definition fconst (v : dm) : option dm -> option dm := fun _ => Some v.
Lemma fdel_wf : forall x v, owf x -> fdel x = Some v -> wf_dm v = true.
Proof. discriminate. Qed.
Lemma fconst_wf c : wf_dm c = true -> forall x v, owf x -> fconst c x = Some v -> wf_dm v = true.
Proof. intros H x v _ E. inversion E; subst. exact H. Qed.

Definition l123 : dm := DList [DInt 1; DInt 2; DInt 3].
Definition segzz : bytes := [122%N; 122%N].  (* "zz" *)
Definition sega : bytes := [97%N].           (* "a" *)
Definition mab : dm := DMap [(sega, DInt 1)].

Lemma returns_spec_refute q ltb mklink f cp fault fuel st t p res w :
  (forall x v, owf x -> f x = Some v -> wf_dm v = true) -> valid st t -> wfx t ->
  focused_transform ltb mklink q f cp fault fuel st (raw t) p = Ok (res, w) ->
  match xupdate ltb mklink f cp st t p with
  | XOk (Some t') _ => res <> raw t'
  | XNeedLoad => False
  | _ => True
  end ->
  ~ C16_returns_spec q.
Proof.
  intros Hf Hv Hw HF HX H. destruct w as [st' log].
  specialize (H ltb mklink f cp fault fuel st (raw t) p t res st' log Hf eq_refl Hv Hw HF).
  destruct (xupdate ltb mklink f cp st t p) as [[t'|] seen| |]; auto.
Qed.

Lemma no_panic_refute q ltb mklink f cp fault fuel st t p t' seen :
  (forall x v, owf x -> f x = Some v -> wf_dm v = true) -> valid st t -> wfx t ->
  xupdate ltb mklink f cp st t p = XOk (Some t') seen ->
  (p = [] -> root_accepts (raw t) (raw t') = true) ->
  focused_transform ltb mklink q f cp fault fuel st (raw t) p = Err EPanic ->
  ~ C16_no_panic q.
Proof.
  intros Hf Hv Hw HX Ha HF H.
  exact (H ltb mklink f cp fault fuel st (raw t) p t t' seen Hf eq_refl Hv Hw HX Ha HF).
Qed.

Definition ex_link (b : dm) : cid := match b with DList [DInt z] => [Z.to_N z] | _ => [] end.
Definition ex_st : store := [([1%N], DList [DInt 1])].
Definition ex_root : dm := DMap [(sega, DLink [1%N])].
Definition ex_t : xt := XMap [(sega, XBlock [1%N] (XList [XLeaf (DInt 1)]))].
Definition ex_path : path := [sega; [48%N]].   (* a/0 *)
Definition ex_st' : store := [([2%N], DList [DInt 2]); ([1%N], DList [DInt 1])].

Lemma ex_valid : valid ex_st ex_t.
Proof. repeat constructor. Qed.
Lemma ex_wfx : wfx ex_t.
Proof. repeat (constructor; try reflexivity). Qed.

(* One witness per defect.  Each run consults no other switch than its own, so the witness
   refutes every setting that has the switch on: the record is opened, its field set, and the run
   evaluated with the other five fields left as variables. *)

(* fn -> nil on a list element: a nil node in a list of unchanged length *)
Lemma list_delete_refutes q : q_list_delete_nil q = true -> ~ C16_returns_spec q.
Proof.
  destruct q as [a b c d e g]. cbn. intros ->.
  apply (returns_spec_refute _ no_order no_link fdel false false 10%nat [] (inject l123) [[49%N]] (* "1" *)
           (DList [DInt 1; nil_node; DInt 3]) ([], [Some (DInt 2)]) fdel_wf
           (valid_inject _ _) (wfx_inject l123 eq_refl)).
  - vm_compute. reflexivity.
  - vm_compute. discriminate.
Qed.

(* fn -> nil on "-": a nil node is appended *)
Lemma append_nil_refutes q : q_append_nil q = true -> ~ C16_returns_spec q.
Proof.
  destruct q as [a b c d e g]. cbn. intros ->.
  apply (returns_spec_refute _ no_order no_link fdel false false 10%nat [] (inject l123) [dash]
           (DList [DInt 1; DInt 2; DInt 3; nil_node]) ([], [None]) fdel_wf
           (valid_inject _ _) (wfx_inject l123 eq_refl)).
  - vm_compute. reflexivity.
  - vm_compute. discriminate.
Qed.

(* fn -> nil on a missing map key: the key is inserted with a nil node *)
Lemma missing_key_refutes q : q_missing_delete_nil q = true -> ~ C16_returns_spec q.
Proof.
  destruct q as [a b c d e g]. cbn. intros ->.
  apply (returns_spec_refute _ no_order no_link fdel false false 10%nat [] (inject mab) [segzz]
           (DMap [(sega, DInt 1); (segzz, nil_node)]) ([], [None; None]) fdel_wf
           (valid_inject _ _) (wfx_inject mab eq_refl)).
  - vm_compute. reflexivity.
  - vm_compute. discriminate.
Qed.

(* a negative index ("-5") appends where the SPEC has a bounds error *)
Lemma negative_index_refutes q : q_neg_index_append q = true -> ~ C16_returns_spec q.
Proof.
  destruct q as [a b c d e g]. cbn. intros ->.
  apply (returns_spec_refute _ no_order no_link (fconst (DInt 7)) false false 10%nat [] (inject l123)
           [[45%N; 53%N]] (DList [DInt 1; DInt 2; DInt 3; DInt 7]) ([], [None])
           (fconst_wf (DInt 7) eq_refl) (valid_inject _ _) (wfx_inject l123 eq_refl)).
  - vm_compute. reflexivity.
  - vm_compute. exact I.
Qed.

(* "-" then further segments creates parents although createParents = false *)
Lemma append_parents_refutes q : q_append_parents q = true -> ~ C16_returns_spec q.
Proof.
  destruct q as [a b c d e g]. cbn. intros ->.
  apply (returns_spec_refute _ no_order no_link (fconst (DInt 7)) false false 10%nat [] (inject l123)
           [dash; sega] (DList [DInt 1; DInt 2; DInt 3; DMap [(sega, DInt 7)]]) ([], [None])
           (fconst_wf (DInt 7) eq_refl) (valid_inject _ _) (wfx_inject l123 eq_refl)).
  - vm_compute. reflexivity.
  - vm_compute. exact I.
Qed.

(* a Null root panics even under the identity *)
Lemma null_root_refutes q : q_null_root_panic q = true -> ~ C16_no_panic q.
Proof.
  destruct q as [a b c d e g]. cbn. intros ->.
  apply (no_panic_refute _ no_order no_link fid false false 10%nat [] (XLeaf DNull) [] (XLeaf DNull) (Some DNull)
           fid_wf (V_leaf [] DNull) (W_leaf DNull eq_refl)); reflexivity.
Qed.

(* deleting a list element inside a linked block: the block with the nil node cannot be encoded *)
Lemma delete_in_block_refutes q : q_list_delete_nil q = true -> ~ C16_no_panic q.
Proof.
  destruct q as [a b c d e g]. cbn. intros ->.
  eapply (no_panic_refute _ no_order no_link fdel false false 10%nat ex_st ex_t ex_path _ _ fdel_wf ex_valid ex_wfx).
  - vm_compute. reflexivity.
  - discriminate.
  - vm_compute. reflexivity.
Qed.

Lemma ex_coherent : coherent ex_link ex_st'.
Proof.
  intros b v. unfold ex_link.
  destruct b as [| | | | | | |l|]; try discriminate.
  destruct l as [|d [|? ?]]; try discriminate; [|destruct d; discriminate]. destruct d; try discriminate.
  simpl. destruct (N.eqb (Z.to_N z) 2) eqn:E2; simpl.
  - apply N.eqb_eq in E2. intro E; inversion E; subst. f_equal. f_equal. f_equal. lia.
  - destruct (N.eqb (Z.to_N z) 1) eqn:E1; simpl; [|discriminate].
    apply N.eqb_eq in E1. intro E; inversion E; subst. f_equal. f_equal. f_equal. lia.
Qed.

Example focus_ok_satisfiable :
  raw ex_t = ex_root /\ valid ex_st ex_t /\ wfx ex_t /\
  focused_transform rfc_ltb ex_link q_fixed (fconst (DInt 2)) false false 10 ex_st ex_root ex_path
  = Ok (DMap [(sega, DLink [2%N])], (ex_st', [Some (DInt 1)])) /\
  coherent ex_link ex_st' /\
  (exists t', xupdate rfc_ltb ex_link (fconst (DInt 2)) false ex_st ex_t ex_path = XOk (Some t') (Some (DInt 1))
              /\ valid ex_st' t').
Proof.
  split; [reflexivity|]. split; [exact ex_valid|]. split; [exact ex_wfx|].
  split; [vm_compute; reflexivity|]. split; [exact ex_coherent|].
  eexists. split; [vm_compute; reflexivity|]. repeat constructor.
Qed.

Lemma ex_store_wf : store_wf rfc_ltb ex_link ex_st.
Proof.
  intros c b. simpl. destruct (bytes_eqb c [1%N]) eqn:E; [|discriminate].
  apply bytes_eqb_eq in E; subst. intro H; inversion H; subst. split; reflexivity.
Qed.

Example focus_identity_satisfiable :
  store_wf rfc_ltb ex_link ex_st /\ xfocus (Some ex_t) ex_path = Some (XLeaf (DInt 1)) /\
  focused_transform rfc_ltb ex_link q_fixed fid false false 10 ex_st ex_root ex_path
  = Ok (ex_root, (ex_st, [Some (DInt 1)])).
Proof. split; [exact ex_store_wf|]. split; [reflexivity | vm_compute; reflexivity]. Qed.

Example focus_seq_satisfiable :
  let steps := [(ex_path, fconst (DInt 2), false, false); ([segzz], fconst (DString sega), false, false)] in
  Forall step_wf steps /\
  mseq rfc_ltb ex_link 10 steps ex_st ex_root
  = Ok (DMap [(sega, DLink [2%N]); (segzz, DString sega)], ex_st') /\
  coherent ex_link ex_st' /\
  exists t_f, xseq rfc_ltb ex_link steps ex_t = Some t_f.
Proof.
  cbv zeta. split.
  - repeat constructor; intros x v _ E; inversion E; reflexivity.
  - split; [vm_compute; reflexivity|]. split; [exact ex_coherent|]. eexists. vm_compute. reflexivity.
Qed.

Example quirks_irrelevant_satisfiable :
  (forall x, fconst (DInt 2) x <> None) /\ path_ok false ex_path /\
  focused_transform rfc_ltb ex_link q_pinned (fconst (DInt 2)) false false 10 ex_st ex_root ex_path
  = Ok (DMap [(sega, DLink [2%N])], (ex_st', [Some (DInt 1)])).
Proof.
  split; [discriminate|]. split; [split; [reflexivity | right; reflexivity]|]. vm_compute. reflexivity.
Qed.
