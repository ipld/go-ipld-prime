(* C10, selector part: compilation and walks are total.
     - compile (the Parse* functions): its fuel never runs out (the result does not depend on the fuel beyond
       the nesting depth of the declaration), and its outcomes are a selector, an error or "unsupported" — the model
       has no panic outcome for compilation; the one Go panic site of the Parse* functions, the makeslice of
       ParseExploreRange, is captured by [compile_alloc] / [range_cap_panics]: that it is unbounded is
       C10_compile_range_alloc_refuted (Props/C10.v, through [compile_range_match]); two concrete extremes are below;
     - the walk: for every switch setting without the bare-edge panic (in particular the repaired model and the
       tree after b8b93dd), every selector, every graph without link cycles and every fuel >= walk_fuel, the
       outcome is a result or an error: never Panic, never out of fuel. *)
Require Import IP.Base.Bytes IP.DM.Value IP.Base.GoSem IP.Trav.Selector IP.Trav.Walk IP.Trav.Total
  IP.Proofs.BytesFacts IP.Proofs.TravFacts IP.Proofs.TravSel IP.Proofs.TravPath IP.Proofs.TravDenote IP.Proofs.TravCompile
  IP.Proofs.TravC07Refuted.
From Coq Require Import Lia.
Open Scope Z_scope.

Lemma depth_list_in x l : In x l -> (dm_depth x < dm_depth (DList l))%nat.
Proof.
  intros H. pose proof (fold_max_le dm_depth l) as B. rewrite Forall_forall in B. specialize (B x H). cbn [dm_depth]. lia.
Qed.
Lemma depth_map_in k x m : In (k, x) m -> (dm_depth x < dm_depth (DMap m))%nat.
Proof.
  intros H. pose proof (fold_max_le (fun kv => dm_depth (snd kv)) m) as B. rewrite Forall_forall in B.
  specialize (B (k, x) H). cbn [dm_depth snd] in *. lia.
Qed.
Lemma depth_assoc k m x : assoc k m = Some x -> (dm_depth x < dm_depth (DMap m))%nat.
Proof. intros H. destruct (assoc_In _ _ _ H) as [k' Hin]. eapply depth_map_in; eauto. Qed.

Lemma compile_fields_ext r1 r2 l :
  (forall k x, In (k, x) l -> r1 x = r2 x) -> compile_fields r1 l = compile_fields r2 l.
Proof.
  induction l as [|[k x] t IH]; intros H; [reflexivity|].
  cbn [compile_fields]. rewrite (H k x (or_introl eq_refl)). rewrite IH; [reflexivity|].
  intros; eapply H; right; eauto.
Qed.
Lemma compile_members_ext r1 r2 l :
  (forall x, In x l -> r1 x = r2 x) -> compile_members r1 l = compile_members r2 l.
Proof.
  induction l as [|x t IH]; intros H; [reflexivity|].
  cbn [compile_members]. rewrite (H x (or_introl eq_refl)). rewrite IH; [reflexivity|].
  intros; eapply H; right; eauto.
Qed.

(* for compile_f_stable, whose two sides are the same chain of cbind's at different fuel: open_cbind takes the cases
   of each lookup in the chain (a failed one closes the goal, both sides fail alike) ... *)
Ltac open_cbind :=
  repeat match goal with
         | |- context [cbind (as_map ?b) _] => destruct b; cbn [as_map cbind]; try reflexivity
         | |- context [cbind (cget ?o) _] => destruct o eqn:?; cbn [cget cbind]; try reflexivity
         end.

(* ... and use_sub rewrites the recursive call on a looked-up sub-declaration by the induction hypothesis [Hsub] *)
Ltac use_sub Hsub :=
  match goal with
  | E : assoc _ _ = Some ?x |- context [compile_f _ _ ?x] =>
      let A := fresh in let B := fresh in
      destruct (Hsub _ _ _ eq_refl E) as [A B]; (rewrite A || rewrite B)
  end.

Lemma compile_f_stable : forall f1 f2 b v,
  (dm_depth v < f1)%nat -> (dm_depth v < f2)%nat -> compile_f f1 b v = compile_f f2 b v.
Proof.
  induction f1 as [|f1 IH]; intros f2 b v H1 H2; [lia|]. destruct f2 as [|f2]; [lia|].
  destruct v; try reflexivity. destruct m as [|[k body] [|? ?]]; try reflexivity. cbn [compile_f].
  assert (Hb : (dm_depth body < f1 /\ dm_depth body < f2)%nat) by (cbn [dm_depth fold_right snd] in *; lia).
  destruct Hb as [Hb1 Hb2].
  assert (Hsub : forall bm key x, body = DMap bm -> assoc key bm = Some x -> compile_f f1 b x = compile_f f2 b x /\
                                   compile_f f1 true x = compile_f f2 true x).
  { intros bm key x -> Hx. pose proof (depth_assoc _ _ _ Hx). split; apply IH; lia. }
  destruct (bytes_eqb k k_fields).
  { open_cbind. f_equal. apply compile_fields_ext. intros fk x Hin.
    match goal with E : assoc _ _ = Some (DMap _) |- _ => pose proof (depth_assoc _ _ _ E) end.
    pose proof (depth_map_in _ _ _ Hin). apply IH; lia. }
  destruct (bytes_eqb k k_all).
  { open_cbind. use_sub Hsub. reflexivity. }
  destruct (bytes_eqb k k_index).
  { open_cbind. use_sub Hsub. reflexivity. }
  destruct (bytes_eqb k k_range).
  { open_cbind. destruct (_ <=? _); [reflexivity|]. open_cbind. use_sub Hsub. reflexivity. }
  destruct (bytes_eqb k k_union).
  { destruct body; try reflexivity. f_equal. apply compile_members_ext. intros x Hin.
    pose proof (depth_list_in _ _ Hin). apply IH; lia. }
  destruct (bytes_eqb k k_rec).
  { open_cbind. use_sub Hsub. reflexivity. }
  reflexivity.
Qed.

Lemma zrange_length a n : length (zrange a n) = n.
Proof. revert a; induction n; intros; cbn; auto. Qed.

(* the size of a declaration, for C10_compile_range_alloc_refuted (Props/C10.v): the allocation is not bounded by
   anything the size of the declaration determines, a declaration of 6 nodes makes the compiler hold K path segments,
   for every K *)
Fixpoint dm_nodes (v : dm) : nat :=
  match v with
  | DList l => S (fold_right (fun x a => dm_nodes x + a)%nat O l)
  | DMap m => S (fold_right (fun kv a => dm_nodes (snd kv) + a)%nat O m)
  | _ => 1%nat
  end.

Lemma as_int_in z : - int64_lim <= z < int64_lim -> as_int (DInt z) = Some z.
Proof.
  intros H. unfold as_int.
  replace ((- int64_lim <=? z) && (z <? int64_lim))%bool with true; [reflexivity|].
  symmetry. apply andb_true_iff. split; [apply Z.leb_le|apply Z.ltb_lt]; lia.
Qed.

(* [as_int] and the comparison stay folded: unfolding them against the 2^63 literals is what makes evaluation dear *)
Lemma compile_range_match a b :
  - int64_lim <= a < int64_lim -> - int64_lim <= b < int64_lim -> a < b ->
  compile (d_range a b d_match) = COk (SRange a b (SMatch None)).
Proof.
  intros Ha Hb Hab. unfold compile, d_range, d_match.
  cbn -[as_int Z.leb]. rewrite !as_int_in by assumption. cbn -[Z.leb].
  rewrite (proj2 (Z.leb_gt b a) Hab). reflexivity.
Qed.

(* concrete extremes: 2^40 elements (24 TiB: a fatal out-of-memory in Go), and the full int64 span, whose
   capacity expression wraps negative (makeslice panics) *)
Example range_alloc_witnesses :
  (exists s, compile (d_range 0 1099511627776 d_match) = COk s /\ compile_alloc s = 1099511627776) /\
  (exists s, compile (d_range (-9223372036854775808) 9223372036854775807 d_match) = COk s /\
             range_cap_panics (-9223372036854775808) 9223372036854775807 = true /\
             compile_alloc s = 18446744073709551615).
Proof.
  split; eexists; (split; [apply compile_range_match; unfold int64_lim; lia|]); repeat split; vm_compute; reflexivity.
Qed.

Lemma rec_wrap_no_panic q sq lim stop nx : rec_wrap q sq lim stop nx <> XPanic.
Proof.
  unfold rec_wrap. destruct (q_shared_depth q).
  - destruct (has_edge nx) eqn:He; cbn [negb]; [|discriminate].
    destruct (exhausted lim).
    + destruct (q_exhausted_unwrap q); [discriminate|]. destruct (replace_edge nx None); discriminate.
    + destruct (replace_edge nx (Some sq)) eqn:Er; [discriminate|]. exfalso. eapply replace_some_not_none; eauto.
  - destruct (_ && _)%bool; discriminate.
Qed.

Lemma explore_no_panic q (Hq : q_bare_edge_panic q = false) s : forall n p, explore q s n p <> XPanic.
Proof.
  induction s as [sl|nx IH|fs IH|i nx IH|a b' nx IH|ms IH|sq cur lim stop IH1 IH2|] using sel_ind2;
    intros n p; try (rewrite explore_next by reflexivity; discriminate).
  - rewrite explore_union.
    assert (E : explore_all q n p ms <> XPanic).
    { induction IH as [|m t Hx _ IHt]; [discriminate|].
      cbn. specialize (Hx n p). destruct (explore q m n p); try congruence.
      destruct (explore_all q n p t); congruence. }
    destruct (explore_all q n p ms); congruence.
  - cbn [explore]. destruct stop as [c|].
    + destruct (lookup_seg n p); [|discriminate]. destruct (cond_match c d); [discriminate|].
      destruct (is_edge cur); [discriminate|]. specialize (IH2 n p).
      destruct (explore q cur n p) as [[nx|]| |]; try congruence; apply rec_wrap_no_panic.
    + destruct (is_edge cur); [discriminate|]. specialize (IH2 n p).
      destruct (explore q cur n p) as [[nx|]| |]; try congruence; apply rec_wrap_no_panic.
  - cbn. rewrite Hq. discriminate.
Qed.

Definition total_outcome (o : outcome) : Prop := o <> OPanic /\ o <> OFuel.

Lemma values_depth n x : In x (values n) -> (dm_depth x < dm_depth n)%nat.
Proof.
  destruct n; try (intros []).
  - apply depth_list_in.
  - cbn. intros H. apply in_map_iff in H. destruct H as ([k y] & <- & Hin). eapply depth_map_in; eauto.
Qed.

Lemma values_links_ok g chk n x : links_ok g chk n = true -> In x (values n) -> links_ok g chk x = true.
Proof. apply (values_forallb (links_ok g chk)). destruct n; try exact I; exact (fun H => H). Qed.
Lemma values_chain_ok g k n x : chain_ok g k n = true -> In x (values n) -> chain_ok g k x = true.
Proof. destruct k; cbn [chain_ok]; apply values_links_ok. Qed.

Lemma blocks_depth_bound g c b : assoc c g = Some b -> (dm_depth b <= blocks_depth g)%nat.
Proof. apply (assoc_Forall (fun x => dm_depth x <= blocks_depth g)%nat), (fold_max_le (fun cb => dm_depth (snd cb)) g). Qed.

Section WalkTotal.
  Variable q : quirks.
  Hypothesis Hq : q_bare_edge_panic q = false.
  Variable g : list (bytes * dm).
  Let D := blocks_depth g.

  (* k bounds the link crossings still possible below n.  Fuel: within a block each walk level goes one level down
     in the value (depth n + 1 levels); crossing a link starts over in a block of depth at most D, S D levels. *)
  Lemma walk_total_gen f k ls P n s :
    chain_ok g k n = true -> (dm_depth n + 1 + k * S D <= f)%nat ->
    total_outcome (snd (walk q g f ls P n s)).
  Proof.
    intros Hc Hf.
    apply (walk_inv q g (fun f _ _ n _ => exists k, chain_ok g k n = true /\ (dm_depth n + 1 + k * S D <= f)%nat)
                    (fun _ => True) total_outcome); try (repeat split; discriminate); eauto.
    - intros ls' P' n' s' (k' & _ & H). lia.
    - clear - Hq. intros f ls P n s ps x (k & Hc & Hf) Hin.
      pose proof (children_values q n s ps x Hin) as Hv.
      pose proof (values_depth n x Hv) as Hd. pose proof (values_chain_ok g k n x Hc Hv) as Hcx.
      pose proof (explore_no_panic q Hq s n ps) as Hnp.
      destruct (explore q s n ps) as [[s'|]| |]; [|exact I|exact I|congruence].
      assert (Hx : exists k0, chain_ok g k0 x = true /\ (dm_depth x + 1 + k0 * S D <= f)%nat)
        by (exists k; split; [exact Hcx|lia]).
      destruct x; try exact Hx.
      split; [exact I|]. intros b Eb. destruct k as [|k']; cbn [chain_ok links_ok] in Hcx; rewrite Eb in Hcx; [discriminate|].
      pose proof (blocks_depth_bound g c b Eb) as Hb. fold D in Hb. exists k'. split; [exact Hcx|nia].
  Qed.
End WalkTotal.

(* the hypotheses are satisfiable, and a link cycle is what chain_ok excludes *)
Example walk_total_example :
  let g := [([1; 113; 18; 1; 170]%N, DMap [([118%N], DInt 7)])] in
  let root := DMap [([97%N], DLink [1; 113; 18; 1; 170]%N); ([98%N], DList [DInt 1; DLink [1; 113; 18; 1; 170]%N])] in
  chain_ok g (length g) root = true /\ walk_fuel g root = 5%nat /\
  chain_ok [([1%N], DList [DLink [1%N]])] 1 (DLink [1%N]) = false.
Proof. repeat split; vm_compute; reflexivity. Qed.
