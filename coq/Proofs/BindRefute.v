(* The witnesses with which Props/C19.v shows where the pinned tree falls short of C19
   (each is also a case of the harness corpus; the theorems about them, closed computations on the faithful model,
   stand there), and the definitions [marshal] / [unmarshal] of Marshal / Unmarshal through an abstract codec
   (ipld.Marshal = encode the representation view; ipld.Unmarshal = decode, then build at representation level into
   a fresh value), which the round-trip files use. *)
Require Import IP.Base.Bytes IP.DM.Value IP.Bind.GoVal IP.Bind.Bind IP.Bind.Spec.
Open Scope N_scope.

Definition fA : bytes := [65].
Definition fV : bytes := [86].
Definition fL : bytes := [76].
Definition fE : bytes := [69].

(* integer narrowing on assembly (node.go AssignInt / assignUInt: "TODO: check for overflow") *)

Definition t_narrow : sty := TStruct [78] [(fA, fA, TInt, false, false)] SRMap.
Definition s_narrow : shape := SStruct [78] [(fA, SInt I8)].          (* struct { A int8 } *)
Definition d_300 : dm := DMap [(fA, DInt 300)].

Lemma narrowing_repaired : forall n32,
  asm repaired LType n32 t_narrow s_narrow (zero_of s_narrow) false d_300 = Err XRange.
Proof. reflexivity. Qed.

(* a Go uint (kind Uint, not Uint64) above MaxInt64 cannot be read *)

Definition t_bigu : sty := TStruct [66] [(fV, fV, TInt, false, false)] SRMap.
Definition s_bigu : shape := SStruct [66] [(fV, SInt UInt)].          (* struct { V uint } *)
Definition g_bigu : gv := GStruct [GInt 9223372036854775813].          (* 1<<63 + 5 *)

(* accepted by verifyCompatibility, outside [bindable] *)

(* nullable Int bound to *uint8: AssignInt takes the SetInt branch and panics in reflect *)
Definition t_nulu : sty := TStruct [78] [(fV, fV, TInt, false, true)] SRMap.
Definition s_nulu : shape := SStruct [78] [(fV, SPtr (SInt U8))].

(* optional [String] bound to a plain slice: a present empty list comes back absent *)
Definition t_optl : sty := TStruct [79] [(fL, fL, TList [] TString false, true, false)] SRMap.
Definition s_optl : shape := SStruct [79] [(fL, SSlice [] SString)].

(* enum with an int representation bound to a Go int: the type-level node reads "<int Value>",
   the type-level builder panics *)
Definition t_enum : sty :=
  TStruct [69] [(fE, fE, TEnum [67] [([82], [82], 1%Z); ([71], [71], 2%Z)] ERInt, false, false)] SRMap.
Definition s_enum : shape := SStruct [69] [(fE, SInt IInt)].

Section Marshal.
  Variable q : quirks.
  Variable n32 : N -> N.
  Variable enc : dm -> bytes.
  Variable dec : bytes -> bres dm.

  Definition marshal (t : sty) (s : shape) (g : gv) : bres bytes :=
    do d <- view q LRepr t s g; Ok (enc d).
  Definition unmarshal (t : sty) (s : shape) (b : bytes) : bres gv :=
    do d <- dec b; asm q LRepr n32 t s (zero_of s) false d.
End Marshal.

(* the hypotheses of C19_marshal_roundtrip (the first three conjuncts) and of C19_unwrap ([bindable], [fits]) are
   satisfiable: struct { X int64; Y string } with a value *)
Definition t_inner : sty := TStruct [73] [([88], [120], TInt, false, false); ([89], [89], TString, false, false)] SRMap.
Definition s_inner : shape := SStruct [73] [([88], SInt I64); ([89], SString)].
Definition g_inner : gv := GStruct [GInt 7; GString [97; 98]].
Example marshal_hyps_sat : forall q n32,
  is_any t_inner = false /\ bindable t_inner s_inner = true /\ gv_ok q n32 t_inner s_inner g_inner = true /\
  fits q LRepr n32 t_inner s_inner (denote LRepr t_inner g_inner) = true.
Proof. intros. repeat split. Qed.
