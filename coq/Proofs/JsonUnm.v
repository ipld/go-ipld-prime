(* Proofs/JsonUnm.v — the look-ahead part of C04 on the abstract window machine:
   the tokens of a json_safe value unmarshal back to the value; a non-reserved map never parses as
   a link or as bytes; the reserved forms parse back to the same link / bytes; the window never
   holds a token the list loop would skip, and `shift = 0` never drops one. *)
Require Import IP.Base.Bytes IP.DM.Value IP.Codec.Utf8 IP.Codec.Base64 IP.Codec.DagJson.
Require Import IP.Proofs.BytesFacts.
Require Import IP.Proofs.JsonBase64 IP.Proofs.JsonTok IP.Proofs.JsonAbs.
From Coq Require Import ZifyN ZifyNat ZifyBool.
Open Scope N_scope.

Definition is_nil {A} (l : list A) : bool := match l with [] => true | _ => false end.

(* window invariant: an ArrOpen is only ever the last token held; after a MapOpen followed by the
   key "/" nothing further is held *)
Fixpoint winI (w : list tok) : bool :=
  match w with
  | [] => true
  | TArrOpen :: r => is_nil r
  | TMapOpen :: r =>
    (match r with TString k :: q => negb (bytes_eqb k slash) || is_nil q | _ => true end) && winI r
  | _ :: r => winI r
  end.

Lemma winI_tl t w : winI (t :: w) = true -> winI w = true.
Proof.
  destruct t; cbn [winI]; intros H; try assumption.
  - apply andb_true_iff in H. tauto.
  - destruct w; [reflexivity|discriminate].
Qed.

Lemma winI_skipn j w : winI w = true -> winI (skipn j w) = true.
Proof.
  revert w. induction j as [|j IH]; intros w H; [assumption|]. destruct w as [|t w]; [reflexivity|].
  cbn [skipn]. apply IH. eapply winI_tl; eassumption.
Qed.

Lemma winI_single (t : tok) : winI [t] = true.
Proof. destruct t; reflexivity. Qed.

Lemma nodup_keys_iff {V} (m : list (bytes * V)) : nodup_keys m = true <-> NoDup (map fst m).
Proof.
  induction m as [|[k x] r IH]; cbn [nodup_keys map fst]; [split; [constructor|reflexivity]|].
  now rewrite andb_true_iff, negb_true_iff, IH, NoDup_cons_iff, <- not_true_iff_false, existsb_eqb_In.
Qed.

Lemma fuel_split a b f : (2 + S (a + b) <= S (S f))%nat -> (a <= f)%nat /\ (2 + b <= S f)%nat.
Proof. lia. Qed.

Section Unm.
  Variable fmt_float : N -> bytes.
  Variable parse_float : bytes -> option N.
  Variable cid_str : bytes -> bytes.
  Variable cid_parse : bytes -> option bytes.
  Variable cid_ok : bytes -> bool.

  (* what Marshal asks the encoder to write, as a syntax tree *)
  Fixpoint to_js (v : dm) : js :=
    match v with
    | DNull => JNull
    | DBool b => JBool b
    | DInt z => JNum (print_int z) (TInt z)
    | DFloat f => JNum (fmt_float f) (TFloat f)
    | DString s => JStr s
    | DBytes b => JObj [(slash, JObj [(bytes_word, JStr (b64_encode b))])]
    | DLink c => JObj [(slash, JStr (cid_str c))]
    | DList l => JArr (map to_js l)
    | DMap m => JObj (map (fun kv => (fst kv, to_js (snd kv))) m)
    end.

  Definition toks (v : dm) : list tok := jtoks (to_js v).
  Definition ents (m : list (bytes * dm)) : list tok := flat_map (fun kv => TString (fst kv) :: toks (snd kv)) m.
  Definition elts (l : list dm) : list tok := flat_map toks l.

  Lemma toks_map m : toks (DMap m) = TMapOpen :: ents m ++ [TMapClose].
  Proof.
    unfold toks, ents. cbn [to_js jtoks]. now rewrite !flat_map_concat_map, map_map.
  Qed.

  Lemma toks_list l : toks (DList l) = TArrOpen :: elts l ++ [TArrClose].
  Proof.
    unfold toks, elts. cbn [to_js jtoks]. now rewrite !flat_map_concat_map, map_map.
  Qed.

  Lemma toks_nonempty v : exists t r, toks v = t :: r /\ is_arr_close t = false.
  Proof. destruct v; eexists; eexists; split; reflexivity. Qed.

  Lemma ents_cons k x m : ents ((k, x) :: m) = TString k :: toks x ++ ents m.
  Proof. reflexivity. Qed.

  Definition val_safe := json_safe cid_ok.

  Lemma alink_n1 n t L : (n <= 1)%nat -> alink cid_parse (n, t :: L) = alink cid_parse (1%nat, t :: L).
  Proof. destruct n as [|[|n]]; [reflexivity|reflexivity|lia]. Qed.

  (* a leaf of lookahead_none's case analysis: the head of the token list is explicit, both look-aheads are evaluated
     on it (from a window of at most one token: alink_n1) and say "no" *)
  Ltac lookahead_leaf :=
    eexists; eexists; split; [rewrite alink_n1 by assumption; reflexivity|split; [reflexivity|split; [reflexivity|
      rewrite ?app_length; cbn [length]; rewrite ?app_length; cbn [length]; lia]]].

  (* the last conjunct: the window grows by tokens of the map only, what it holds beyond them is what it held before *)
  Lemma lookahead_none m R n :
    reserved_shape m = false ->
    winI (TMapOpen :: firstn n (ents m ++ TMapClose :: R)) = true ->
    exists n1 n2,
      alink cid_parse (n, ents m ++ TMapClose :: R) = Ok (None, (n1, ents m ++ TMapClose :: R)) /\
      abytes (n1, ents m ++ TMapClose :: R) = Ok (None, (n2, ents m ++ TMapClose :: R)) /\
      winI (firstn n2 (ents m ++ TMapClose :: R)) = true /\
      (n2 - (length (ents m) + 1) = n - (length (ents m) + 1))%nat.
  Proof.
    intros NR W.
    destruct m as [|[k x] m'].
    { cbn [ents flat_map app] in *. destruct n as [|n].
      - exists 1%nat, 1%nat. repeat split; try reflexivity; lia.
      - exists (S n), (S n). cbn [firstn winI] in W. repeat split; try reflexivity; try lia.
        cbn [firstn]. exact W. }
    rewrite ents_cons in *. cbn [app] in *.
    destruct (bytes_eqb k slash) eqn:Hk.
    2:{ destruct n as [|n].
      - exists 1%nat, 1%nat. unfold alink, abytes, apeek. cbn [fst snd nth_error pred Nat.ltb Nat.leb Nat.eqb bind].
        rewrite Hk. cbn [negb bind]. repeat split; try reflexivity; try lia.
      - exists (S n), (S n). unfold alink, abytes, apeek. cbn [fst snd nth_error pred Nat.ltb Nat.leb Nat.eqb bind].
        rewrite Hk. cbn [negb bind]. repeat split; try reflexivity; try lia.
        eapply winI_tl. exact W. }
    apply bytes_eqb_eq in Hk. subst k.
    assert (Hn : (n <= 1)%nat).
    { destruct n as [|[|n]]; try lia. exfalso. destruct (toks_nonempty x) as (t & r & Et & _).
      rewrite Et in W. cbn [app firstn winI] in W. cbn in W. discriminate. }
    destruct x as [|b|z|f|s|bs|c|l|mm];
      [unfold toks in W |- *; cbn [to_js jtoks flat_map fst snd app] in * ..
      |rewrite toks_list in *; cbn [app] in *|rewrite toks_map in *; cbn [app] in *].
    1-4: lookahead_leaf.
    - destruct m' as [|[k2 y] m''].
      { cbn in NR. discriminate. }
      rewrite ents_cons. cbn [app]. lookahead_leaf.
    - lookahead_leaf.
    - lookahead_leaf.
    - lookahead_leaf.
    - rewrite <- app_assoc in *. cbn [app] in *.
      destruct mm as [|[k2 y] mm'].
      { cbn [ents flat_map app] in *. lookahead_leaf. }
      rewrite ents_cons in *. cbn [app] in *. rewrite <- app_assoc in *.
      destruct (bytes_eqb k2 bytes_word) eqn:Hk2.
      2:{ exists 2%nat, 3%nat. split; [rewrite alink_n1 by assumption; reflexivity|]. split.
          - unfold abytes, apeek. cbn [fst snd nth_error pred Nat.ltb Nat.leb Nat.eqb bind].
            change (bytes_eqb slash slash) with true. cbn [negb bind fst snd nth_error pred Nat.ltb Nat.leb Nat.eqb].
            now rewrite Hk2.
          - split; [cbn; rewrite ?orb_true_r; reflexivity|].
            rewrite ?app_length; cbn [length]; rewrite ?app_length; cbn [length]; lia. }
      apply bytes_eqb_eq in Hk2. subst k2.
      destruct y as [|b|z|f|s|bs|c|l|mm2];
        [unfold toks in W |- *; cbn [to_js jtoks flat_map fst snd app] in * ..
        |rewrite toks_list in *; cbn [app] in *|rewrite toks_map in *; cbn [app] in *].
      1-4,6-9: lookahead_leaf.
      destruct mm' as [|[k3 z] mm''].
      2:{ rewrite ents_cons. cbn [app]. lookahead_leaf. }
      cbn [ents flat_map app] in *.
      destruct m' as [|[k3 z] m''].
      { cbn in NR. discriminate. }
      rewrite ents_cons. cbn [app]. lookahead_leaf.
  Qed.

  (* fuel unmarshal needs on the tokens of v: one unit per value, one per round of a map or list loop, one per
     composite for the round that meets its closing token *)
  Fixpoint need (v : dm) : nat :=
    match v with
    | DList l => 2 + fold_right (fun x a => S (need x + a)) 0%nat l
    | DMap m => 2 + fold_right (fun kv a => S (need (snd kv) + a)) 0%nat m
    | _ => 1
    end.

  (* two units per token cover it (a composite has its two brackets beside its entries' key tokens), and a token is at
     least a byte of text: JsonTotal.Yields_shorter *)
  Lemma need_toks v : (S (need v) <= 2 * length (toks v))%nat.
  Proof using fmt_float cid_str.
    clear parse_float cid_parse cid_ok. induction v as [|b|z|x|s|bs|c|l IH|m IH] using dm_ind2; try (cbn; lia).
    - rewrite toks_list. cbn [need length]. rewrite app_length. cbn [length].
      assert (fold_right (fun x a => S (need x + a)) 0 l <= 2 * length (elts l))%nat; [|lia].
      induction IH as [|x r Hx _ IHr]; [cbn; lia|]. unfold elts in *. cbn [fold_right flat_map]. rewrite app_length. lia.
    - rewrite toks_map. cbn [need length]. rewrite app_length. cbn [length].
      assert (fold_right (fun kv a => S (need (snd kv) + a)) 0 m <= 2 * length (ents m))%nat; [|lia].
      induction IH as [|[k x] r Hx _ IHr]; [cbn; lia|]. rewrite ents_cons. cbn [fold_right snd length] in *. rewrite app_length. lia.
  Qed.

  Hypothesis Hcid : forall c, cid_ok c = true -> cid_parse (cid_str c) = Some c.
  Variable o : jdopts.

  Definition depth_ok (d : Z) (v : dm) : Prop := (d + Z.of_N (jdepth v) <= jmax_depth o)%Z.

  Lemma depth_check d v : depth_ok d v -> (1 <= jdepth v) -> (jmax_depth o <=? d)%Z = false.
  Proof. unfold depth_ok. intros. apply Z.leb_gt. lia. Qed.

  Lemma depth_ok_list d x r : depth_ok d (DList (x :: r)) -> depth_ok (d + 1) x /\ depth_ok d (DList r).
  Proof. unfold depth_ok. cbn [jdepth fold_right]. lia. Qed.

  Lemma depth_ok_map d kv r : depth_ok d (DMap (kv :: r)) -> depth_ok (d + 1) (snd kv) /\ depth_ok d (DMap r).
  Proof. unfold depth_ok. cbn [jdepth fold_right]. lia. Qed.

  Hypothesis Olinks : jd_links o = true.
  Hypothesis Obytes : jd_bytes o = true.

  (* unmarshal on the abstract window, called as unmarshal is: tk[0] is the value's first token, [n] of the
     tokens that follow (the value's remaining ones, then R) are already in the window.  It returns the value and
     leaves the window holding what it had beyond the value's own tokens: n - (length (toks v) - 1), by
     truncated subtraction 0 when the window ended inside the value *)
  Definition P (gf : N -> bool) (v : dm) : Prop :=
    val_safe gf v = true -> forall f n R d, (need v <= f)%nat -> depth_ok d v ->
      winI (firstn (S n) (toks v ++ R)) = true ->
      aunm cid_parse f o d (hd TNull (toks v)) (n, tl (toks v) ++ R) = Ok (v, ((n - (length (toks v) - 1))%nat, R)).

  Lemma U_list gf l : Forall (P gf) l -> forallb (val_safe gf) l = true ->
    forall f R d, (need (DList l) <= S f)%nat -> depth_ok d (DList l) ->
      aunm_list cid_parse f o d (0%nat, elts l ++ TArrClose :: R) = Ok (l, (0%nat, R)).
  Proof.
    induction 1 as [|x r Hx Hr IH]; intros Sf f R d Hf Hd.
    - destruct f as [|f]; [clear - Hf; cbn in Hf; lia|]. reflexivity.
    - cbn [forallb] in Sf. apply andb_true_iff in Sf. destruct Sf as [Sx Sr].
      destruct (depth_ok_list _ _ _ Hd) as [Dx Dr]. cbn [need fold_right] in Hf.
      destruct f as [|f]; [clear - Hf; lia|]. destruct (fuel_split _ _ _ Hf) as [Fx Fr].
      destruct (toks_nonempty x) as (t & tr & Et & NC).
      unfold elts. cbn [flat_map]. fold (elts r). rewrite Et. rewrite <- app_assoc. cbn [app].
      rewrite aunm_list_S, list_step_if. unfold anext_direct. cbn [fst snd bind]. rewrite NC.
      pose proof (Hx Sx f 0%nat (elts r ++ TArrClose :: R) (d + 1)%Z Fx Dx) as Hc.
      rewrite Et in Hc. cbn [hd tl app firstn] in Hc. rewrite (Hc (winI_single t)). cbn [bind Nat.sub].
      rewrite IH; [reflexivity|assumption|exact Fr|assumption].
  Qed.

  Lemma U_map gf m : Forall (fun kv => P gf (snd kv)) m ->
    forallb (fun kv => utf8_valid (fst kv) && val_safe gf (snd kv)) m = true ->
    forall f seen n R d, NoDup (rev seen ++ map fst m) ->
      (need (DMap m) <= S f)%nat -> depth_ok d (DMap m) ->
      winI (firstn n (ents m ++ TMapClose :: R)) = true ->
      aunm_map cid_parse f o d seen (n, ents m ++ TMapClose :: R) = Ok (m, ((n - (length (ents m) + 1))%nat, R)).
  Proof.
    induction 1 as [|[k x] r Hx Hr IH]; intros Sf f seen n R d ND Hf Hd W.
    - destruct f as [|f]; [clear - Hf; cbn in Hf; lia|]. rewrite aunm_map_S. unfold map_step, anext. cbn [ents flat_map app fst snd bind length].
      do 3 f_equal. clear. lia.
    - cbn [forallb snd] in Sf. apply andb_true_iff in Sf. destruct Sf as [Sx Sr]. apply andb_true_iff in Sx. destruct Sx as [_ Sx].
      destruct (depth_ok_map _ _ _ Hd) as [Dx Dr]. cbn [snd] in *. cbn [map fst] in ND.
      cbn [need fold_right snd] in Hf.
      destruct f as [|f]; [clear - Hf; lia|]. destruct (fuel_split _ _ _ Hf) as [Fx Fr].
      destruct (toks_nonempty x) as (t & tr & Et & _).
      rewrite ents_cons in *. cbn [app] in *. rewrite <- app_assoc in *. rewrite Et in *. cbn [app] in *.
      rewrite aunm_map_S. unfold map_step, anext. cbn [fst snd bind].
      destruct (seen_fresh _ _ _ ND) as [-> ND']. cbn [bind].
      set (R' := ents r ++ TMapClose :: R) in *.
      set (pp := pred (pred n)).
      assert (W' : winI (firstn (S pp) (t :: tr ++ R')) = true).
      { destruct n as [|[|n']]; [apply winI_single|apply winI_single|]. exact W. }
      pose proof (Hx Sx f pp R' (d + 1)%Z Fx Dx) as Hc.
      rewrite Et in Hc. cbn [hd tl] in Hc. rewrite (Hc W'). cbn [bind].
      assert (Ltx : length (toks x) = S (length tr)) by (rewrite Et; reflexivity).
      subst R'. rewrite IH; try assumption.
      + cbn [length]. rewrite app_length. cbn [bind]. do 3 f_equal. unfold pp. clear. lia.
      + replace (pp - (length (t :: tr) - 1))%nat with (S pp - length (toks x))%nat by (rewrite Ltx; cbn [length]; clear; lia).
        set (R' := ents r ++ TMapClose :: R) in *.
        assert (E : R' = skipn (length (toks x)) ((t :: tr) ++ R')).
        { rewrite <- Et. now rewrite skipn_app, skipn_all, Nat.sub_diag. }
        rewrite E at 1. rewrite <- skipn_firstn_comm. apply winI_skipn. exact W'.
  Qed.

  (* the look-ahead part of C04, together with the structural recursion *)
  Theorem U gf v : P gf v.
  Proof.
    induction v as [|b|z|x|s|bs|c|l IH|m IH] using dm_ind2; intros Sf f n R d Hf Hd W;
      try (destruct f as [|f]; [inversion Hf|]; cbn [toks to_js jtoks hd tl app length];
           rewrite aunm_S; unfold unm_step, toks; cbn [to_js jtoks hd tl app length]; do 3 f_equal; symmetry; apply Nat.sub_0_r).
    - destruct f as [|f]; [inversion Hf|]. unfold toks in *. cbn [to_js jtoks flat_map fst snd app hd tl length] in *.
      assert (Hn : (n <= 1)%nat) by (destruct n as [|[|n]]; [apply le_S, le_n|apply le_n|cbn in W; discriminate]).
      rewrite aunm_S; unfold unm_step; rewrite (depth_check d (DBytes bs) Hd (N.le_refl 1)). rewrite Olinks, Obytes.
      cbn [val_safe json_safe] in Sf.
      assert (B : b64_decode_go (b64_encode bs) = Some bs) by (now apply base64_roundtrip, bytes_ok_wf).
      match goal with |- _ = Ok (_, (?k, _)) => replace k with 0%nat by (cbn [length]; clear - Hn; lia) end.
      rewrite alink_n1 by assumption. unfold alink, abytes, apeek. cbn [fst snd nth_error pred Nat.ltb Nat.leb Nat.eqb bind].
      change (bytes_eqb slash slash) with true. change (bytes_eqb bytes_word bytes_word) with true.
      cbn [negb bind fst snd nth_error pred Nat.ltb Nat.leb Nat.eqb]. now rewrite B.
    - destruct f as [|f]; [inversion Hf|]. unfold toks in *. cbn [to_js jtoks flat_map fst snd app hd tl length] in *.
      assert (Hn : (n <= 1)%nat) by (destruct n as [|[|n]]; [apply le_S, le_n|apply le_n|cbn in W; discriminate]).
      rewrite aunm_S; unfold unm_step; rewrite (depth_check d (DLink c) Hd (N.le_refl 1)). rewrite Olinks.
      cbn [val_safe json_safe] in Sf.
      match goal with |- _ = Ok (_, (?k, _)) => replace k with 0%nat by (cbn [length]; clear - Hn; lia) end.
      rewrite alink_n1 by assumption. unfold alink, apeek. cbn [fst snd nth_error pred Nat.ltb Nat.leb Nat.eqb bind].
      change (bytes_eqb slash slash) with true.
      cbn [negb bind fst snd nth_error pred Nat.ltb Nat.leb Nat.eqb]. now rewrite (Hcid c Sf).
    - destruct f as [|f]; [inversion Hf|]. rewrite toks_list in *. cbn [hd tl app] in *.
      rewrite <- app_assoc in *. cbn [app] in *.
      assert (n = 0)%nat as ->.
      { destruct n as [|n]; [reflexivity|]. cbn [firstn winI] in W.
        destruct (elts l ++ TArrClose :: R) eqn:E; [destruct (elts l); discriminate|]. discriminate. }
      rewrite aunm_S; unfold unm_step; rewrite (depth_check d (DList l) Hd (N.le_add_r 1 _)).
      now rewrite (U_list gf l IH Sf f R d Hf Hd).
    - destruct f as [|f]; [inversion Hf|]. rewrite toks_map in *. cbn [hd tl app] in *.
      rewrite <- app_assoc in *. cbn [app] in *.
      cbn [val_safe json_safe] in Sf. apply andb_true_iff in Sf. destruct Sf as [Sf S3].
      apply andb_true_iff in Sf. destruct Sf as [S1 S2]. apply negb_true_iff in S2.
      destruct (lookahead_none m R n S2 W) as (n1 & n2 & A1 & A2 & W2 & Hn2).
      rewrite aunm_S; unfold unm_step; rewrite (depth_check d (DMap m) Hd (N.le_add_r 1 _)). rewrite Olinks, Obytes.
      rewrite A1. cbn [bind]. rewrite A2. cbn [bind].
      rewrite (U_map gf m IH) with (d := d); try assumption.
      + cbn [bind]. cbn [length]. rewrite app_length. cbn [length]. do 3 f_equal. clear - Hn2. lia.
      + now apply nodup_keys_iff.
  Qed.
End Unm.
