(* Proofs/GoLeaf.v — facts about leaf functions translated from the Go source by gotrans
   (coq/Gen/FromGo.v).  These are re-checked against the current source on every run. *)
Require Import IP.Base.GoSem IP.Gen.FromGo.
From Coq Require Import Lia ZifyBool.
Open Scope Z_scope.

Lemma wrap64_id z : in64 z -> wrap64 z = z.
Proof. unfold in64, wrap64, two63. intros. rewrite Z.mod_small; lia. Qed.

(* traversal/selector/matcher.go sliceBounds is exactly the intended normalisation: negative bounds count
   from the end, the upper bound is clipped to the length, a negative lower bound is clipped to 0 *)
Theorem slice_bounds_spec from to length :
  in64 from -> in64 to -> 0 <= length < two63 ->
  let to' := if to <? 0 then length + to else Z.min to length in
  let from' := if from <? 0 then Z.max 0 (length + from) else from in
  go_sliceBounds from to length =
    if (from' >? to') || (from' >=? length) then (false, 0, 0) else (true, from', to').
Proof.
  intros Hf Ht Hl. cbv zeta. unfold go_sliceBounds, add64.
  assert (Hw1 : to < 0 -> wrap64 (length + to) = length + to) by
    (intros; apply wrap64_id; unfold in64, two63 in *; lia).
  assert (Hw2 : from < 0 -> wrap64 (length + from) = length + from) by
    (intros; apply wrap64_id; unfold in64, two63 in *; lia).
  (* only the tests that normalise the two bounds are split: the final range test is the same term on both sides *)
  destruct (Z.ltb_spec to 0); [rewrite Hw1 by assumption|destruct (Z.ltb_spec length to)];
  (destruct (Z.ltb_spec from 0); [rewrite Hw2 by assumption; destruct (Z.ltb_spec (length + from) 0)|]);
  rewrite ?Z.max_l, ?Z.max_r, ?Z.min_l, ?Z.min_r by lia; reflexivity.
Qed.

(* no overflow in sliceBounds can produce an out-of-range slice *)
Theorem slice_bounds_safe from to length :
  in64 from -> in64 to -> 0 <= length < two63 ->
  forall f t, go_sliceBounds from to length = (true, f, t) -> 0 <= f <= t /\ t <= length /\ f < length.
Proof.
  intros Hf Ht Hl f t. rewrite (slice_bounds_spec _ _ _ Hf Ht Hl). cbv zeta.
  destruct (_ || _) eqn:E; [discriminate|]. intros H; inversion H; subst; clear H.
  destruct (to <? 0) eqn:?, (from <? 0) eqn:?; lia.
Qed.

(* codec/dagcbor/marshal.go uintLength: the length of the shortest CBOR head for an argument *)
Theorem uint_length_spec ii : 0 <= ii ->
  go_uintLength ii = if ii <? 24 then 1 else if ii <? 256 then 2 else if ii <? 65536 then 3
                     else if ii <? 4294967296 then 5 else 9.
Proof.
  (* gotrans keeps the Go switch's unreachable last case: both sides of the final test give 9 *)
  intros _. unfold go_uintLength. now destruct (ii <? 0).
Qed.

(* storage/sharding: the shard functions never hit a slice-bounds panic, the last component is
   the key itself, and every other component has the stated width ([shard_r*_total]; the store proofs take the
   equations [shard_r*_eq] and keep less of them: [shard_comp_ok] of Proofs/StoreBase.v) *)
Lemma substr_ok {A} (s : list A) lo hi : 0 <= lo <= hi -> hi <= len64 s ->
  substr s lo hi = Some (firstn (Z.to_nat (hi - lo)) (skipn (Z.to_nat lo) s)).
Proof.
  intros H1 H2. unfold substr.
  destruct (Z.leb_spec 0 lo); [|lia]. destruct (Z.leb_spec lo hi); [|lia]. destruct (Z.leb_spec hi (len64 s)); [|lia].
  reflexivity.
Qed.

Definition seg (key : list N) (i j : Z) : list N :=
  if len64 key <? i then repeat 48%N (Z.to_nat (i - j))
  else firstn (Z.to_nat (i - j)) (skipn (Z.to_nat (len64 key - i)) key).

Lemma seg_slice key i j : 0 <= j <= i -> i <= len64 key < two63 ->
  substr key (sub64 (len64 key) i) (sub64 (len64 key) j) = Some (seg key i j).
Proof.
  intros Hij Hi. unfold sub64, seg. rewrite !wrap64_id by (unfold in64, two63 in *; lia).
  rewrite substr_ok by lia. destruct (Z.ltb_spec (len64 key) i); [lia|]. do 3 f_equal. lia.
Qed.

Lemma seg_length key i j : 0 <= j <= i -> length (seg key i j) = Z.to_nat (i - j).
Proof.
  intros Hij. unfold seg. destruct (Z.ltb_spec (len64 key) i). { apply repeat_length. }
  rewrite firstn_length, skipn_length. unfold len64 in *. lia.
Qed.

Lemma seg_in key i j b : In b (seg key i j) -> In b key \/ b = 48%N.
Proof.
  unfold seg. destruct (len64 key <? i); intros H.
  - right. eapply repeat_spec; eauto.
  - left. rewrite <- (firstn_skipn (Z.to_nat (len64 key - i)) key). apply in_or_app. right.
    rewrite <- (firstn_skipn (Z.to_nat (i - j)) (skipn _ key)). apply in_or_app. left. exact H.
Qed.

Theorem shard_r12_eq key : len64 key < two63 -> go_Shard_r12 key = Some [seg key 3 1; key].
Proof.
  intros Hb. unfold go_Shard_r12. destruct (Z.gtb_spec (len64 key) 2).
  - rewrite seg_slice by lia. reflexivity.
  - unfold seg. destruct (Z.ltb_spec (len64 key) 3); [reflexivity|lia].
Qed.

Theorem shard_r122_eq key : len64 key < two63 -> go_Shard_r122 key = Some [seg key 5 3; seg key 3 1; key].
Proof.
  intros Hb. unfold go_Shard_r122. destruct (Z.gtb_spec (len64 key) 4); [|destruct (Z.gtb_spec (len64 key) 2)];
    rewrite ?seg_slice by lia; unfold seg;
    destruct (Z.ltb_spec (len64 key) 5); destruct (Z.ltb_spec (len64 key) 3); try lia; reflexivity.
Qed.

Theorem shard_r133_eq key : len64 key < two63 -> go_Shard_r133 key = Some [seg key 7 4; seg key 4 1; key].
Proof.
  intros Hb. unfold go_Shard_r133. destruct (Z.gtb_spec (len64 key) 6); [|destruct (Z.gtb_spec (len64 key) 3)];
    rewrite ?seg_slice by lia; unfold seg;
    destruct (Z.ltb_spec (len64 key) 7); destruct (Z.ltb_spec (len64 key) 4); try lia; reflexivity.
Qed.

Theorem shard_r12_total key : len64 key < two63 -> exists a, go_Shard_r12 key = Some [a; key] /\ length a = 2%nat.
Proof. intros Hb. rewrite shard_r12_eq by auto. eexists. split; [reflexivity|]. apply seg_length. lia. Qed.

Theorem shard_r122_total key : len64 key < two63 ->
  exists a b, go_Shard_r122 key = Some [a; b; key] /\ length a = 2%nat /\ length b = 2%nat.
Proof.
  intros Hb. rewrite shard_r122_eq by auto. do 2 eexists. split; [reflexivity|].
  split; apply seg_length; lia.
Qed.

Theorem shard_r133_total key : len64 key < two63 ->
  exists a b, go_Shard_r133 key = Some [a; b; key] /\ length a = 3%nat /\ length b = 3%nat.
Proof.
  intros Hb. rewrite shard_r133_eq by auto. do 2 eexists. split; [reflexivity|].
  split; apply seg_length; lia.
Qed.
