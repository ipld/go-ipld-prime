(* Marshal / Unmarshal through the concrete DAG-CBOR model (Codec/Cbor.v: encoder closed form [encb],
   decoder [decode]): the two codec facts C19_remarshal_perm (Props/C19.v) asks for, from C02's round
   trip and the encoder's independence of entry order, and a computed instance that reorders. *)
Require Import IP.Base.Bytes IP.DM.Value IP.Bind.GoVal IP.Bind.Bind IP.Bind.Spec.
Require Import IP.Proofs.BindRefute.
Require Import IP.Codec.Cid IP.Codec.Cbor IP.Proofs.CborEnc IP.Proofs.CborDec.
From Coq Require Import Permutation Lia ZifyN ZifyNat ZifyBool.
Open Scope N_scope.

(* [cbor_enc] and [within_cbor_limits] below are, by conversion, [cbor_bytes] and [within_limits] of Proofs/SchemaCbor.v,
   which the schema cluster states C08 with *)
Definition cbor_enc (d : dm) : bytes := encb SortRFC7049 d.
Definition cbor_dec (o : dopts) (b : bytes) : bres dm :=
  match decode o b with
  | Ok (d, []) => Ok d
  | _ => Err XOther
  end.

Definition within_cbor_limits (o : dopts) (d : dm) : Prop :=
  rt_ok d /\ (Z.of_nat (dm_depth d) <= max_depth o)%Z /\ (cost d <= budget0 o)%Z.

Lemma cbor_codec_perm : forall o, d_allow_links o = true ->
  forall d, within_cbor_limits o d -> exists d', cbor_dec o (cbor_enc d) = Ok d' /\ perm_eq d d'.
Proof.
  intros o Hl d [Hok [Hd Hc]]. exists (sortv SortRFC7049 d). split; [|apply pe_sortv].
  unfold cbor_dec, cbor_enc. rewrite (decode_encode SortRFC7049 o d Hl Hok Hd Hc). reflexivity.
Qed.

Lemma cbor_enc_perm : forall d d', keys_nodup d -> perm_eq d d' -> cbor_enc d = cbor_enc d'.
Proof. intros d d' Hnd Hp. apply encb_perm_invariant; [discriminate | exact Hp | exact Hnd]. Qed.

(* an ordered map {String:Int} whose Keys are not in DAG-CBOR order *)
Definition t_msi : sty := TMap [77] TString TInt false.
Definition s_msi : shape := SStruct [77] [(str_Keys, SSlice [] SString); (str_Values, SGoMap SString (SInt I64))].
Definition g_msi : gv :=
  GStruct [GSlice [GString [98]; GString [97]]; GGoMap [(GString [98], GInt 1); (GString [97], GInt 2)]].

Example dagcbor_hyps_sat : forall q n32,
  d_allow_links (dagcbor_dopts true) = true /\ is_any t_msi = false /\ bindable t_msi s_msi = true /\
  gv_ok q n32 t_msi s_msi g_msi = true /\ within_cbor_limits (dagcbor_dopts true) (denote LRepr t_msi g_msi).
Proof.
  intros. repeat split; try reflexivity; try (vm_compute; congruence).
  - change (denote LRepr t_msi g_msi) with (DMap [([98], DInt 1%Z); ([97], DInt 2%Z)]).
    apply rt_ok_map. split; [vm_compute; reflexivity|]. split.
    + repeat constructor; simpl; intuition congruence.
    + repeat constructor; cbn; try lia; vm_compute; congruence.
Qed.

(* the round trip really reorders: the fresh value has Keys [a; b] *)
Example dagcbor_roundtrip_reorders :
  let b := cbor_enc (denote LRepr t_msi g_msi) in
  unmarshal pinned (fun x => x) (cbor_dec (dagcbor_dopts true)) t_msi s_msi b
  = Ok (GStruct [GSlice [GString [97]; GString [98]]; GGoMap [(GString [97], GInt 2); (GString [98], GInt 1)]]).
Proof. vm_compute. reflexivity. Qed.
