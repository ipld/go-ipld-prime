(* Proofs/CborRel.v — what the decoder model of Codec/Cbor.v accepts, as a relation without fuel, without the
   allocation budget and without the nesting level: [DecV o tag bs v rest] says that [dec_val], with [tag] already read
   in front of the item, reads [v] off the front of [bs] and leaves [rest].  What an item asks of the decoder's two
   resources is a function of the value built ([dm_depth v] levels, [CborDec.cost v] of budget) and is stated where the
   relation meets the fuelled functions, not here.
   One rule per accepting branch of [dec_val_body] / [dec_major], written in the shape of the encoding: the head (read
   through the SPEC's [rd_head], which is the model's [dec_arg] behind the first byte: CborHead.rd_head_dec_arg) with the
   length of the payload as its argument, the payload, the rest.  A map entry is a string item, the key, and the
   value's item; that the model's own key reader [dec_key] accepts just the string items is [dec_key_iff] below.
   Proofs/CborDec.v ties the relation to the fuelled functions in both directions; every theorem about
   accepted inputs is then an induction over these rules. *)
Require Import IP.Base.Bytes IP.DM.Value IP.Codec.Cid IP.Codec.Cbor IP.Codec.CborSpec IP.Gen.FromGo.
Require Import IP.Proofs.BytesFacts IP.Proofs.CborHead.
From Coq Require Import ZifyN ZifyNat ZifyBool.
Open Scope N_scope.

Section Rel.
  Variable o : dopts.
  Local Notation strict := (negb (d_relaxed o)).

  (* with d_reject_tags (go-ipld-prime since 67123ae) a tag in front of anything but a byte string is refused; without it
     refmt's Tagged flag is ignored off byte strings *)
  Definition untagged (tag : option N) : Prop :=
    match tag with Some _ => d_reject_tags o = false | None => True end.

  Definition is_float (b : N) : bool := (b =? 249) || (b =? 250) || (b =? 251).
  Definition float_width (b : N) : N := if b =? 249 then 2 else if b =? 250 then 4 else 8.
  Definition float_bits (b raw : N) : N := if b =? 249 then widen16 raw else if b =? 250 then widen32 raw else raw.

  Inductive DecV : option N -> bytes -> dm -> bytes -> Prop :=
  | DvNull tag b r : (b =? 246) || (b =? 247) = true -> untagged tag -> DecV tag (b :: r) DNull r
  | DvBool tag (x : bool) r : untagged tag -> DecV tag ((if x then 245 else 244) :: r) (DBool x) r
  | DvFloat tag b x r f : is_float b = true -> lenN x = float_width b -> f = float_bits b (unbe x 0) ->
      strict && negb (f64_finite f) = false -> untagged tag -> DecV tag (b :: x ++ r) (DFloat f) r
  | DvUint tag bs a r : rd_head strict bs = Some (0, a, r) -> untagged tag -> DecV tag bs (DInt (Z.of_N a)) r
  | DvNint tag bs a r : rd_head strict bs = Some (1, a, r) -> (a + 1) mod two64 <= two63 -> untagged tag ->
      DecV tag bs (DInt (- Z.of_N ((a + 1) mod two64))) r
  | DvBytes bs s r : rd_head strict bs = Some (2, lenN s, s ++ r) -> lenN s <= str_cap -> DecV None bs (DBytes s) r
  | DvLink bs c r : rd_head strict bs = Some (2, lenN c + 1, 0 :: c ++ r) -> lenN c + 1 <= str_cap ->
      d_allow_links o = true -> cid_valid c = true -> DecV (Some go_linkTag) bs (DLink c) r
  | DvString tag bs s r : rd_head strict bs = Some (3, lenN s, s ++ r) -> lenN s <= str_cap -> untagged tag ->
      DecV tag bs (DString s) r
  | DvList tag bs r vs r' : rd_head strict bs = Some (4, lenN vs, r) -> lenN vs < two63 -> untagged tag ->
      DecI r vs r' -> DecV tag bs (DList vs) r'
  | DvMap tag bs r es r' : rd_head strict bs = Some (5, lenN es, r) -> lenN es < two63 -> untagged tag ->
      DecE [] r es r' -> DecV tag bs (DMap es) r'
  | DvTag bs a r v r' : rd_head strict bs = Some (6, a, r) -> a < two63 -> DecV (Some a) r v r' -> DecV None bs v r'
  with DecI : bytes -> list dm -> bytes -> Prop :=
  | DiNil bs : DecI bs [] bs
  | DiCons bs v bs1 vs bs2 : DecV None bs v bs1 -> DecI bs1 vs bs2 -> DecI bs (v :: vs) bs2
  with DecE : list bytes -> bytes -> list (bytes * dm) -> bytes -> Prop :=
  | DeNil seen bs : DecE seen bs [] bs
  | DeCons seen bs k bs1 v bs2 es bs3 : DecV None bs (DString k) bs1 ->
      existsb (bytes_eqb k) seen = false -> DecV None bs1 v bs2 -> DecE (k :: seen) bs2 es bs3 ->
      DecE seen bs ((k, v) :: es) bs3.

  Scheme DecV_mut := Minimality for DecV Sort Prop
    with DecI_mut := Minimality for DecI Sort Prop
    with DecE_mut := Minimality for DecE Sort Prop.
  Combined Scheme Dec_ind from DecV_mut, DecI_mut, DecE_mut.
End Rel.

(* refmt's RejectNaN / RejectInfinity, in the words of the SPEC *)
Lemma check_float_iff s f f' : check_float s f = Some f' <-> f' = f /\ s && negb (f64_finite f) = false.
Proof.
  unfold check_float, f64_finite, f64_is_nan, f64_is_inf.
  destruct s, (f64_exp f =? 2047), (f64_man f =? 0); cbn; (split; [intros [= <-]|intros [-> E]]); auto; discriminate.
Qed.

(* the model reads a map key with a function of its own, [dec_key]: a key is charged by the map loop, not by dec_val *)
Lemma dec_key_str_iff strict bs k r : dec_key_str strict bs = Some (k, r) <->
  rd_head strict bs = Some (3, lenN k, k ++ r) /\ lenN k <= str_cap.
Proof.
  unfold dec_key_str, dec_len. destruct bs as [|b t]; [split; [discriminate|intros [? _]; discriminate]|].
  rewrite rd_head_dec_arg. split.
  - destruct (b =? 127); [discriminate|]. destruct (N.eqb_spec (b / 32) 3) as [E|]; [|discriminate].
    destruct (dec_arg strict (b mod 32) t) as [[a r1]|]; [|discriminate].
    destruct (two63 <=? a); [discriminate|]. destruct (N.ltb_spec str_cap a); [discriminate|].
    intros Ht. apply take_some in Ht as [-> <-]. rewrite E. auto.
  - intros [Eh Ha].
    destruct (dec_arg strict (b mod 32) t) as [[a' r']|] eqn:Ea; [|discriminate]. inversion Eh as [[E3 E1 E2]]. subst a' r'.
    (* 127 carries 31 as additional information, which dec_arg refuses *)
    destruct (N.eqb_spec b 127) as [->|]; [discriminate Ea|].
    rewrite E3. cbn [N.eqb Pos.eqb].
    destruct (N.leb_spec two63 (lenN k)); [unfold two63, str_cap in *; lia|]. destruct (N.ltb_spec str_cap (lenN k)); [lia|].
    apply take_app.
Qed.

Lemma dec_key_iff o bs k r :
  dec_key (negb (d_relaxed o)) (d_reject_tags o) bs = Some (k, r) <-> DecV o None bs (DString k) r.
Proof.
  unfold dec_key. split.
  - destruct bs as [|b t]; [discriminate|]. destruct ((b / 32 =? 6) && negb (d_reject_tags o)) eqn:E.
    + apply andb_prop in E as [E6 Ert]. apply N.eqb_eq in E6. apply negb_true_iff in Ert.
      pose proof (rd_head_dec_arg (negb (d_relaxed o)) b t) as Hrd. unfold dec_len.
      destruct (dec_arg _ (b mod 32) t) as [[a r1]|]; [|discriminate]. destruct (N.leb_spec two63 a); [discriminate|].
      intros Hk. apply dec_key_str_iff in Hk as [Hs Hc]. rewrite E6 in Hrd.
      apply DvTag with a r1; [exact Hrd|assumption|]. now apply DvString.
    + intros Hk. apply dec_key_str_iff in Hk as [Hs Hc]. now apply DvString.
  - intros H. inversion H as [| | | | | | |? ? ? ? Hs Hc _| | |? a r1 ? ? Hrd Ha Hv]; subst.
    + pose proof (rd_head_inv _ _ _ _ _ Hs) as (b & t & -> & E3 & _). rewrite <- E3. apply dec_key_str_iff. auto.
    + inversion Hv as [| | | | | | |? ? ? ? Hs Hc Hu| | |]; subst. cbn in Hu.
      pose proof (rd_head_inv _ _ _ _ _ Hrd) as (b & t & -> & E6 & Ea). unfold dec_len. rewrite <- E6, Hu, Ea. cbn [N.eqb Pos.eqb andb negb].
      destruct (N.leb_spec two63 a); [lia|]. apply dec_key_str_iff. auto.
Qed.

Lemma rel_shorter o :
  (forall tag bs v r, DecV o tag bs v r -> (length r < length bs)%nat) /\
  (forall bs vs r, DecI o bs vs r -> (length r <= length bs)%nat) /\
  (forall seen bs es r, DecE o seen bs es r -> (length r <= length bs)%nat).
Proof.
  apply Dec_ind.
  - intros. cbn [length]. lia.
  - intros. cbn [length]. lia.
  - intros. cbn [length]. rewrite app_length. lia.
  - intros. eapply rd_head_rest. eassumption.
  - intros. eapply rd_head_rest. eassumption.
  - intros bs s r Hrd _. apply rd_head_rest in Hrd. rewrite app_length in Hrd. lia.
  - intros bs c r Hrd _ _ _. apply rd_head_rest in Hrd. cbn [length] in Hrd. rewrite app_length in Hrd. lia.
  - intros tag bs s r Hrd _ _. apply rd_head_rest in Hrd. rewrite app_length in Hrd. lia.
  - intros tag bs r vs r' Hrd _ _ _ IH. apply rd_head_rest in Hrd. lia.
  - intros tag bs r es r' Hrd _ _ _ IH. apply rd_head_rest in Hrd. lia.
  - intros bs a r v r' Hrd _ _ IH. apply rd_head_rest in Hrd. lia.
  - intros. lia.
  - intros bs v bs1 vs bs2 _ IHv _ IHi. lia.
  - intros. lia.
  - intros seen bs k bs1 v bs2 es bs3 _ IHk _ _ IHv _ IHe. lia.
Qed.
