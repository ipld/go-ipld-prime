(* Proofs/StoreSeq.v — path resolution on a well-formed tree ([resolve_wf]) and the pieces of a writer's run when
   it is alone: the writes, haveDir for any number of missing levels, the final rename; every system call
   keeps the tree well-formed. *)
Require Import IP.Base.Bytes IP.Base.GoSem IP.Gen.FromGo IP.Store.Storage IP.Store.FsStore IP.Store.FsCrash.
Require Import IP.Proofs.BytesFacts IP.Proofs.StoreBase.
From Coq Require Import Lia List Bool Arith.
Import ListNotations.

Definition all_dirs (f : fs) (q : list (list N)) : Prop :=
  forall n, (0 < n <= length q)%nat -> fs_lookup f (firstn n q) = Some Dir.

Definition comp_ok (c : list N) : Prop := (lenN c <=? name_max)%N = true /\ existsb (N.eqb 0) c = false.
Definition path_ok (p : list (list N)) : Prop := Forall comp_ok p.

Lemma path_ok_nul : forall p, path_ok p -> has_nul p = false.
Proof. unfold has_nul. induction 1 as [|c p [_ Z] _ IH]; simpl; [reflexivity|]. rewrite Z, IH. reflexivity. Qed.

Lemma path_ok_short : forall p, path_ok p -> Forall (fun c => (lenN c <=? name_max)%N = true) p.
Proof. intros p H. eapply Forall_impl; [|exact H]. intros c Hc. apply Hc. Qed.

Lemma path_ok_app : forall a b, path_ok (a ++ b) <-> path_ok a /\ path_ok b.
Proof. intros. unfold path_ok. apply Forall_app. Qed.

Lemma all_dirs_prefix : forall f a b, all_dirs f (a ++ b) -> all_dirs f a.
Proof.
  intros f a b H n Hn. specialize (H n). rewrite firstn_app_le in H by lia.
  apply H. rewrite app_length. lia.
Qed.

Lemma all_dirs_snoc : forall f a c, all_dirs f a -> fs_lookup f (a ++ [c]) = Some Dir -> all_dirs f (a ++ [c]).
Proof.
  intros f a c H L n Hn. rewrite app_length in Hn. simpl in Hn.
  destruct (Nat.eq_dec n (length a + 1)).
  - subst n. rewrite firstn_all2 by (rewrite app_length; simpl; lia). auto.
  - rewrite firstn_app_le by lia. apply H. lia.
Qed.

Lemma all_dirs_self : forall f q, all_dirs f q -> fs_lookup f q = Some Dir.
Proof.
  intros f q H. destruct q as [|c q']. reflexivity.
  specialize (H (length (c :: q'))). rewrite firstn_all in H. apply H. simpl. lia.
Qed.

Lemma resolve_ok : forall f p, path_ok p -> all_dirs f (dirname p) -> resolve f p = Ok (fs_lookup f p).
Proof.
  intros f p P D. rewrite resolve_unfold, (path_ok_nul p P).
  induction p as [|lc q _] using rev_ind; [reflexivity|]. rewrite dirname_snoc in *.
  apply path_ok_app in P. destruct P as [P1 P2].
  rewrite walk_from_dirs; [|exact D|apply path_ok_short; auto].
  unfold last_comp. rewrite last_last. inversion P2; subst. destruct H1 as [S _].
  apply N.leb_le in S. destruct (name_max <? lenN lc)%N eqn:X; auto. apply N.ltb_lt in X. lia.
Qed.

Lemma walk_from_app : forall f b a pre,
  walk_from f pre (a ++ b) = match walk_from f pre a with Ok _ => walk_from f (pre ++ a) b | Err e => Err e end.
Proof.
  induction a; intros pre; simpl.
  - rewrite app_nil_r. auto.
  - destruct (name_max <? lenN a)%N; auto.
    destruct (fs_lookup f (pre ++ [a])) as [[c|]|]; auto.
    rewrite IHa. rewrite <- app_assoc. auto.
Qed.

Lemma resolve_missing : forall f a c more, more <> [] -> path_ok (a ++ c :: more) -> all_dirs f a ->
  fs_lookup f (a ++ [c]) = None -> resolve f (a ++ c :: more) = Err ENOENT.
Proof.
  intros f a c more N P D L. rewrite resolve_unfold.
  rewrite (path_ok_nul _ P).
  destruct (exists_last N) as [m' [lc E]]. subst more.
  unfold dirname. replace (a ++ c :: m' ++ [lc]) with ((a ++ c :: m') ++ [lc]) by (rewrite <- app_assoc; auto).
  rewrite removelast_last.
  replace (a ++ c :: m') with (a ++ [c] ++ m') by auto.
  rewrite walk_from_app. simpl app at 1.
  assert (PA : path_ok a /\ comp_ok c).
  { apply path_ok_app in P. destruct P as [P1 P2]. inversion P2; subst. auto. }
  destruct PA as [PA [PC _]].
  rewrite walk_from_dirs; [|intros n Hn; apply D; auto|apply path_ok_short; auto].
  rewrite walk_from_app. simpl.
  apply N.leb_le in PC. destruct (name_max <? lenN c)%N eqn:X. { apply N.ltb_lt in X. lia. }
  rewrite L. auto.
Qed.

Lemma exec_creat_ok : forall f p, path_ok p -> all_dirs f (dirname p) -> fs_lookup f p = None ->
  sys_exec f (SCreat p) = (fs_set f p (File []), Ok RVUnit).
Proof. intros. simpl. rewrite resolve_ok by auto. rewrite H1. auto. Qed.

Lemma exec_write_ok : forall f p c old, fs_lookup f p = Some (File old) ->
  sys_exec f (SWrite p c) = (fs_set f p (File (old ++ c)), Ok RVUnit).
Proof. intros. simpl. rewrite H. auto. Qed.

Lemma exec_lstat_ok : forall f p, path_ok p -> all_dirs f (dirname p) ->
  sys_exec f (SLstat p) = (f, match fs_lookup f p with Some n => Ok (RVNode n) | None => Err ENOENT end).
Proof. intros. simpl. rewrite resolve_ok by auto. destruct (fs_lookup f p); auto. Qed.

Lemma exec_mkdir_ok : forall f p, path_ok p -> all_dirs f (dirname p) -> fs_lookup f p = None ->
  sys_exec f (SMkdir p) = (fs_set f p Dir, Ok RVUnit).
Proof. intros. simpl. rewrite resolve_ok by auto. rewrite H1. auto. Qed.

Lemma exec_rename_ok : forall f p q c, path_ok p -> all_dirs f (dirname p) ->
  fs_lookup f p = Some (File c) -> path_ok q -> all_dirs f (dirname q) ->
  fs_lookup f q <> Some Dir ->
  sys_exec f (SRename p q) = (fs_set (fs_remove f p) q (File c), Ok RVUnit).
Proof.
  intros. simpl. rewrite resolve_ok by auto. rewrite H1. rewrite resolve_ok by auto.
  destruct (fs_lookup f q) as [[c'|]|]; auto. congruence.
Qed.

Section Seq.
  Variable env : wenv.

  Definition step1 (x : fs * wpc) : fs * wpc :=
    match w_next env (snd x) with
    | None => x
    | Some s => let '(f1, r) := sys_exec (fst x) s in (f1, w_step env (snd x) r)
    end.

  Fixpoint iter (n : nat) (x : fs * wpc) : fs * wpc :=
    match n with O => x | S k => iter k (step1 x) end.

  Lemma iter_add : forall a b x, iter (a + b) x = iter b (iter a x).
  Proof. induction a; intros; simpl; auto. Qed.

  Lemma iter_done : forall n f r, iter n (f, WDone r) = (f, WDone r).
  Proof. induction n; intros; simpl; auto. unfold step1. simpl. apply IHn. Qed.

  Lemma w_run_iter : forall fuel n f pc log f' r, (n < fuel)%nat ->
    iter n (f, pc) = (f', WDone r) ->
    exists log', w_run fuel env f pc log = (f', r, log').
  Proof.
    induction fuel; intros n f pc log f' r Hn H. lia.
    cbn [w_run]. destruct (w_next env pc) as [s|] eqn:NX.
    - destruct n.
      + simpl in H. inversion H; subst. simpl in NX. discriminate.
      + cbn [iter] in H. unfold step1 in H. cbn [fst snd] in H. rewrite NX in H.
        destruct (sys_exec f s) as [f1 r1]. eapply IHfuel; eauto. lia.
    - destruct pc; simpl in NX; try discriminate. { destruct chunks; discriminate. }
      rewrite iter_done in H. inversion H; subst. eauto.
  Qed.

  Definition reach (k : nat) (x y : fs * wpc) : Prop := exists n, (n <= k)%nat /\ iter n x = y.

  Lemma reach_refl : forall x, reach 0 x x.
  Proof. intros. exists 0%nat. split; auto. Qed.

  Lemma reach_trans : forall a b x y z, reach a x y -> reach b y z -> reach (a + b) x z.
  Proof.
    intros a b x y z [n [Hn H1]] [m [Hm H2]]. exists (n + m)%nat. split. lia.
    rewrite iter_add, H1. auto.
  Qed.

  Lemma reach_step : forall f pc s f1 r, w_next env pc = Some s -> sys_exec f s = (f1, r) ->
    reach 1 (f, pc) (f1, w_step env pc r).
  Proof.
    intros. exists 1%nat. split; auto. simpl. unfold step1. simpl. rewrite H, H0. auto.
  Qed.

  Lemma reach_weaken : forall a b x y, (a <= b)%nat -> reach a x y -> reach b x y.
  Proof. intros a b x y H [n [Hn E]]. exists n. split; auto. lia. Qed.
End Seq.

Definition fs_wf (f : fs) : Prop :=
  forall p n, p <> [] -> fs_lookup f p = Some n -> fs_lookup f (dirname p) = Some Dir.

Lemma wf_all_dirs : forall f q, fs_wf f -> fs_lookup f q = Some Dir -> all_dirs f q.
Proof.
  intros f q W. induction q as [|c q' IH] using rev_ind; intros L.
  - intros n Hn. simpl in Hn. lia.
  - apply all_dirs_snoc; auto. apply IH.
    pose proof (W (q' ++ [c]) Dir) as X. rewrite dirname_snoc in X. apply X; auto.
    destruct q'; discriminate.
Qed.

Lemma wf_absent_ext : forall f a b, fs_wf f -> fs_lookup f a = None -> fs_lookup f (a ++ b) = None.
Proof.
  intros f a b W L. induction b as [|x b' IH] using rev_ind.
  - rewrite app_nil_r. auto.
  - destruct (fs_lookup f (a ++ b' ++ [x])) as [n|] eqn:E; auto.
    pose proof (W (a ++ b' ++ [x]) n) as X. rewrite app_assoc in X. rewrite dirname_snoc in X.
    rewrite <- app_assoc in X. rewrite X in IH. discriminate.
    destruct a; discriminate. auto.
Qed.

Definition below (d p : list (list N)) : Prop := exists rest, d = p ++ rest.

Definition nofile (f : fs) (q : list (list N)) : Prop := forall p c, below q p -> fs_lookup f p <> Some (File c).

Lemma nofile_prefix : forall f a b, nofile f (a ++ b) -> nofile f a.
Proof. intros f a b H p c [r ->]. apply H. exists (r ++ b). symmetry. apply app_assoc. Qed.

Lemma nofile_dir : forall f q, fs_wf f -> nofile f q -> fs_lookup f q <> None -> all_dirs f q.
Proof.
  intros f q W NF L. apply wf_all_dirs; auto. specialize (NF q).
  destruct (fs_lookup f q) as [[c|]|]; try congruence. destruct (NF c); auto. exists []. symmetry. apply app_nil_r.
Qed.

Lemma walk_from_wf : forall f rest pre, fs_wf f -> fs_lookup f pre = Some Dir -> path_ok rest ->
  (forall p c, below rest p -> fs_lookup f (pre ++ p) <> Some (File c)) ->
  walk_from f pre rest = match fs_lookup f (pre ++ rest) with Some _ => Ok tt | None => Err ENOENT end.
Proof.
  induction rest as [|c r IH]; intros pre W L P NF; simpl.
  - rewrite app_nil_r, L. reflexivity.
  - inversion P as [|? ? [SL _] P']; subst. apply N.leb_le in SL.
    destruct (name_max <? lenN c)%N eqn:X. { apply N.ltb_lt in X. lia. }
    replace (pre ++ c :: r) with ((pre ++ [c]) ++ r) by (rewrite <- app_assoc; reflexivity).
    destruct (fs_lookup f (pre ++ [c])) as [[c0|]|] eqn:LC.
    + destruct (NF [c] c0); auto. exists r. reflexivity.
    + apply IH; auto. intros p c0 [t ->]. rewrite <- app_assoc. apply (NF (c :: p)). exists t. reflexivity.
    + rewrite wf_absent_ext; auto.
Qed.

Theorem resolve_wf : forall f p, fs_wf f -> path_ok p -> nofile f (dirname p) ->
  resolve f p = match fs_lookup f (dirname p) with Some _ => Ok (fs_lookup f p) | None => Err ENOENT end.
Proof.
  intros f p W P NF. rewrite resolve_unfold, (path_ok_nul p P).
  induction p as [|lc q _] using rev_ind; [reflexivity|]. rewrite dirname_snoc in *.
  apply path_ok_app in P. destruct P as [P1 P2].
  rewrite (walk_from_wf f q [] W eq_refl P1 NF). simpl app.
  destruct (fs_lookup f q); auto.
  unfold last_comp. rewrite last_last. inversion P2 as [|? ? [SL _] _]; subst. apply N.leb_le in SL.
  destruct (name_max <? lenN lc)%N eqn:X; auto. apply N.ltb_lt in X. lia.
Qed.

Definition same_except (f g : fs) (st : list (list N)) : Prop :=
  forall p, p <> st -> fs_lookup g p = fs_lookup f p.

Lemma all_dirs_transfer : forall f g q, (forall n, (0 < n <= length q)%nat -> fs_lookup g (firstn n q) = fs_lookup f (firstn n q)) ->
  all_dirs f q -> all_dirs g q.
Proof. intros f g q H D n Hn. rewrite H by auto. apply D. auto. Qed.

Lemma all_dirs_same_except : forall f g st q, same_except f g st -> fs_lookup f st <> Some Dir ->
  all_dirs f q -> all_dirs g q.
Proof.
  intros f g st q S N D. eapply all_dirs_transfer; [|exact D]. intros n Hn. apply S.
  intros E. apply N. rewrite <- E. apply D. auto.
Qed.

Lemma exec_lstat_missing : forall f a c more, more <> [] -> path_ok (a ++ c :: more) -> all_dirs f a ->
  fs_lookup f (a ++ [c]) = None -> sys_exec f (SLstat (a ++ c :: more)) = (f, Err ENOENT).
Proof. intros. simpl. rewrite resolve_missing by auto. auto. Qed.

Lemma exec_mkdir_missing : forall f a c more, more <> [] -> path_ok (a ++ c :: more) -> all_dirs f a ->
  fs_lookup f (a ++ [c]) = None -> sys_exec f (SMkdir (a ++ c :: more)) = (f, Err ENOENT).
Proof. intros. simpl. rewrite resolve_missing by auto. auto. Qed.

Lemma exec_rename_missing : forall f p c a x more, path_ok p -> all_dirs f (dirname p) ->
  fs_lookup f p = Some (File c) -> more <> [] -> path_ok (a ++ x :: more) -> all_dirs f a ->
  fs_lookup f (a ++ [x]) = None ->
  sys_exec f (SRename p (a ++ x :: more)) = (f, Err ENOENT).
Proof. intros. simpl. rewrite resolve_ok by auto. rewrite H1. rewrite resolve_missing by auto. auto. Qed.

Lemma all_dirs_set : forall f p x q, fs_lookup f p <> Some Dir -> all_dirs f q -> all_dirs (fs_set f p x) q.
Proof. intros f p x q N D. eapply all_dirs_same_except; [|exact N|exact D]. intros r Hr. apply lookup_set_other. auto. Qed.

Lemma plain_no_nul : forall c, plain c -> existsb (N.eqb 0) c = false.
Proof.
  intros c [_ H]. induction H; [reflexivity|]. destruct H as [_ [_ Z]].
  cbn [existsb]. rewrite IHForall. destruct x; [congruence|reflexivity].
Qed.

Lemma temp_comp_ok : comp_ok temp_name.
Proof. split; reflexivity. Qed.

Lemma staging_dir_ok : forall base, path_ok base -> path_ok (staging_dir base).
Proof. intros. apply path_ok_app. split; auto. constructor; [apply temp_comp_ok|constructor]. Qed.

Lemma stage_path_ok : forall base name, path_ok base -> comp_ok name -> path_ok (stage_path base name).
Proof.
  intros. rewrite stage_path_snoc. apply path_ok_app. split. apply staging_dir_ok; auto. constructor; auto.
Qed.

Section Put.
  Variable cfg : fscfg.
  Variable env : wenv.
  Variable d : list (list N).
  Variable cs : list (list N).
  Variable e : list N.
  Hypothesis base_ok : path_ok (f_base cfg).
  Hypothesis env_base : we_base env = f_base cfg.
  Hypothesis env_dest : we_dest env = Some d.
  Hypothesis d_shape : d = f_base cfg ++ cs ++ [e].
  Hypothesis d_ok : path_ok (cs ++ [e]).
  Hypothesis name_ok : comp_ok (we_names env 0).

  (* the staging file of the writer's first try (WCreate 0): the runs followed here create it at once *)
  Definition stp : list (list N) := stage_path (f_base cfg) (we_names env 0).

  Lemma stp_ok : path_ok stp.
  Proof. apply stage_path_ok; auto. Qed.

  Lemma stp_nonnil : stp <> [].
  Proof. apply stage_path_nonnil. Qed.

  Lemma stp_dirname : dirname stp = staging_dir (f_base cfg).
  Proof. apply dirname_stage_path. Qed.

  Lemma d_path_ok : path_ok d.
  Proof. rewrite d_shape. apply path_ok_app. auto. Qed.

  Lemma w_dest_d : w_dest env = d.
  Proof. unfold w_dest. rewrite env_dest. auto. Qed.

  Lemma writes : forall rest done g, rest <> [] -> fs_lookup g stp = Some (File done) ->
    exists g', reach env (length rest) (g, WWrite stp rest) (g', WClose stp None) /\
               fs_lookup g' stp = Some (File (done ++ concat rest)) /\ same_except g g' stp.
  (* [Proof using]: outside the section the statement takes these three hypotheses, as its neighbours do;
     the induction itself needs none of them *)
  Proof using base_ok env_base d_shape.
    induction rest as [|c rest IH]; intros done g N L. congruence.
    pose proof (exec_write_ok g stp c done L) as X.
    destruct rest as [|c2 rest'].
    - exists (fs_set g stp (File (done ++ c))). split; [|split].
      + exact (reach_step env g (WWrite stp [c]) _ _ _ eq_refl X).
      + rewrite lookup_set_same by apply stp_nonnil. simpl. rewrite app_nil_r. auto.
      + intros p Hp. apply lookup_set_other. auto.
    - destruct (IH (done ++ c) (fs_set g stp (File (done ++ c)))) as [g' [R [L' S]]].
      + discriminate.
      + apply lookup_set_same. apply stp_nonnil.
      + exists g'. split; [|split].
        * pose proof (reach_step env g (WWrite stp (c :: c2 :: rest')) _ _ _ eq_refl X) as R0.
          replace (length (c :: c2 :: rest')) with (1 + length (c2 :: rest'))%nat by auto.
          eapply reach_trans; [exact R0|]. simpl. exact R.
        * rewrite L'. simpl. rewrite <- app_assoc. auto.
        * intros p Hp. rewrite S by auto. apply lookup_set_other. auto.
  Qed.

  Lemma close_runs : forall g, reach env 1 (g, WClose stp None) (g, WLstatNew stp false).
  Proof.
    intros g. pose proof (reach_step env g (WClose stp None) _ _ _ eq_refl eq_refl) as R0.
    simpl in R0. rewrite env_dest in R0. exact R0.
  Qed.

  Lemma phase_write : forall f chunks, all_dirs f (staging_dir (f_base cfg)) -> fs_lookup f stp = None ->
    exists g, reach env (length chunks + 2) (f, WCreate 0 chunks) (g, WLstatNew stp false) /\ same_except f g stp.
  Proof.
    intros f chunks D L.
    assert (X : sys_exec f (SCreat stp) = (fs_set f stp (File []), Ok RVUnit)).
    { apply exec_creat_ok; auto. apply stp_ok. rewrite stp_dirname. auto. }
    assert (R1 : reach env 1 (f, WCreate 0 chunks) (fs_set f stp (File []), after_create stp chunks)).
    { assert (NX : w_next env (WCreate 0 chunks) = Some (SCreat stp)).
      { simpl. rewrite env_base. reflexivity. }
      pose proof (reach_step env f (WCreate 0 chunks) _ _ _ NX X) as R0.
      simpl in R0. rewrite env_base in R0. exact R0. }
    destruct chunks as [|c rest].
    - exists (fs_set f stp (File [])). split.
      + replace (length (@nil (list N)) + 2)%nat with (1 + 1)%nat by auto.
        eapply reach_trans; [exact R1|]. simpl. apply close_runs.
      + intros p Hp. apply lookup_set_other. auto.
    - destruct (writes (c :: rest) [] (fs_set f stp (File []))) as [g [R [_ S]]].
      + discriminate.
      + apply lookup_set_same. apply stp_nonnil.
      + exists g. split.
        * replace (length (c :: rest) + 2)%nat with (1 + (length (c :: rest) + 1))%nat by lia.
          eapply reach_trans; [exact R1|]. eapply reach_trans; [exact R|]. apply close_runs.
        * intros p Hp. rewrite S by auto. apply lookup_set_other. auto.
  Qed.

  Lemma app_firstn_neq : forall (E : list (list N)) ms i j, (i <= length ms)%nat -> (j <= length ms)%nat -> i <> j ->
    E ++ firstn i ms <> E ++ firstn j ms.
  Proof.
    intros E ms i j Hi Hj N X. apply app_inv_head in X.
    assert (L : length (firstn i ms) = length (firstn j ms)) by congruence.
    rewrite !firstn_length in L. lia.
  Qed.

  (* haveDir coming back up: the remembered directories are made one after the other.  A statement about the stack
     alone; [have_dir] below goes down and up within one induction and does not pass through it. *)
  Lemma up : forall E ms k j g stack,
    (1 <= j)%nat -> (j + k <= length ms)%nat -> path_ok (E ++ ms) ->
    all_dirs g (E ++ firstn j ms) ->
    (forall i, (j < i <= j + k)%nat -> fs_lookup g (E ++ firstn i ms) = None) ->
    exists g', reach env k (g, have_ret stp (Ok tt) (map (fun i => E ++ firstn i ms) (seq (S j) k) ++ stack))
                     (g', have_ret stp (Ok tt) stack) /\
               all_dirs g' (E ++ firstn (j + k) ms) /\
               (forall p, (forall i, (j < i <= j + k)%nat -> p <> E ++ firstn i ms) -> fs_lookup g' p = fs_lookup g p).
  Proof.
    intros E ms k. induction k as [|k IH]; intros j g stack J K P D A.
    - exists g. simpl. rewrite Nat.add_0_r. split; [apply reach_refl|]. split; auto.
    - cbn [seq map app].
      destruct (firstn_succ_snoc ms j) as [x FX]. lia.
      set (q := E ++ firstn (S j) ms).
      assert (QN : q <> []). { unfold q. rewrite FX. destruct E; destruct (firstn j ms); discriminate. }
      assert (QD : dirname q = E ++ firstn j ms).
      { unfold q. rewrite FX. rewrite app_assoc. apply dirname_snoc. }
      assert (QP : path_ok q).
      { unfold q. apply path_ok_app in P. destruct P as [P1 P2]. apply path_ok_app. split; auto.
        unfold path_ok. apply Forall_firstn. auto. }
      assert (X : sys_exec g (SMkdir q) = (fs_set g q Dir, Ok RVUnit)).
      { apply exec_mkdir_ok; auto. rewrite QD. auto. apply A. lia. }
      pose proof (reach_step env g (WDirUp stp q (map (fun i => E ++ firstn i ms) (seq (S (S j)) k) ++ stack))
                    _ _ _ eq_refl X) as R0.
      cbn [w_step strip] in R0.
      destruct (IH (S j) (fs_set g q Dir) stack) as [g' [R [D' F']]].
      + lia.
      + lia.
      + auto.
      + unfold q in *. rewrite FX. rewrite app_assoc. apply all_dirs_snoc.
        * apply all_dirs_set; auto. rewrite <- app_assoc, <- FX, A by lia. discriminate.
        * rewrite <- app_assoc, <- FX. apply lookup_set_same. auto.
      + intros i Hi. rewrite lookup_set_other. apply A. lia.
        unfold q. apply app_firstn_neq; lia.
      + exists g'. split; [|split].
        * replace (S k) with (1 + k)%nat by lia. eapply reach_trans; [exact R0|exact R].
        * replace (j + S k)%nat with (S j + k)%nat by lia. exact D'.
        * intros p Hp. rewrite F'. apply lookup_set_other. intros X0. apply (Hp (S j)). lia. auto.
          intros i Hi. apply Hp. lia.
  Qed.
  Lemma d_dirname : dirname d = f_base cfg ++ cs.
  Proof. rewrite d_shape. rewrite app_assoc. apply dirname_snoc. Qed.

  (* os.Rename as move() calls it: Lstat of the destination (not a directory), then renameat *)
  Lemma lstat_rename : forall h second rl f1 r,
    sys_exec h (SLstat d) = (h, rl) -> rl <> Ok (RVNode Dir) -> sys_exec h (SRename stp d) = (f1, r) ->
    reach env 2 (h, WLstatNew stp second) (f1, after_rename env stp second (strip r)).
  Proof.
    intros h second rl f1 r X1 NR X2.
    assert (NX1 : w_next env (WLstatNew stp second) = Some (SLstat d)) by (simpl; rewrite w_dest_d; auto).
    pose proof (reach_step env h _ _ _ _ NX1 X1) as R1.
    assert (ST : w_step env (WLstatNew stp second) rl = WRename stp second).
    { simpl. destruct rl as [[|[c|]]|]; auto. congruence. }
    rewrite ST in R1.
    assert (NX2 : w_next env (WRename stp second) = Some (SRename stp d)) by (simpl; rewrite w_dest_d; auto).
    exact (reach_trans env 1 1 _ _ _ R1 (reach_step env h _ _ _ _ NX2 X2)).
  Qed.

  Lemma rename_runs : forall h second content,
    fs_lookup h stp = Some (File content) -> all_dirs h (dirname stp) ->
    all_dirs h (f_base cfg ++ cs) -> fs_lookup h d <> Some Dir ->
    reach env 2 (h, WLstatNew stp second) (fs_set (fs_remove h stp) d (File content), WDone (Ok tt)).
  Proof.
    intros h second content LH SH DH NH.
    pose proof d_path_ok as DP. pose proof stp_ok as SP.
    eapply (lstat_rename h second _ _ (Ok RVUnit)).
    - apply exec_lstat_ok; auto. rewrite d_dirname. auto.
    - destruct (fs_lookup h d) as [[c|]|]; congruence.
    - apply exec_rename_ok; auto. rewrite d_dirname. auto.
  Qed.

  (* haveDir(q), the recursive function it is in Go: Mkdir; on ENOENT haveDir(parent), then Mkdir again.
     The stack is its continuation. *)
  Lemma have_dir : forall q stack g, fs_wf g -> path_ok q -> nofile g q -> fs_lookup g q = None ->
    exists g', reach env (2 * length q - 1) (g, WDirDown stp q stack) (g', have_ret stp (Ok tt) stack) /\
               all_dirs g' q /\
               (forall p, ~ below q p -> fs_lookup g' p = fs_lookup g p).
  Proof.
    induction q as [|m q0 IH] using rev_ind; intros stack g W P NF A. discriminate.
    set (q := q0 ++ [m]) in *.
    assert (QN : q <> []) by (destruct q0; discriminate).
    assert (QD : dirname q = q0) by apply dirname_snoc.
    pose proof (nofile_prefix g q0 [m] NF) as NF0. apply path_ok_app in P as P0. destruct P0 as [P0 _].
    assert (MK : forall h, all_dirs h q0 -> fs_lookup h q = None ->
              sys_exec h (SMkdir q) = (fs_set h q Dir, Ok RVUnit) /\ all_dirs (fs_set h q Dir) q /\
              forall p, ~ below q p -> fs_lookup (fs_set h q Dir) p = fs_lookup h p).
    { intros h Dh Ah. split; [apply exec_mkdir_ok; auto; rewrite QD; auto|]. split.
      - apply all_dirs_snoc; [apply all_dirs_set; auto; rewrite Ah; discriminate|apply lookup_set_same; auto].
      - intros p Hp. apply lookup_set_other. intros ->. apply Hp. exists []. symmetry. apply app_nil_r. }
    destruct (fs_lookup g q0) as [n|] eqn:L0.
    - destruct (MK g) as [X [DQ FQ]]; auto. { apply nofile_dir; auto. congruence. }
      exists (fs_set g q Dir). split; auto.
      eapply reach_weaken; [|exact (reach_step env g (WDirDown stp q stack) _ _ _ eq_refl X)].
      unfold q. rewrite app_length. simpl. lia.
    - assert (X : sys_exec g (SMkdir q) = (g, Err ENOENT)) by (simpl; rewrite resolve_wf, QD, L0 by (auto; rewrite QD; auto); auto).
      pose proof (reach_step env g (WDirDown stp q stack) _ _ _ eq_refl X) as R1. cbn [w_step] in R1. rewrite QD in R1.
      destruct (IH (q :: stack) g) as [g1 [R2 [D1 F1]]]; auto.
      destruct (MK g1 D1) as [X3 [DQ FQ]].
      { rewrite F1; auto. intros [r Y]. apply (f_equal (@length _)) in Y. unfold q in Y. rewrite !app_length in Y. simpl in Y. lia. }
      pose proof (reach_step env g1 (WDirUp stp q stack) _ _ _ eq_refl X3) as R3.
      exists (fs_set g1 q Dir). split; [|split; auto].
      + eapply reach_weaken; [|eapply reach_trans; [exact R1|eapply reach_trans; [exact R2|exact R3]]].
        unfold q. rewrite app_length. destruct q0; [discriminate L0|simpl; lia].
      + intros p Hp. rewrite FQ by auto. apply F1. intros [r ->]. apply Hp. exists (r ++ [m]). symmetry. apply app_assoc.
  Qed.
End Put.

Lemma wf_set_leaf : forall f p n, fs_wf f -> p <> [] -> fs_lookup f (dirname p) = Some Dir ->
  (forall c, n = File c -> fs_lookup f p <> Some Dir) ->
  fs_wf (fs_set f p n).
Proof.
  intros f p n W PN PAR HF q m QN L.
  assert (DP : dirname p <> p).
  { intros X. apply (f_equal (@length _)) in X. destruct (exists_last PN) as [a [l E]]. rewrite E in X.
    rewrite dirname_snoc in X. rewrite app_length in X. simpl in X. lia. }
  apply lookup_set_inv in L; auto. destruct L as [[-> _]|[E L]].
  - rewrite lookup_set_other; auto.
  - pose proof (W q m QN L) as PQ.
    destruct (path_eqb_spec p (dirname q)) as [E2|E2].
    + rewrite <- E2 in *. rewrite lookup_set_same by auto.
      destruct n as [c|]; auto. exfalso. eapply HF; eauto.
    + rewrite lookup_set_other; auto.
Qed.

Lemma wf_remove_file : forall f p c, fs_wf f -> fs_lookup f p = Some (File c) -> fs_wf (fs_remove f p).
Proof.
  intros f p c W LP q m QN L.
  apply lookup_remove_inv in L; [|eapply lookup_file_nonnil; eauto]. destruct L as [E L].
  pose proof (W q m QN L) as PQ. rewrite lookup_remove_other; auto.
  intros X. rewrite X in LP. congruence.
Qed.

Lemma sys_eff_wf : forall f s f1 r, fs_wf f -> sys_eff f s f1 r -> fs_wf f1.
Proof.
  intros f s f1 r W E. destruct E; auto.
  - apply wf_set_leaf; auto. eapply lookup_none_nonnil; eauto. intros c _. congruence.
  - apply wf_set_leaf; auto. eapply lookup_file_nonnil; eauto. eapply W; eauto. eapply lookup_file_nonnil; eauto.
    intros c0 _. congruence.
  - (* rename: the file p is no directory, so neither q's parent nor an ancestor of anything *)
    assert (PN : p <> []) by (eapply lookup_file_nonnil; eauto).
    apply wf_set_leaf; auto.
    + eapply wf_remove_file; eauto.
    + rewrite lookup_remove_other; auto. congruence.
    + intros c0 _ X. apply lookup_remove_inv in X; auto. tauto.
  - apply wf_set_leaf; auto. eapply lookup_none_nonnil; eauto. discriminate.
  - eapply wf_remove_file; eauto.
Qed.

Lemma sys_exec_wf : forall f s, fs_wf f -> fs_wf (fst (sys_exec f s)).
Proof. intros f s W. eapply sys_eff_wf; eauto. apply sys_exec_spec. Qed.
