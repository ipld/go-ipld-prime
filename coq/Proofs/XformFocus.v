(* Proofs/XformFocus.v — the model of focusedTransform (quirks repaired) computes the SPEC xupd:
   lemma [ft_corr], by induction on the fuel. *)
Require Import IP.Base.Bytes IP.DM.Value IP.Xform.Transform IP.Proofs.BytesFacts IP.Proofs.XformBase.
From Coq Require Import Lia.
Open Scope Z_scope.

Section LoopFacts.
  Variable rec : option dm -> asm -> path -> world -> res xerr (slot * world).

  Lemma list_loop_miss ti p2 l : forall i w,
    (ti < i \/ i + Z.of_nat (length l) <= ti) -> list_loop rec ti p2 i l w = Ok (l, false, w).
  Proof.
    induction l as [|v r IH]; intros i w H; simpl; [reflexivity|].
    assert (E : (ti =? i) = false) by (apply Z.eqb_neq; simpl length in H; lia).
    rewrite E, IH; [reflexivity|]. simpl length in H. lia.
  Qed.

  Lemma list_loop_hit p2 l : forall i j w v,
    nth_error l j = Some v ->
    list_loop rec (i + Z.of_nat j) p2 i l w =
    match rec (Some v) AElem p2 w with
    | Ok (s, w1) => Ok (firstn j l ++ slot_list s ++ skipn (S j) l, true, w1)
    | Err e => Err e
    end.
  Proof.
    induction l as [|x r IH]; intros i j w v H; [destruct j; discriminate|].
    destruct j as [|j]; simpl in H.
    - inversion H; subst. simpl. rewrite Z.add_0_r, Z.eqb_refl.
      destruct (rec (Some v) AElem p2 w) as [[s w1]|e]; simpl; [|reflexivity].
      rewrite list_loop_miss by lia. reflexivity.
    - remember (i + Z.of_nat (S j)) as ti eqn:Eti. simpl list_loop.
      assert (E : (ti =? i) = false) by (apply Z.eqb_neq; lia).
      rewrite E. replace ti with ((i + 1) + Z.of_nat j) by lia.
      rewrite (IH (i + 1) j w v H).
      destruct (rec (Some v) AElem p2 w) as [[s w1]|e]; reflexivity.
  Qed.

  Lemma map_loop_miss seg e n2 p2 m : forall w,
    find_kv seg m = None -> map_loop rec seg e n2 p2 m w = Ok (m, false, w).
  Proof.
    induction m as [|[k v] r IH]; intros w H; simpl; [reflexivity|].
    simpl in H. destruct (bytes_eqb k seg); [discriminate|]. now rewrite IH.
  Qed.

  Lemma map_loop_hit seg e n2 p2 v b : forall a w,
    find_kv seg (a ++ b) = None ->
    map_loop rec seg e n2 p2 (a ++ (seg, v) :: b) w =
    do sw <- match n2 with
             | Some y => Ok (Put y, w)
             | None => if e then Ok (Skip, w) else rec (Some v) AVal p2 w
             end;
    let '(s, w1) := sw in Ok (a ++ slot_entry seg s ++ b, true, w1).
  Proof.
    induction a as [|[k x] r IH]; intros w H; simpl in *.
    - rewrite bytes_eqb_refl.
      destruct n2 as [y|]; [|destruct e; [|destruct (rec (Some v) AVal p2 w) as [[s w1]|e0]]]; simpl;
        rewrite ?(map_loop_miss _ _ _ _ b _ H); reflexivity.
    - destruct (bytes_eqb k seg); [discriminate|]. rewrite (IH w H).
      destruct n2 as [y|]; [|destruct e; [|destruct (rec (Some v) AVal p2 w) as [[s w1]|e0]]]; reflexivity.
  Qed.
End LoopFacts.

Notation rawm := (map (fun kt : bytes * xt => (fst kt, raw (snd kt)))).

Lemma Forall_splice {A} (P : A -> Prop) l j mid :
  Forall P l -> Forall P mid -> Forall P (firstn j l ++ mid ++ skipn (S j) l).
Proof. intros Hl Hm. rewrite !Forall_app. auto using Forall_firstn, Forall_skipn. Qed.

Section SpecFacts.
  Variable ltb : bytes -> bytes -> bool.
  Variable mklink : dm -> cid.
  Variable f : option dm -> option dm.
  Variable cp : bool.
  Notation XU := (xupd ltb mklink f cp).

  Lemma xfocus_none p : xfocus None p = None.
  Proof. destruct p; reflexivity. Qed.

  (* the store only tells a dangling link from one that needs expanding: a defined result does not
     depend on it *)
  Lemma xupd_ok st st2 : forall p cur ot seen,
    XU st cur p = XOk ot seen ->
    seen = option_map raw (xfocus cur p) /\ xupd ltb mklink f cp st2 cur p = XOk ot seen /\
    (p <> [] -> ot <> None).
  Proof.
    induction p as [|a p IH]; intros cur ot seen.
    { cbn. intro E; inversion E; auto. }
    (* every recursion of the SPEC but one wraps the child's result in the same way *)
    assert (Hrec : forall c (g : option xt -> xt),
              match XU st c p with XOk oc s' => XOk (Some (g oc)) s' | e => e end = XOk ot seen ->
              seen = option_map raw (xfocus c p) /\
              match xupd ltb mklink f cp st2 c p with XOk oc s' => XOk (Some (g oc)) s' | e => e end = XOk ot seen /\
              (a :: p <> [] -> ot <> None)).
    { intros c g. destruct (XU st c p) as [oc s'| |] eqn:EX; try discriminate.
      destruct (IH _ _ _ EX) as (H1 & H2 & _). rewrite H2. intro E; inversion E; subst. split; [reflexivity|split; [reflexivity|discriminate]]. }
    destruct cur as [t|]; cbn [xupd xfocus]; cbv zeta.
    2:{ intro E. apply Hrec in E. now rewrite xfocus_none in E. }
    destruct (strip t) as [u k]; cbn [fst]. destruct u as [v|l|m|c' t'].
    - destruct v; try discriminate. destruct (lookup c st); discriminate.
    - destruct (list_seg a) as [z| |]; try discriminate.
      + destruct ((0 <=? z) && (z <? Z.of_nat (length l))) eqn:Ec; [|discriminate].
        apply andb_true_iff in Ec as [-> _]. apply Hrec.
      + destruct (negb (is_empty p) && negb cp); [discriminate|].
        intro E. apply Hrec in E. now rewrite xfocus_none in E.
    - destruct (find_kv a m) as [c|].
      + destruct (XU st (Some c) p) as [[c'|] s'| |] eqn:EX; try discriminate;
          destruct (IH _ _ _ EX) as (H1 & H2 & _); rewrite H2; intro E; inversion E; subst; (split; [reflexivity|split; [reflexivity|discriminate]]).
      + destruct (negb (is_empty p) && negb cp); [discriminate | apply Hrec].
    - discriminate.
  Qed.

  Lemma xupd_cons_some st t s p2 seen : XU st (Some t) (s :: p2) <> XOk None seen.
  Proof. intro E. apply (xupd_ok st st) in E as (_ & _ & H). now apply H. Qed.

  Lemma xfocus_block c t1 s p2 : xfocus (Some (XBlock c t1)) (s :: p2) = xfocus (Some t1) (s :: p2).
  Proof. cbn [xfocus strip]. now destruct (strip t1). Qed.

  Lemma xupd_block st c t1 s p2 :
    XU st (Some (XBlock c t1)) (s :: p2) =
    match XU st (Some t1) (s :: p2) with
    | XOk (Some r) seen => XOk (Some (reblock ltb mklink r)) seen
    | e => e
    end.
  Proof.
    cbn [xupd strip]. destruct (strip t1) as [u k].
    destruct u as [v|l|m|c' t']; cbn [rewrap].
    - destruct v; try reflexivity. destruct (lookup c0 st); reflexivity.
    - destruct (list_seg s); try reflexivity.
      + destruct ((0 <=? z) && (z <? Z.of_nat (length l))); [|reflexivity].
        destruct (XU st (nth_error l (Z.to_nat z)) p2); reflexivity.
      + destruct (negb (is_empty p2) && negb cp); [reflexivity|].
        destruct (XU st None p2); reflexivity.
    - destruct (find_kv s m).
      + destruct (XU st (Some x) p2) as [[c'|] seen| |]; reflexivity.
      + destruct (negb (is_empty p2) && negb cp); [reflexivity|].
        destruct (XU st None p2); reflexivity.
    - reflexivity.
  Qed.
End SpecFacts.

Section Focus.
  Variable ltb : bytes -> bytes -> bool.
  Variable mklink : dm -> cid.
  Variable f : option dm -> option dm.
  Variable cp : bool.
  Variable fault : bool.
  (* the callback only hands out nodes with unique map keys (every real node is such) *)
  Hypothesis f_wf : forall x v, owf x -> f x = Some v -> wf_dm v = true.

  (* no hash collision in the store *)
  Definition coherent (s : store) : Prop := forall b v, lookup (mklink b) s = Some v -> v = b.

  Notation FT := (ft ltb mklink q_fixed f cp fault).
  Notation XU := (xupd ltb mklink f cp).

  Definition slot_of (ot : option xt) : slot := match ot with Some t => Put (raw t) | None => Skip end.
  Definition ovalid (S : store) (ot : option xt) : Prop := match ot with Some t => valid S t | None => True end.
  Definition owfx (ot : option xt) : Prop := match ot with Some t => wfx t | None => True end.

  (* What a completed descent from [w] to [w'] with slot [s] owes the SPEC's result [ot].
     Validity of [ot] is claimed in every coherent store extending [w']: a re-linked block was put under
     [mklink] of its content, and the first-write-wins [put] reads back that content only if no other
     block sits under that link already (coherence); and [S] rather than [w'] so that the claim outlives
     the blocks stored later, on the way up.  The callback was shown [seen] once - or twice, when a new
     key is inserted at the last segment: focus.go calls fn before the copy loop (to learn whether to
     delete) and again in the base case of the call that builds the new entry.  Only [1 <= k] is recorded:
     no statement bounds the number of calls from above. *)
  Definition good (w w' : world) (s : slot) (ot : option xt) (seen : option dm) : Prop :=
    s = slot_of ot /\ extends (w_store w) (w_store w') /\
    (forall S, extends (w_store w') S -> coherent S -> ovalid S ot) /\ owfx ot /\
    exists k, (1 <= k)%nat /\ w_log w' = w_log w ++ repeat seen k.

  (* failures that are not the transform's: the model ran out of fuel, or a store was refused
     (by the codec or the storage) - the SPEC does not speak about those *)
  Notation env_err e := (e = EFuel \/ e = EStore) (only parsing).

  (* XNeedLoad: the given expansion stops short of the path, nothing is claimed *)
  Definition corr (w : world) (out : res xerr (slot * world)) (sres : xres) : Prop :=
    match sres with
    | XNeedLoad => True
    | XOk ot seen => match out with Ok (s, w') => good w w' s ot seen | Err e => env_err e end
    | XErr e' => match out with Ok _ => False | Err e => env_err e \/ e = e' end
    end.

  Definition na_ok (na : asm) (p : path) : Prop :=
    match na with ARoot _ | AVal => p <> [] | _ => True end.

  Lemma good_call w cur :
    cur_ok (w_store w) cur ->
    let n := option_map raw cur in
    good w (log_call n w) (match f n with Some v => Put v | None => Skip end) (option_map inject (f n)) n.
  Proof.
    intros Hcur n. assert (Hl : exists k, (1 <= k)%nat /\ w_log (log_call n w) = w_log w ++ repeat n k)
      by (exists 1%nat; split; [lia | reflexivity]).
    destruct (f n) as [v|] eqn:Ef; repeat split; cbn; auto using extends_refl, valid_inject.
    - now rewrite raw_inject.
    - apply wfx_inject. eapply f_wf; [|exact Ef]. eapply owf_raw, Hcur.
  Qed.

  Lemma good_wrap w w' s0 oc seen d x :
    good w w' s0 oc seen ->
    (s0 = slot_of oc -> d = raw x) ->
    (forall S, extends (w_store w) S -> ovalid S oc -> valid S x) ->
    (owfx oc -> wfx x) ->
    good w w' (Put d) (Some x) seen.
  Proof.
    intros (H1 & H2 & H3 & H4 & H5) Hr Hv Hw. repeat split; auto.
    - cbn [slot_of]. now rewrite Hr.
    - intros S HS HcS. apply Hv; [eapply extends_trans; eassumption | now apply H3].
    - now apply Hw.
  Qed.

  Lemma good_map w w' s0 oc seen s a b d x :
    good w w' s0 oc seen ->
    cur_ok (w_store w) (Some (XMap (a ++ b))) -> find_kv s (a ++ b) = None ->
    d = DMap (rawm a ++ slot_entry s s0 ++ rawm b) ->
    x = XMap (a ++ opt_list (option_map (pair s) oc) ++ b) ->
    good w w' (Put d) (Some x) seen.
  Proof.
    intros G [Hv Hw] Hn -> ->. apply (good_wrap _ _ _ _ _ _ _ G).
    - intros ->. cbn [raw]. rewrite !map_app. now destruct oc.
    - intros S HS Hoc. apply (valid_mono _ _ _ HS) in Hv. destruct oc; [now apply valid_middle | exact Hv].
    - intros Hoc. destruct oc; [now apply wfx_middle | exact Hw].
  Qed.

  Lemma good_log_step w w0 w' s ot seen :
    w_store w0 = w_store w -> w_log w0 = w_log w ++ [seen] ->
    good w0 w' s ot seen -> good w w' s ot seen.
  Proof.
    intros Hs Hl (H1 & H2 & H3 & H4 & k & Hk & H5). repeat split; auto.
    - now rewrite <- Hs.
    - exists (S k). split; [lia|]. rewrite H5, Hl, <- app_assoc. reflexivity.
  Qed.

  Lemma corr_log_step w x out sres :
    (forall ot seen, sres = XOk ot seen -> seen = x) -> corr (log_call x w) out sres -> corr w out sres.
  Proof.
    destruct sres as [ot seen| e |]; simpl; auto. intro Hs. rewrite (Hs ot seen eq_refl).
    destruct out as [[s w']|e]; auto. now apply good_log_step.
  Qed.

  Lemma corr_lift w out sres (mk : slot -> dm) (mkx : option xt -> xt) :
    corr w out sres ->
    (forall w' s0 oc seen, good w w' s0 oc seen -> good w w' (Put (mk s0)) (Some (mkx oc)) seen) ->
    corr w (do sw <- out; let '(s0, w2) := sw in Ok (Put (mk s0), w2))
           (match sres with XOk c seen => XOk (Some (mkx c)) seen | XErr e => XErr e | XNeedLoad => XNeedLoad end).
  Proof. intros Hc H. destruct sres as [c seen| e |], out as [[s0 w2]|e0]; simpl in *; auto. Qed.

  Lemma ft_corr : forall fuel cur na p w,
    na_ok na p -> cur_ok (w_store w) cur ->
    corr w (FT fuel (option_map raw cur) na p w) (XU (w_store w) cur p).
  Proof.
    (* [ft] on [raw t] and [xupd] on [t] branch alike.  In each branch the copy loop is replaced by its
       closed form (it meets the target at most once: keys are unique), which leaves the SPEC's branch
       under [raw]; the IH for the child is then lifted over the rebuilt node by good_wrap (a list), good_map
       (a map, taken apart at the key) and corr_lift. *)
    induction fuel as [|fu IH]; intros cur na p w Hna Hcur.
    { simpl. unfold corr. destruct (XU (w_store w) cur p); auto. }
    destruct p as [|s p2].
    { cbn [ft xupd]. set (n := option_map raw cur).
      replace (assign_node q_fixed na (f n) (log_call n w))
        with (@Ok xerr _ (match f n with Some v => Put v | None => Skip end, log_call n w))
        by (destruct (f n), na; try reflexivity; now destruct Hna).
      exact (good_call w cur Hcur). }
    destruct cur as [t|].
    2:{ cbn [ft option_map xupd]. refine (corr_lift w _ _ _ _ (IH None ANewKey p2 w I I) _).
      intros w' s0 oc seen G. apply (good_map _ _ _ _ _ s [] [] _ _ G); cbn; rewrite ?app_nil_r; auto.
      repeat constructor. }
    pose proof Hcur as [Hv Hw].
    destruct t as [v|l|m|c t1].
    - inversion Hw as [v0 Hsc | | | ]; subst.
      cbn [ft option_map raw xupd strip].
      destruct v; try discriminate; simpl; auto.
      destruct (lookup c (w_store w)); simpl; auto.
    - inversion Hw as [ | l0 Hwl | | ]; subst.
      cbn [ft option_map raw xupd strip rewrap].
      destruct (list_seg s) as [z| |] eqn:Els.
      + cbn [q_neg_index_append q_fixed negb andb]. rewrite andb_true_r.
        destruct (Z.ltb_spec z 0), (Z.leb_spec 0 z); try lia; cbn [andb]; [simpl; auto|].
        destruct (Z.ltb_spec z (Z.of_nat (length l))).
        * set (j := Z.to_nat z). pose proof (cur_ok_nth _ l j Hcur) as Hx.
          destruct (nth_error l j) as [x|] eqn:Enth; [|apply nth_error_None in Enth; lia].
          pose proof (list_loop_hit (FT fu) p2 (map raw l) 0 j w (raw x)
                        (map_nth_error raw j l Enth)) as HL.
          replace (0 + Z.of_nat j) with z in HL by (unfold j; lia). rewrite HL. clear HL.
          pose proof (IH (Some x) AElem p2 w I Hx) as Hc. cbn [option_map] in Hc.
          destruct (XU (w_store w) (Some x) p2) as [oc seen| e |];
            destruct (FT fu (Some (raw x)) AElem p2 w) as [[s0 w1]|e0]; cbn [corr] in *; auto.
          apply (good_wrap _ _ _ _ _ _ _ Hc).
          -- intros ->. cbn [raw]. f_equal. rewrite !map_app, firstn_map, skipn_map. destruct oc; reflexivity.
          -- intros S HS Hoc. constructor. apply Forall_splice; [|now apply Forall_opt_list].
             now apply (valid_list_mono (w_store w)).
          -- intros Hoc. constructor. apply Forall_splice; [assumption | now apply Forall_opt_list].
        * rewrite list_loop_miss by (rewrite map_length; lia). simpl. auto.
      + cbn [negb andb]. simpl (-1 <? 0). cbn [andb].
        rewrite list_loop_miss by lia. cbn [bind].
        simpl (0 <=? -1). cbn [q_append_parents q_fixed negb]. rewrite andb_true_r.
        destruct (negb (is_empty p2) && negb cp) eqn:Epar; [simpl; auto|].
        refine (corr_lift w _ _ _ _ (IH None AAppend p2 w I I) _).
        intros w' s0 oc seen G. apply (good_wrap _ _ _ _ _ _ _ G).
        * intros ->. cbn [raw]. rewrite map_app. now destruct oc.
        * intros S HS Hov. constructor. apply Forall_app. split; [|now apply Forall_opt_list].
          now apply (valid_list_mono (w_store w)).
        * intros Hov. constructor. apply Forall_app. split; [assumption | now apply Forall_opt_list].
      + simpl. auto.
    - cbn [ft option_map raw xupd strip rewrap]. rewrite (find_kv_map raw s m).
      destruct (find_kv s m) as [c|] eqn:Ef; cbn [option_map].
      + destruct (find_kv_split _ _ _ Ef) as (a & b & -> & Ha).
        apply valid_middle in Hv as [Hvc Hv]. apply wfx_middle in Hw as (Hwc & Hw & Hn).
        pose proof (conj Hvc Hwc : cur_ok (w_store w) (Some c)) as Hc.
        rewrite map_app. cbn [map fst snd].
        rewrite map_loop_hit by (now rewrite <- map_app, (find_kv_map raw), Hn).
        pose proof (fun w' s0 oc seen G => good_map w w' s0 oc seen s a b _ _ G (conj Hv Hw) Hn eq_refl eq_refl) as Gm.
        destruct p2 as [|s2 p3]; cbn [is_empty].
        * pose proof (Gm _ _ _ _ (good_call w (Some c) Hc)) as G. cbn [option_map] in G.
          cbn [xupd option_map]. destruct (f (Some (raw c))) as [y|]; cbn [option_map bind corr];
            rewrite ?replace_kv_split, ?remove_kv_split by exact Ha; exact G.
        * pose proof (IH (Some c) AVal (s2 :: p3) w ltac:(discriminate) Hc) as Hcc. cbn [option_map] in Hcc.
          destruct (XU (w_store w) (Some c) (s2 :: p3)) as [[c'|] seen| e |];
            destruct (FT fu (Some (raw c)) AVal (s2 :: p3) w) as [[s0 w1]|e0]; cbn [bind corr] in *; auto;
            rewrite ?replace_kv_split, ?remove_kv_split by exact Ha; exact (Gm _ _ _ _ Hcc).
      + rewrite map_loop_miss by (now rewrite (find_kv_map raw), Ef). cbn [bind].
        assert (Gm : forall w' s0 oc seen, good w w' s0 oc seen ->
                  good w w' (Put (DMap (rawm m ++ slot_entry s s0))) (Some (XMap (m ++ opt_list (option_map (pair s) oc)))) seen).
        { intros w' s0 oc seen G. apply (good_map _ _ _ _ _ s m [] _ _ G); cbn [map]; rewrite ?app_nil_r; auto. }
        destruct p2 as [|s2 p3]; cbn [is_empty negb andb].
        * destruct (f None) as [y|] eqn:Efn; cbn [is_none andb negb q_missing_delete_nil q_fixed].
          -- refine (corr_lift w _ _ _ _ (corr_log_step w None _ _ _ (IH None ANewKey [] (log_call None w) I I)) Gm).
             intros ot seen E; inversion E; reflexivity.
          -- pose proof (Gm _ _ _ _ (good_call w None I)) as G. cbn [option_map] in G.
             cbn [xupd option_map]. rewrite Efn in *. cbn [slot_entry] in G. rewrite (app_nil_r (rawm m)) in G. exact G.
        * destruct (negb cp) eqn:Ecp; cbn [negb andb]; [simpl; auto|].
          exact (corr_lift _ _ _ _ _ (IH None ANewKey _ w I I) Gm).
    - (* an expanded link: load, transform inside, store, re-link.  The model crosses one link per unit of
         fuel, with the same path; the SPEC strips the whole chain at once: xupd_block takes one off. *)
      apply cur_ok_block in Hcur as [Hlk Ht1].
      cbn [ft option_map raw]. unfold w_store in Hlk |- * at 1.
      rewrite Hlk. rewrite xupd_block.
      pose proof (IH (Some t1) AAny (s :: p2) w I Ht1) as Hc. cbn [option_map] in Hc.
      pose proof (xupd_cons_some ltb mklink f cp (w_store w) t1 s p2) as Hnn.
      destruct (XU (w_store w) (Some t1) (s :: p2)) as [[r|] seen| e |];
        try (exfalso; now apply (Hnn seen));
        destruct (FT fu (Some (raw t1)) AAny (s :: p2) w) as [[s0 w1]|e0]; simpl in *; auto;
        try contradiction.
      destruct Hc as (H4 & H5 & H6 & H7 & H8). subst s0; cbn [slot_of]; simpl.
      destruct (fault || has_refused (raw r)); [simpl; auto|]. simpl.
      repeat split; auto.
      + eapply extends_trans; [exact H5 | apply put_extends].
      + intros S HS HcS. unfold reblock.
        assert (HS1 : extends (w_store w1) S).
        { eapply extends_trans; [apply put_extends | exact HS]. }
        constructor.
        * destruct (put_lookup (mklink (canon ltb (raw r))) (canon ltb (raw r)) (w_store w1))
            as [x [Hx _]].
          apply HS in Hx. rewrite (raw_canon_x ltb r H7).
          rewrite Hx. f_equal. now apply (HcS (canon ltb (raw r)) x).
        * apply valid_canon_x. apply (H6 S HS1 HcS).
      + constructor. now apply wfx_canon_x.
  Qed.
End Focus.
