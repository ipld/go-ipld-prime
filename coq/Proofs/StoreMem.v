(* Proofs/StoreMem.v — memstore and cidlink.Memory (heap model with explicit aliasing) refine the
   finite-map specification, for every history within the quantifier of C17 ([hist_ok], [mem_refines_from]);
   that later writes to the slice handed to put never reach the store (C17_insulated) follows from it in
   Props/C17.v. *)
Require Import IP.Base.Bytes IP.Codec.Cid IP.Store.Storage.
Require Import IP.Proofs.BytesFacts IP.Proofs.StoreBase.
From Coq Require Import Lia List Bool Arith.
Import ListNotations.

Lemma gather_ext : forall {A} (f g : nat -> option A) hs, (forall h, f h = g h) -> gather f hs = gather g hs.
Proof. induction hs; intros H; simpl; auto. rewrite H, IHhs; auto. Qed.

Lemma lookup_cons_eq : forall {V} k (v : V) l, lookup k ((k, v) :: l) = Some v.
Proof. intros. simpl. rewrite bytes_eqb_refl. auto. Qed.

Lemma lookup_cons_neq : forall {V} k k' (v : V) l, k <> k' -> lookup k ((k', v) :: l) = lookup k l.
Proof. intros. simpl. apply bytes_eqb_neq in H. rewrite H. auto. Qed.

Definition borrowed (s : spec) (h : nat) : Prop := exists c, nth_error (s_hnd s) h = Some (c, true).

(* [sim_own] and [sim_uniq] are the aliasing argument: a buffer the bag refers to, or that two handles
   refer to, is only ever seen by the caller through borrowed handles (slices obtained from Peek), which
   [hist_ok] forbids writing to; so OMut writes to a buffer nothing else can read. *)
Record sim (m : mem) (s : spec) : Prop := {
  sim_hnd : forall h, handle_buf m h = s_handle s h;
  sim_ids : forall h id, nth_error (m_hnd m) h = Some id -> (id < length (m_heap m))%nat;
  sim_map : forall pk, lookup pk (s_map s) = option_map (hget m) (lookup pk (m_bag m));
  sim_bag : forall pk id, lookup pk (m_bag m) = Some id -> (id < length (m_heap m))%nat;
  sim_own : forall pk id h, lookup pk (m_bag m) = Some id -> nth_error (m_hnd m) h = Some id -> borrowed s h;
  sim_uniq : forall h1 h2 id, h1 <> h2 -> nth_error (m_hnd m) h1 = Some id ->
                              nth_error (m_hnd m) h2 = Some id -> borrowed s h1;
  sim_str : m_str m = s_str s
}.

Lemma sim_empty : sim mem_empty spec_empty.
Proof.
  constructor; simpl; intros; auto; try discriminate.
  - unfold handle_buf, s_handle. simpl. destruct h; auto.
  - destruct h; discriminate.
  - destruct h1; discriminate.
Qed.

Lemma sim_len : forall m s, sim m s -> length (m_hnd m) = length (s_hnd s).
Proof.
  intros m s H.
  assert (A : forall h, nth_error (m_hnd m) h = None <-> nth_error (s_hnd s) h = None).
  { intros h. pose proof (sim_hnd _ _ H h) as E. unfold handle_buf, s_handle in E.
    destruct (nth_error (m_hnd m) h); destruct (nth_error (s_hnd s) h) as [[c b]|]; split; congruence. }
  pose proof (A (length (m_hnd m))) as A1. pose proof (A (length (s_hnd s))) as A2.
  rewrite !nth_error_None in A1, A2. lia.
Qed.

Lemma hget_alloc_old : forall m c id, (id < length (m_heap m))%nat -> hget (fst (alloc m c)) id = hget m id.
Proof. intros. unfold hget, alloc. simpl. apply app_nth1. auto. Qed.

Lemma hget_alloc_new : forall m c, hget (fst (alloc m c)) (length (m_heap m)) = c.
Proof. intros. unfold hget, alloc. simpl. rewrite app_nth2 by lia. rewrite Nat.sub_diag. auto. Qed.

Lemma borrowed_add : forall s c b h, borrowed s h -> borrowed (s_add s c b) h.
Proof.
  intros s c b h [c' H]. exists c'. unfold s_add. simpl.
  rewrite nth_error_app1; auto. eapply nth_error_lt; eauto.
Qed.

Lemma sim_alloc : forall m s c, sim m s -> sim (fst (alloc m c)) s.
Proof.
  intros m s c H. constructor; simpl.
  - intros h. rewrite <- (sim_hnd _ _ H h). unfold handle_buf. simpl.
    destruct (nth_error (m_hnd m) h) eqn:X; auto. f_equal. apply hget_alloc_old. eapply sim_ids; eauto.
  - intros h id E. rewrite app_length. apply (sim_ids _ _ H) in E. lia.
  - intros pk. rewrite (sim_map _ _ H pk). destruct (lookup pk (m_bag m)) eqn:X; simpl; auto.
    f_equal. symmetry. apply hget_alloc_old. eapply sim_bag; eauto.
  - intros pk id E. rewrite app_length. apply (sim_bag _ _ H) in E. lia.
  - apply (sim_own _ _ H).
  - apply (sim_uniq _ _ H).
  - apply (sim_str _ _ H).
Qed.

Lemma sim_add_handle : forall m s id b, sim m s -> (id < length (m_heap m))%nat ->
  (forall pk, lookup pk (m_bag m) = Some id -> b = true) ->
  (forall h, nth_error (m_hnd m) h = Some id -> b = true /\ borrowed s h) ->
  sim (add_handle m id) (s_add s (hget m id) b).
Proof.
  intros m s id b H IL HB HH. pose proof (sim_len _ _ H) as L.
  assert (NEW : b = true -> borrowed (s_add s (hget m id) b) (length (m_hnd m))).
  { intros ->. exists (hget m id). simpl. rewrite L. apply nth_error_snoc_new. }
  constructor; simpl.
  - intros h. unfold handle_buf, s_handle. simpl.
    destruct (lt_eq_lt_dec h (length (m_hnd m))) as [[l| ->]|l].
    + rewrite !nth_error_app1 by lia. apply (sim_hnd _ _ H h).
    + rewrite nth_error_snoc_new. rewrite L. rewrite nth_error_snoc_new. auto.
    + rewrite !(proj2 (nth_error_None _ _)) by (rewrite app_length; simpl; lia). auto.
  - intros h id' E. apply nth_error_snoc in E. destruct E as [[_ E]|[_ E]].
    + eapply sim_ids; eauto.
    + subst. auto.
  - apply (sim_map _ _ H).
  - apply (sim_bag _ _ H).
  - intros pk id' h E1 E2. apply nth_error_snoc in E2. destruct E2 as [[_ E2]|[-> E2]].
    + apply borrowed_add. eapply sim_own; eauto.
    + subst id'. apply NEW. eapply HB; eauto.
  - intros h1 h2 id' N E1 E2. apply nth_error_snoc in E1. apply nth_error_snoc in E2.
    destruct E1 as [[L1 E1]|[-> E1]]; destruct E2 as [[L2 E2]|[-> E2]]; subst.
    + apply borrowed_add. eapply sim_uniq; eauto.
    + apply borrowed_add. apply (HH h1 E1).
    + apply NEW. apply (HH h2 E2).
    + congruence.
  - apply (sim_str _ _ H).
Qed.

(* a fresh caller-owned slice with content c: ONew, and the copy made by Get *)
Lemma sim_new_handle : forall m s c, sim m s ->
  sim (add_handle (fst (alloc m c)) (length (m_heap m))) (s_add s c false).
Proof.
  intros m s c H.
  pose proof (sim_add_handle (fst (alloc m c)) s (length (m_heap m)) false (sim_alloc m s c H)) as X.
  rewrite hget_alloc_new in X. apply X.
  - simpl. rewrite app_length. simpl. lia.
  - intros pk E. simpl in E. apply (sim_bag _ _ H) in E. lia.
  - intros h E. simpl in E. apply (sim_ids _ _ H) in E. lia.
Qed.

Lemma spec_put_other : forall s pk pk' c, pk <> pk' -> lookup pk' (s_map (s_put s pk c)) = lookup pk' (s_map s).
Proof.
  intros. unfold s_put. destruct (lookup pk (s_map s)); auto. apply lookup_cons_neq. congruence.
Qed.

Lemma spec_put_same : forall s pk c, put_consistent s pk c = true -> lookup pk (s_map (s_put s pk c)) = Some c.
Proof.
  intros. unfold s_put, put_consistent in *. destruct (lookup pk (s_map s)) eqn:E.
  - apply bytes_eqb_eq in H. subst. auto.
  - apply lookup_cons_eq.
Qed.

Lemma s_put_str : forall s k c, s_str (s_put s k c) = s_str s.
Proof. intros. unfold s_put. destruct (lookup k (s_map s)); auto. Qed.

Lemma s_put_hnd : forall s k c, s_hnd (s_put s k c) = s_hnd s.
Proof. intros. unfold s_put. destruct (lookup k (s_map s)); auto. Qed.

Lemma sim_bind_key : forall m s pk id, sim m s -> (id < length (m_heap m))%nat ->
  (forall h, nth_error (m_hnd m) h <> Some id) ->
  put_consistent s pk (hget m id) = true ->
  sim (bind_key m pk id) (s_put s pk (hget m id)).
Proof.
  intros m s pk id H IL NH HC.
  assert (BR : forall h, borrowed s h -> borrowed (s_put s pk (hget m id)) h).
  { intros h [c' B]. exists c'. rewrite s_put_hnd. auto. }
  constructor; simpl.
  - intros h. unfold s_handle. rewrite s_put_hnd. apply (sim_hnd _ _ H h).
  - apply (sim_ids _ _ H).
  - intros pk'. destruct (bytes_eqb_spec pk' pk) as [->|NE].
    + rewrite spec_put_same by auto. reflexivity.
    + rewrite spec_put_other by auto. apply (sim_map _ _ H).
  - intros pk' id'. destruct (bytes_eqb_spec pk' pk); intros E.
    + inversion E; subst; auto.
    + eapply sim_bag; eauto.
  - intros pk' id' h. destruct (bytes_eqb_spec pk' pk); intros E1 E2.
    + inversion E1; subst id'. exfalso. eapply NH; eauto.
    + apply BR. eapply sim_own; eauto.
  - intros h1 h2 id' N E1 E2. apply BR. eapply sim_uniq; eauto.
  - rewrite s_put_str. apply (sim_str _ _ H).
Qed.

Lemma sim_bind : forall m s pk c, sim m s -> put_consistent s pk c = true ->
  sim (bind_key (fst (alloc m c)) pk (length (m_heap m))) (s_put s pk c).
Proof.
  intros m s pk c H HC.
  pose proof (sim_bind_key (fst (alloc m c)) s pk (length (m_heap m)) (sim_alloc m s c H)) as X.
  rewrite hget_alloc_new in X. apply X; auto.
  - simpl. rewrite app_length. simpl. lia.
  - intros h E. simpl in E. apply (sim_ids _ _ H) in E. lia.
Qed.

Lemma sim_put : forall cfg m s k pk c, sim m s -> mc_proj cfg k = Some pk ->
  put_consistent s pk c = true ->
  snd (mem_put cfg m k c) = OOk /\ sim (fst (mem_put cfg m k c)) (s_put s pk c).
Proof.
  intros cfg m s k pk c H HP HC. unfold mem_put. rewrite HP.
  destruct (lookup pk (m_bag m)) as [id|] eqn:B.
  - destruct (mc_overwrite cfg); simpl; split; auto.
    + apply sim_bind; auto.
    + unfold s_put. rewrite (sim_map _ _ H pk), B. exact H.
  - simpl. split; auto. apply sim_bind; auto.
Qed.

Lemma hget_upd_other : forall m id id' c, id <> id' ->
  hget {| m_heap := upd (m_heap m) id c; m_bag := m_bag m; m_hnd := m_hnd m; m_str := m_str m |} id' = hget m id'.
Proof. intros. unfold hget. simpl. apply upd_nth_other. auto. Qed.

Lemma sim_set_str : forall m s l, sim m s -> sim (set_str m l) (s_set_str s l).
Proof.
  intros m s l H. constructor; simpl.
  - apply (sim_hnd _ _ H).
  - apply (sim_ids _ _ H).
  - apply (sim_map _ _ H).
  - apply (sim_bag _ _ H).
  - apply (sim_own _ _ H).
  - apply (sim_uniq _ _ H).
  - reflexivity.
Qed.

Lemma step_sim : forall cfg m s o, sim m s -> op_ok (mc_proj cfg) s o = true ->
  snd (mem_step cfg m o) = snd (spec_step (mc_proj cfg) (mc_storage_api cfg) s o) /\
  sim (fst (mem_step cfg m o)) (fst (spec_step (mc_proj cfg) (mc_storage_api cfg) s o)).
Proof.
  intros cfg m s o H OK.
  pose proof (sim_hnd _ _ H) as HH.
  destruct o; simpl in OK |- *.
  - split; auto. apply sim_new_handle. auto.
  - destruct (nth_error (s_hnd s) h) as [[old b]|] eqn:SH; try discriminate.
    destruct b; try discriminate.
    pose proof (HH h) as E. unfold handle_buf, s_handle in E. rewrite SH in E.
    destruct (nth_error (m_hnd m) h) as [id|] eqn:MH; try discriminate.
    inversion E as [E']. simpl. split; auto.
    assert (IL : (id < length (m_heap m))%nat) by (eapply sim_ids; eauto).
    assert (NB : ~ borrowed s h). { intros [c' B]. rewrite SH in B. discriminate. }
    assert (BU : forall x h', borrowed s h' ->
              borrowed {| s_map := s_map s; s_hnd := upd (s_hnd s) h (x, false); s_str := s_str s |} h').
    { intros x h' [c' B]. exists c'. simpl. rewrite upd_nth_error_other; auto.
      intros EQ. subst h'. rewrite SH in B. discriminate. }
    constructor; simpl.
    + intros h'. unfold handle_buf, s_handle. simpl.
      destruct (Nat.eq_dec h h').
      * subst h'. rewrite MH. rewrite upd_nth_error_same by (eapply nth_error_lt; eauto).
        f_equal. apply (upd_nth_same (m_heap m) id _ [] IL).
      * rewrite upd_nth_error_other by auto.
        pose proof (HH h') as E2. unfold handle_buf, s_handle in E2.
        destruct (nth_error (m_hnd m) h') as [id'|] eqn:MH'; auto.
        rewrite hget_upd_other. exact E2.
        intros EQ. subst id'. apply NB. eapply sim_uniq; eauto.
    + intros h' id' X. rewrite upd_length. eapply sim_ids; eauto.
    + intros pk. rewrite (sim_map _ _ H pk).
      destruct (lookup pk (m_bag m)) as [id'|] eqn:B; simpl; auto.
      rewrite hget_upd_other; auto.
      intros EQ. subst id'. apply NB. eapply sim_own; eauto.
    + intros pk id' X. rewrite upd_length. eapply sim_bag; eauto.
    + intros pk id' h' X1 X2. apply BU. eapply sim_own; eauto.
    + intros h1 h2 id' N X1 X2. apply BU. eapply sim_uniq; eauto.
    + apply (sim_str _ _ H).
  - rewrite HH. destruct (s_handle s h) as [c|] eqn:SH; try discriminate.
    destruct (mc_proj cfg k) as [pk|] eqn:P; try discriminate. apply sim_put; auto.
  - rewrite (gather_ext _ _ hs HH).
    destruct (gather (s_handle s) hs) as [cs|] eqn:G; try discriminate.
    destruct (mc_proj cfg k) as [pk|] eqn:P; try discriminate. apply sim_put; auto.
  - destruct (mc_storage_api cfg); [|simpl; auto].
    rewrite (gather_ext _ _ hs HH).
    destruct (gather (s_handle s) hs) as [cs|] eqn:G; try discriminate.
    destruct (mc_proj cfg k) as [pk|] eqn:P; try discriminate. apply sim_put; auto.
  - unfold mem_find. destruct (mc_proj cfg k) as [pk|] eqn:P; try discriminate.
    rewrite (sim_map _ _ H pk). destruct (lookup pk (m_bag m)) as [id|] eqn:B; simpl; auto.
    split; auto. apply sim_new_handle. auto.
  - destruct (mc_storage_api cfg); [|simpl; auto].
    unfold mem_find. destruct (mc_proj cfg k) as [pk|] eqn:P; try discriminate.
    rewrite (sim_map _ _ H pk). destruct (lookup pk (m_bag m)) as [id|] eqn:B; simpl; auto.
  - (* peek: the caller now holds the stored slice itself, as a borrowed one *)
    destruct (mc_storage_api cfg); [|simpl; auto].
    unfold mem_find. destruct (mc_proj cfg k) as [pk|] eqn:P; try discriminate.
    rewrite (sim_map _ _ H pk). destruct (lookup pk (m_bag m)) as [id|] eqn:B; simpl; auto.
    split; auto. apply sim_add_handle; auto.
    + eapply sim_bag; eauto.
    + intros h E. split; auto. eapply sim_own; eauto.
  - destruct (mc_storage_api cfg); [|simpl; auto].
    unfold mem_find. destruct (mc_proj cfg k) as [pk|] eqn:P; try discriminate.
    rewrite (sim_map _ _ H pk). destruct (lookup pk (m_bag m)) as [id|] eqn:B; simpl; auto.
  - split; auto. rewrite (sim_str _ _ H). apply sim_set_str. auto.
  - (* write to a stream: the buffer copies *)
    rewrite (sim_str _ _ H), HH.
    destruct (nth_error (s_str s) sid) as [[c u]|]; simpl; auto.
    destruct (s_handle s h) as [b|]; simpl; auto. split; auto. apply sim_set_str. auto.
  - rewrite (sim_str _ _ H).
    destruct (nth_error (s_str s) sid) as [[c u]|] eqn:ST; try discriminate.
    destruct (mc_proj cfg k) as [pk|] eqn:P; try discriminate.
    apply andb_true_iff in OK. destruct OK as [U PC]. destruct u; try discriminate.
    rewrite !andb_false_r.
    apply sim_put; auto. apply sim_set_str. auto.
Qed.

Theorem mem_refines_from : forall cfg ops m s, sim m s ->
  hist_ok (mc_proj cfg) (mc_storage_api cfg) s ops = true ->
  mem_run cfg m ops = spec_run (mc_proj cfg) (mc_storage_api cfg) s ops.
Proof.
  induction ops; intros m s H OK; simpl in *; auto.
  apply andb_true_iff in OK. destruct OK as [O1 O2].
  destruct (step_sim cfg m s a H O1) as [E S].
  destruct (mem_step cfg m a) as [m1 ob1]. destruct (spec_step (mc_proj cfg) (mc_storage_api cfg) s a) as [s1 ob2].
  simpl in *. subst. f_equal. apply IHops; auto.
Qed.

Lemma spec_reads : forall proj full s k pk, proj k = Some pk ->
  snd (spec_step proj full s (OGet k)) = match lookup pk (s_map s) with Some c => OBytes c | None => OErr E404 end /\
  (full = true ->
   snd (spec_step proj full s (OHas k)) = OBool (match lookup pk (s_map s) with Some _ => true | None => false end) /\
   snd (spec_step proj full s (OGetStream k)) = match lookup pk (s_map s) with Some c => OBytes c | None => OErr E404 end /\
   snd (spec_step proj full s (OPeek k)) = match lookup pk (s_map s) with Some c => OBytes c | None => OErr E404 end).
Proof.
  intros. split.
  - simpl. rewrite H. destruct (lookup pk (s_map s)); auto.
  - intros F. subst full. simpl. rewrite H. destruct (lookup pk (s_map s)); auto.
Qed.

Definition is_caller_write (o : op) : bool := match o with OMut _ _ | ONew _ => true | _ => false end.

Lemma spec_run_app : forall proj full a s b,
  spec_run proj full s (a ++ b) =
  spec_run proj full s a ++ spec_run proj full (fold_left (fun s o => fst (spec_step proj full s o)) a s) b.
Proof.
  induction a; intros s b; simpl; auto.
  destruct (spec_step proj full s a) as [s1 ob] eqn:E. simpl.
  f_equal. rewrite IHa. replace s1 with (fst (spec_step proj full s a)) by (rewrite E; auto). auto.
Qed.

Lemma fold_caller_writes_map : forall proj full ws s, forallb is_caller_write ws = true ->
  s_map (fold_left (fun s o => fst (spec_step proj full s o)) ws s) = s_map s.
Proof.
  induction ws; intros s H; simpl in *; auto.
  apply andb_true_iff in H. destruct H as [H1 H2]. rewrite IHws by auto.
  destruct a; try discriminate; simpl; auto. destruct (nth_error (s_hnd s) h) as [[? ?]|]; auto.
Qed.
