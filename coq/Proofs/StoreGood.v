(* Proofs/StoreGood.v — the well-formed store ([good]) and the keys it can hold ([storable]).  [good] is the tree
   part of [inv] together with [steady], so every execution keeps it; that a put or a commit, run alone on a
   good store, succeeds is proved by running it ([finish_runs]), and the run shows what it has done: the staging
   file renamed to the key path, on a tree that differs from the first at missing directories on the way to the key
   at most.  The freshly initialised store is good, and so is the store after
   ANY execution (crashes, failures): a new process can open it, put and get ([crash_usable], C18_usable). *)
Require Import IP.Base.Bytes IP.Base.GoSem IP.Gen.FromGo IP.Store.Storage IP.Store.FsStore IP.Store.FsCrash.
Require Import IP.Proofs.StoreBase IP.Proofs.StoreFs IP.Proofs.StoreCrash IP.Proofs.StoreCrashTop
               IP.Proofs.StoreSeq IP.Proofs.StoreStep.
From Coq Require Import Lia List Bool Arith.
Import ListNotations.

Record good (cfg : fscfg) (f : fs) : Prop := {
  g_wf : fs_wf f;
  g_base : all_dirs f (f_base cfg);
  g_temp : fs_lookup f (staging_dir (f_base cfg)) = Some Dir;
  g_files : forall p c, fs_lookup f p = Some (File c) -> in_staging cfg p \/ exists k, keypath cfg k p;
  g_dirs : forall p, fs_lookup f p = Some Dir -> short cfg p
}.

(* a key the store can hold: not empty, its escaped form has no '/', '.', NUL and fits a file name *)
Definition storable (cfg : fscfg) (k : list N) (d : list (list N)) : Prop :=
  k <> [] /\ keypath cfg k d /\ (lenN (enc_key cfg k) <=? name_max)%N = true.

Lemma storable_intro : forall cfg k, wfb k -> k <> [] -> plain (enc_key cfg k) -> key_len_ok (enc_key cfg k) ->
  (lenN (enc_key cfg k) <=? name_max)%N = true -> exists d, storable cfg k d.
Proof.
  intros cfg k WF N P L S. destruct (path_for_key_plain cfg k L P) as [cs [X _]].
  eexists. split; auto. split; auto. split; auto. split; eauto.
Qed.

(* without the escaping function ([q_no_escape], the pinned code): the keys without '/', '.', NUL *)
Lemma plain_storable : forall cfg k, q_no_escape cfg = true -> wfb k -> plain k -> key_len_ok k ->
  (lenN k <=? name_max)%N = true -> exists d, storable cfg k d.
Proof.
  intros cfg k Q WF P L S. apply storable_intro; auto; unfold enc_key; rewrite ?Q; auto. apply P.
Qed.

Section Good.
  Variable cfg : fscfg.
  Hypothesis base_ok : path_ok (f_base cfg).

  Lemma storable_shape : forall k d, storable cfg k d ->
    exists cs, d = f_base cfg ++ cs ++ [enc_key cfg k] /\ Forall plain cs /\ path_ok (cs ++ [enc_key cfg k]).
  Proof.
    intros k d [_ [K S]]. destruct (keypath_shape cfg k d K) as [cs [E [_ [F F3]]]].
    destruct K as [_ [P _]]. exists cs. repeat split; auto.
    apply path_ok_app. split.
    - apply Forall_forall. intros c Hin. rewrite Forall_forall in F, F3. split.
      + specialize (F3 c Hin). apply N.leb_le. unfold lenN, name_max. lia.
      + apply plain_no_nul. auto.
    - constructor; [|constructor]. split; auto. apply plain_no_nul. auto.
  Qed.

  (* ".temp" is no shard directory, and a key path is longer than the parent of any other *)
  Lemma visible_not_below : forall k d p, storable cfg k d ->
    in_staging cfg p \/ (exists k', keypath cfg k' p) -> ~ below (dirname d) p.
  Proof.
    intros k d p S V [rest X]. destruct (storable_shape k d S) as [cs [E [F _]]]. pose proof S as [_ [K _]].
    destruct V as [[name ->]|[k' K']].
    - rewrite E, app_assoc, dirname_snoc in X. unfold stage_path in X. rewrite <- app_assoc in X. apply app_inv_head in X.
      destruct cs as [|c1 cs']; [discriminate|]. inversion X; subst c1. inversion F. eapply temp_not_plain; eauto.
    - apply dirname_keypath_short in K. unfold short in K. rewrite X, app_length, (keypath_length _ _ _ K') in K. lia.
  Qed.

  Lemma good_nofile : forall f k d, good cfg f -> storable cfg k d -> nofile f (dirname d).
  Proof.
    intros f k d G S p c B X. exact (visible_not_below k d p S (g_files _ _ G _ _ X) B).
  Qed.

  Lemma read_result : forall f k d s, good cfg f -> storable cfg k d ->
    (s = SOpenRd d \/ s = SStat d) ->
    sys_exec f s = (f, match fs_lookup f d with Some n => Ok (RVNode n) | None => Err ENOENT end).
  Proof.
    intros f k d s G HS H. destruct (storable_shape k d HS) as [cs [E [_ P]]].
    pose proof (keypath_nonnil cfg k d (proj1 (proj2 HS))) as DN.
    assert (X : match resolve f d with
                | Err e => (f, Err e) | Ok None => (f, Err ENOENT) | Ok (Some n) => (f, Ok (RVNode n)) end
                = (f, match fs_lookup f d with Some n => Ok (RVNode n) | None => Err ENOENT end)).
    { rewrite (resolve_wf f d (g_wf _ _ G) (d_path_ok cfg d cs _ base_ok E P) (good_nofile f k d G HS)).
      destruct (fs_lookup f (dirname d)) eqn:L; [destruct (fs_lookup f d); auto|].
      destruct (fs_lookup f d) eqn:X; auto. rewrite (g_wf _ _ G d n DN X) in L. discriminate. }
    destruct H; subst s; exact X.
  Qed.

  Lemma good_set_stage : forall g name c, good cfg g ->
    fs_lookup g (stage_path (f_base cfg) name) <> Some Dir ->
    good cfg (fs_set g (stage_path (f_base cfg) name) (File c)).
  Proof.
    intros g name c G ND. pose proof (stage_path_nonnil (f_base cfg) name) as SN.
    constructor.
    - apply wf_set_leaf; auto. apply (g_wf _ _ G). rewrite dirname_stage_path. apply (g_temp _ _ G).
    - apply all_dirs_set; auto. apply G.
    - rewrite lookup_set_other. apply G. intros X. apply ND. rewrite X. apply G.
    - intros p c' LP. apply lookup_set_inv in LP; auto. destruct LP as [[-> _]|[_ LP]].
      + left. exists name. reflexivity.
      + apply (g_files _ _ G _ _ LP).
    - intros p LP. apply lookup_set_inv in LP; auto. destruct LP as [[_ X]|[_ LP]]. discriminate.
      apply (g_dirs _ _ G _ LP).
  Qed.

  Definition any_content : list N -> list N -> Prop := fun _ _ => True.

  Lemma good_steady : forall f, good cfg f -> steady cfg f.
  Proof. intros f G. repeat split; apply G. Qed.

  Lemma inv_steady_good : forall C f ws, inv cfg C f ws -> steady cfg f -> good cfg f.
  Proof.
    intros C f ws I [W T]. constructor; auto.
    - apply (all_dirs_prefix f _ [temp_name]), wf_all_dirs; auto.
    - intros p c L. destruct (inv_files _ _ _ _ I p c L) as [S|[k [K _]]]; eauto.
    - apply (inv_dirs _ _ _ _ I).
  Qed.

  Lemma good_solo : forall f env k d chunks pc, good cfg f -> storable cfg k d ->
    we_base env = f_base cfg -> we_dest env = Some d ->
    pc_ok cfg f (solo env k chunks pc) -> staged cfg (solo env k chunks pc) ->
    inv cfg any_content f [solo env k chunks pc].
  Proof.
    intros f env k d chunks pc G [_ [K _]] EB ED PO SG. constructor.
    - intros p c L. destruct (g_files _ _ G p c L) as [S|[k' K']]; [left|right; exists k'; split]; auto. exact I.
    - apply (g_dirs _ _ G).
    - intros [|[|i]] w0 N; inversion N; subst. split; auto. split; auto. simpl. rewrite ED. split; auto. exact I.
    - intros [|[|i]] [|[|j]] wi wj st NE Ni Nj; try discriminate. congruence.
  Qed.

  (* what a put or a commit that ran to success has done: the staging file sp has become the file under d; no other
     staging file and no other key path has changed (directories on the way to d may be new) *)
  Record moved (f f' : fs) (sp d : list (list N)) (c : list N) : Prop := {
    mv_good : good cfg f';
    mv_dest : fs_lookup f' d = Some (File c);
    mv_stage : fs_lookup f' sp = None;
    mv_staging : forall name, stage_path (f_base cfg) name <> sp ->
                   fs_lookup f' (stage_path (f_base cfg) name) = fs_lookup f (stage_path (f_base cfg) name);
    mv_keys : forall k' d', storable cfg k' d' -> d' <> d -> fs_lookup f' d' = fs_lookup f d'
  }.

  Section Run.
    Variable env : wenv.
    Variable k : list N.
    Variable d : list (list N).
    Variable chunks : list (list N).
    Hypothesis HS : storable cfg k d.
    Hypothesis ED : we_dest env = Some d.
    Hypothesis NO : comp_ok (we_names env 0).

    Let sp := stp cfg env.
    Let w := solo env k chunks.

    Lemma sp_not_d : sp <> d.
    Proof. destruct HS as [_ [K _]]. intros X. eapply keypath_not_staging; eauto. exists (we_names env 0). auto. Qed.

    (* from the Lstat of the destination onwards: the staging file is renamed to d, on a tree h that has all of g and
       the directories haveDir made.  The step bounds: Lstat and rename (2); if they fail, haveDir
       for at most every level of the parent (2 |parent| - 1), Lstat and rename again (2).  [w_fuel] is
       |chunks| + 2 |destination| + 12, so the fuel never runs out ([put_good], [commit_good]). *)
    Theorem finish_runs : forall g, inv cfg any_content g [w (WLstatNew sp false)] -> steady cfg g ->
      exists h, reach env (2 * length d + 2) (g, WLstatNew sp false)
                      (fs_set (fs_remove h sp) d (File (concat chunks)), WDone (Ok tt)) /\
                forall p, ~ below (dirname d) p -> fs_lookup h p = fs_lookup g p.
    Proof.
      intros g I S.
      destruct (storable_shape k d HS) as [cs [E [_ P]]]. pose proof HS as [_ [K _]].
      pose proof (keypath_nonnil cfg k d K) as DN. pose proof (d_path_ok cfg d cs _ base_ok E P) as DP.
      pose proof (d_dirname cfg d cs _ E) as DD.
      pose proof (stp_ok cfg env base_ok NO) as SP. fold sp in SP.
      assert (FIN : forall h b, inv cfg any_content h [w (WLstatNew sp b)] -> steady cfg h ->
                (all_dirs h (dirname d) ->
                 reach env 2 (h, WLstatNew sp b) (fs_set (fs_remove h sp) d (File (concat chunks)), WDone (Ok tt))) /\
                fs_lookup h sp = Some (File (concat chunks)) /\ all_dirs h (dirname sp)).
      { intros h b Ih [Wh Th]. destruct (inv_w _ _ _ _ Ih 0%nat _ eq_refl) as [_ [[LS _] _]].
        assert (DS : all_dirs h (dirname sp)) by (unfold sp; rewrite stp_dirname; apply wf_all_dirs; auto).
        split; auto. intros Dh. rewrite DD in Dh.
        apply (rename_runs cfg env d cs _ base_ok ED E P NO h b _ LS); auto.
        intros X. exact (keypath_not_short cfg k d K (inv_dirs _ _ _ _ Ih d X)). }
      destruct (FIN g false I S) as [FG [LS DS]]. pose proof S as [W _].
      pose proof (good_nofile g k d (inv_steady_good _ _ _ I S) HS) as NF.
      assert (PD : path_ok (dirname d)). { rewrite DD. apply path_ok_app. split; auto. apply path_ok_app in P. tauto. }
      destruct (fs_lookup g (dirname d)) as [n|] eqn:LD.
      - exists g. split; auto. eapply reach_weaken; [|apply FG, nofile_dir; auto; congruence].
        destruct d; [congruence|simpl; lia].
      - (* the parent is missing: Lstat and rename answer ENOENT, haveDir makes it *)
        assert (X1 : sys_exec g (SLstat d) = (g, Err ENOENT)) by (simpl; rewrite resolve_wf, LD by auto; auto).
        assert (X2 : sys_exec g (SRename sp d) = (g, Err ENOENT)).
        { simpl. rewrite (resolve_ok g sp), LS by auto. rewrite resolve_wf, LD by auto. auto. }
        pose proof (lstat_rename cfg env d ED g false _ _ _ X1 ltac:(discriminate) X2) as R3.
        cbn [strip after_rename negb andb is_enoent] in R3. rewrite (w_dest_d env d ED) in R3.
        destruct (have_dir cfg env (dirname d) [] g W PD NF LD) as [g2 [R4 [D4 F4]]]. cbn [have_ret] in R4.
        pose proof (reach_trans _ _ _ _ _ _ R3 R4) as R34.
        destruct (reach_safe cfg any_content env k chunks _ _ _ _ _ R34 I S) as [I2 S2].
        destruct (FIN g2 true I2 S2) as [R5 _]. exists g2. split; auto.
        eapply reach_weaken; [|eapply reach_trans; [exact R34|exact (R5 D4)]].
        unfold dirname. rewrite removelast_firstn_len, firstn_length. destruct d; [congruence|simpl; lia].
    Qed.

    (* The tail [put_good] and [commit_good] share.  The caller starts the machine at (f0, pc0) and has shown that
       within n1 steps it stands at the Lstat of the destination, on a tree g that differs from f0 at the staging
       file only; n1 is its share of the fuel.  [moved] then compares the final tree with f0, not with g. *)
    Theorem finish_good : forall f0 pc0 n1 g fuel, inv cfg any_content f0 [w pc0] -> steady cfg f0 ->
      reach env n1 (f0, pc0) (g, WLstatNew sp false) -> same_except f0 g sp -> (n1 + 2 * length d + 2 < fuel)%nat ->
      exists f' log, w_run fuel env f0 pc0 [] = (f', Ok tt, log) /\ moved f0 f' sp d (concat chunks).
    Proof.
      intros f0 pc0 n1 g fuel I0 S0 R1 SG FU. pose proof HS as [_ [K _]]. pose proof sp_not_d as SD.
      destruct (reach_safe cfg any_content env k chunks _ _ _ _ _ R1 I0 S0) as [I1 S1].
      destruct (finish_runs g I1 S1) as [h [R2 FH]].
      destruct (reach_safe cfg any_content env k chunks _ _ _ _ _ R2 I1 S1) as [I2 S2].
      destruct (reach_trans _ _ _ _ _ _ R1 R2) as [n [Hn IT]].
      destruct (w_run_iter env fuel n f0 pc0 [] _ _ ltac:(lia) IT) as [log RUN].
      assert (FR : forall p, p <> sp -> p <> d -> in_staging cfg p \/ (exists k', keypath cfg k' p) ->
                fs_lookup (fs_set (fs_remove h sp) d (File (concat chunks))) p = fs_lookup f0 p).
      { intros p P1 P2 V. rewrite lookup_set_other, lookup_remove_other by congruence.
        rewrite (FH p (visible_not_below k d p HS V)). exact (SG p P1). }
      eexists _, log. split; [exact RUN|]. constructor.
      - exact (inv_steady_good _ _ _ I2 S2).
      - apply lookup_set_same. exact (keypath_nonnil cfg k d K).
      - rewrite lookup_set_other by auto. apply lookup_remove_same, stage_path_nonnil.
      - intros name X. apply FR; auto; [|left; eexists; eauto].
        intros Y. eapply keypath_not_staging; eauto. eexists; eauto.
      - intros k' d' [_ [K' _]] NE. apply FR; eauto. intros ->. eapply keypath_not_staging; eauto. eexists; reflexivity.
    Qed.
  End Run.

  Theorem put_good : forall f k d env chunks,
    good cfg f -> storable cfg k d ->
    we_base env = f_base cfg -> we_dest env = Some d ->
    comp_ok (we_names env 0) ->
    fs_lookup f (stp cfg env) = None ->
    exists f' log, w_run (w_fuel env chunks) env f (WCreate 0 chunks) [] = (f', Ok tt, log) /\
                   moved f f' (stp cfg env) d (concat chunks).
  Proof.
    intros f k d env chunks G S EB ED NO FR.
    destruct (storable_shape k d S) as [cs [E _]].
    destruct (phase_write cfg env d cs _ base_ok EB ED E NO f chunks) as [g [R1 SG]]; auto.
    { unfold staging_dir. apply all_dirs_snoc; apply G. }
    apply (finish_good env k d chunks S ED NO f (WCreate 0 chunks) (length chunks + 2) g (w_fuel env chunks)); auto.
    - eapply good_solo; eauto; reflexivity.
    - apply good_steady; auto.
    - unfold w_fuel. rewrite (w_dest_d env d ED). lia.
  Qed.

  Theorem commit_good : forall g k d env content,
    good cfg g -> storable cfg k d ->
    we_base env = f_base cfg -> we_dest env = Some d ->
    comp_ok (we_names env 0) ->
    fs_lookup g (stp cfg env) = Some (File content) ->
    exists f' log, w_run (w_fuel env []) env g (WClose (stp cfg env) None) [] = (f', Ok tt, log) /\
                   moved g f' (stp cfg env) d content.
  Proof.
    intros g k d env content G S EB ED NO LG.
    destruct (finish_good env k d [content] S ED NO g (WClose (stp cfg env) None) 1 g (w_fuel env []))
      as [f' [log [RUN MV]]]; auto using good_steady.
    - eapply good_solo; eauto.
      + unfold pc_ok, w_content. simpl. rewrite app_nil_r. auto.
      + exists (we_names env 0). reflexivity.
    - eapply close_runs; eauto.
    - intros p _. reflexivity.
    - unfold w_fuel. rewrite (w_dest_d env d ED). lia.
    - simpl in MV. rewrite app_nil_r in MV. eauto.
  Qed.
End Good.

Lemma dirs_of_wf : forall b, fs_wf (dirs_of [] b).
Proof.
  intros b p n PN L. destruct p as [|c p']; try congruence. simpl in L.
  apply assoc_dirs_of_inv in L. destruct L as [_ [i [Hi X]]]. simpl in X. rewrite X.
  destruct i; try lia. destruct (firstn_succ_snoc b i) as [x FX]. lia.
  rewrite FX. rewrite dirname_snoc. destruct i. reflexivity. apply dirs_of_prefixes. lia.
Qed.

Section Fresh.
  Variable cfg : fscfg.
  Hypothesis base_ok : path_ok (f_base cfg).

  Lemma stat_dir : forall f q, path_ok q -> all_dirs f q -> sys_exec f (SStat q) = (f, Ok (RVNode Dir)).
  Proof.
    intros f q P D. simpl. rewrite resolve_ok, (all_dirs_self f q D); auto.
    induction q as [|l a _] using rev_ind; auto. rewrite dirname_snoc. eapply all_dirs_prefix, D.
  Qed.

  (* Init (CheckAndMakeBasepath) on a tree that has the base directory: .temp is made, or found *)
  Lemma init_runs : forall f, all_dirs f (f_base cfg) ->
    fs_init cfg f = match fs_lookup f (staging_dir (f_base cfg)) with
                    | None => (fs_set f (staging_dir (f_base cfg)) Dir, Ok tt)
                    | Some Dir => (f, Ok tt)
                    | Some (File _) => (f, Err ENOTDIR)
                    end.
  Proof.
    intros f B. unfold fs_init. rewrite stat_dir by auto. cbn [sys_exec].
    rewrite resolve_ok; [|apply staging_dir_ok; auto|unfold staging_dir; rewrite dirname_snoc; auto].
    destruct (fs_lookup f (staging_dir (f_base cfg))) as [[c|]|]; reflexivity.
  Qed.

  Lemma fs_fresh_eq : fs_fresh cfg = fs_set (dirs_of [] (f_base cfg)) (staging_dir (f_base cfg)) Dir.
  Proof.
    unfold fs_fresh. rewrite init_runs by apply dirs_of_prefixes.
    destruct (fs_lookup (dirs_of [] (f_base cfg)) (staging_dir (f_base cfg))) as [n|] eqn:X; auto.
    apply dirs_of_lookup_inv in X. unfold staging_dir in X. rewrite app_length in X. simpl in X. lia.
  Qed.

  Lemma fresh_steady : steady cfg (fs_fresh cfg).
  Proof.
    pose proof (staging_dir_nonnil (f_base cfg)) as SN. rewrite fs_fresh_eq. split.
    - apply wf_set_leaf; auto. apply dirs_of_wf.
      + unfold staging_dir. rewrite dirname_snoc. apply all_dirs_self. apply dirs_of_prefixes.
      + discriminate.
    - apply lookup_set_same. auto.
  Qed.

  Lemma fresh_good : good cfg (fs_fresh cfg).
  Proof. exact (inv_steady_good cfg _ _ _ (inv_fresh cfg) fresh_steady). Qed.
End Fresh.

Theorem crash_usable : forall cfg ws sched,
  path_ok (f_base cfg) ->
  (forall k k', wfb k -> wfb k' -> enc_key cfg k = enc_key cfg k' -> k = k') ->
  Forall (writer_started cfg) ws ->
  let f := fst (exec (fs_fresh cfg) ws sched) in
  good cfg f /\
  fs_init cfg f = (f, Ok tt) /\
  forall k d env chunks, storable cfg k d ->
    we_base env = f_base cfg -> we_dest env = Some d -> comp_ok (we_names env 0) ->
    fs_lookup f (stage_path (f_base cfg) (we_names env 0)) = None ->
    exists f' log, w_run (w_fuel env chunks) env f (WCreate 0 chunks) [] = (f', Ok tt, log) /\
                   good cfg f' /\
                   sys_exec f' (SOpenRd d) = (f', Ok (RVNode (File (concat chunks)))).
Proof.
  intros cfg ws sched BO EI F f.
  pose proof (exec_inv cfg _ sched _ _ (inv_started cfg _ _ [] ws (inv_fresh cfg) F)) as I.
  pose proof (fresh_steady cfg BO) as S0.
  assert (S : steady cfg (fst (exec (fs_fresh cfg) ws sched))) by (eapply exec_steady; eauto).
  pose proof (inv_steady_good cfg _ _ _ I S) as G. fold f in G, S.
  split; auto. split.
  - rewrite (init_runs cfg BO f (g_base _ _ G)), (g_temp _ _ G). reflexivity.
  - intros k d env chunks ST EB ED NO FR.
    destruct (put_good cfg BO f k d env chunks G ST EB ED NO FR) as [f' [log [RUN [G' LD _ _ _]]]].
    exists f', log. split; auto. split; auto.
    rewrite (read_result cfg BO f' k d (SOpenRd d) G' ST) by auto. rewrite LD. auto.
Qed.
