(* Proofs/HeapEngine.v — the history part of C11 for ANY node engine modelled over the Go heap of
   Heap/GoMem.v, what an engine has to supply for it, and basicnode as the instance.

   The typed engines (bindnode, gendemo) have no heap model; the C11 check covers them at the oracle
   level only.  [engine_stable] proves the all-histories theorem from two facts alone, which are what
   a model of such an engine must come with.  An engine is: a state with a heap, calls, a Legal
   predicate on calls, the handles (node + accessor) handed out so far, and what a read through a
   handle returns in a heap.  It must supply
     (E1, [step_inv]) every Legal call preserves the ownership invariant [Inv] (the engine's objects tagged
          frozen / owned / assembler), keeps every handed-out handle referring to frozen cells, and
          extends the heap ([Ext]: frozen cells are not stored to, reader positions apart);
     (E2, [read_frozen]) what a read through a handed-out handle returns depends on frozen cells only.
   Nothing else about the engine enters.  For basicnode (E1) is [pstep_inv], (E2) is [acc_stable]. *)
Require Import IP.Base.Bytes IP.DM.Value IP.Gen.FromGo IP.Heap.GoMem IP.Heap.BasicHeap.
Require Import IP.Proofs.HeapMem IP.Proofs.HeapLogic IP.Proofs.HeapSteps IP.Proofs.HeapOps IP.Proofs.HeapPrims IP.Proofs.HeapC11.
From Coq Require Import List Arith Bool Lia.
Import ListNotations.
Local Open Scope nat_scope.

Section Engine.
  Variables (St Call Hd Obs : Type).
  Variable hp_of : St -> mheap.
  Variable stepE : St -> Call -> St.
  Variable legalE : St -> Call -> bool.
  Variable knownE : St -> Hd -> Prop.
  Variable readE : mheap -> Hd -> Obs.
  Variable okE : Hd -> tags -> mheap -> Prop.    (* what the handle refers to is frozen *)
  Variable KE : tags -> St -> Prop.

  Fixpoint runE (s : St) (cs : list Call) : St :=
    match cs with [] => s | c :: r => runE (stepE s c) r end.
  Fixpoint legalhE (s : St) (cs : list Call) : bool :=
    match cs with [] => true | c :: r => legalE s c && legalhE (stepE s c) r end.

  Hypothesis KE_known : forall tg s hd, KE tg s -> knownE s hd -> okE hd tg (hp_of s).

  Hypothesis step_inv : forall tg s c, Inv tg (hp_of s) -> KE tg s -> legalE s c = true ->
    exists tg', Inv tg' (hp_of (stepE s c)) /\ KE tg' (stepE s c) /\ Ext tg (hp_of s) tg' (hp_of (stepE s c)).

  Hypothesis read_frozen : forall tg h tg' h' hd, Inv tg h -> Ext tg h tg' h' -> okE hd tg h ->
    readE h hd = readE h' hd.

  Lemma runE_inv : forall cs tg s, Inv tg (hp_of s) -> KE tg s -> legalhE s cs = true ->
    exists tg', Inv tg' (hp_of (runE s cs)) /\ KE tg' (runE s cs) /\ Ext tg (hp_of s) tg' (hp_of (runE s cs)).
  Proof.
    induction cs as [|c cs IH]; cbn; intros tg s HI HK Hl.
    - exists tg. split; [assumption|]. split; [assumption | apply Ext_refl].
    - apply andb_true_iff in Hl. destruct Hl as [L1 L2].
      destruct (step_inv tg s c HI HK L1) as (tg1 & I1 & K1 & E1).
      destruct (IH tg1 _ I1 K1 L2) as (tg2 & I2 & K2 & E2).
      exists tg2. split; [assumption|]. split; [assumption | eapply Ext_trans; eauto].
  Qed.

  Lemma legalhE_app : forall cs1 cs2 s, legalhE s (cs1 ++ cs2) = legalhE s cs1 && legalhE (runE s cs1) cs2.
  Proof. induction cs1; cbn; intros; [reflexivity|]. rewrite IHcs1. apply andb_assoc. Qed.

  Lemma runE_app : forall cs1 cs2 s, runE s (cs1 ++ cs2) = runE (runE s cs1) cs2.
  Proof. induction cs1; cbn; intros; auto. Qed.

  Theorem engine_stable : forall tg0 s0, Inv tg0 (hp_of s0) -> KE tg0 s0 ->
    forall cs1 cs2, legalhE s0 (cs1 ++ cs2) = true ->
    forall hd, knownE (runE s0 cs1) hd ->
    readE (hp_of (runE s0 cs1)) hd = readE (hp_of (runE s0 (cs1 ++ cs2))) hd.
  Proof.
    intros tg0 s0 I0 K0 cs1 cs2 Hl hd Hk.
    rewrite legalhE_app in Hl. apply andb_true_iff in Hl. destruct Hl as [L1 L2].
    destruct (runE_inv cs1 _ _ I0 K0 L1) as (tg1 & I1 & K1 & _).
    destruct (runE_inv cs2 _ _ I1 K1 L2) as (tg2 & I2 & K2 & E2).
    rewrite runE_app. eapply read_frozen; eauto.
  Qed.
End Engine.

Section Basic.
  Variable cf : cfg.

  Definition bknown (ps : pstate) (hd : nref * acc) : Prop :=
    known_b (kn ps) (HNode (fst hd)) = true /\ (cf_stream_shared cf = false \/ stream_acc (fst hd) (snd hd) = false).
  Definition bread (h : mheap) (hd : nref * acc) : outcome ares := fst (exec 0 (acc_prog cf (fst hd) (snd hd)) h).
  Definition bok (hd : nref * acc) (tg : tags) (h : mheap) : Prop :=
    fref tg h (fst hd) /\ (cf_stream_shared cf = false \/ stream_acc (fst hd) (snd hd) = false).
  Definition bstep (ps : pstate) (p : prim) : pstate := fst (pstep cf ps p).
  Definition bK (tg : tags) (ps : pstate) : Prop := KInv tg (hp ps) (kn ps).

  Lemma basic_step_inv : forall tg s c, Inv tg (hp s) -> bK tg s -> legal s c = true ->
    exists tg', Inv tg' (hp (bstep s c)) /\ bK tg' (bstep s c) /\ Ext tg (hp s) tg' (hp (bstep s c)).
  Proof. intros tg s c HI HK L. destruct (pstep_inv cf tg s c (conj HI HK) L) as (tg' & [I' K'] & E'). eauto. Qed.

  (* [runE] and [legalhE] over [bstep] and [legal] are convertible to [runh cf] and [legalh cf], the same recursions:
     what the engine section proves of them applies to histories of basicnode as it stands *)
  Lemma runh_inv : forall hs tg ps, SInv tg ps -> legalh cf ps hs = true ->
    exists tg', SInv tg' (runh cf ps hs) /\ Ext tg (hp ps) tg' (hp (runh cf ps hs)).
  Proof.
    intros hs tg ps [HI HK] Hl.
    destruct (runE_inv pstate prim hp bstep legal bK basic_step_inv hs tg ps HI HK Hl) as (tg' & I' & K' & E').
    exists tg'. split; [split|]; assumption.
  Qed.

  Lemma legalh_app : forall hs1 hs2 ps, legalh cf ps (hs1 ++ hs2) = legalh cf ps hs1 && legalh cf (runh cf ps hs1) hs2.
  Proof. exact (legalhE_app pstate prim bstep legal). Qed.

  Lemma runh_app : forall hs1 hs2 ps, runh cf ps (hs1 ++ hs2) = runh cf (runh cf ps hs1) hs2.
  Proof. exact (runE_app pstate prim bstep). Qed.

  Theorem basic_engine_stable : forall hs1 hs2, legalh cf pinit (hs1 ++ hs2) = true ->
    forall r a, bknown (runh cf pinit hs1) (r, a) ->
    bread (hp (runh cf pinit hs1)) (r, a) = bread (hp (runh cf pinit (hs1 ++ hs2))) (r, a).
  Proof.
    intros hs1 hs2 Hl r a Hk.
    refine (engine_stable pstate prim (nref * acc) (outcome ares) hp bstep legal bknown bread bok bK _ basic_step_inv _
              (fun _ => TFree) pinit inv_init _ hs1 hs2 Hl (r, a) Hk).
    - intros tg s hd K [H1 H2]. split; [exact (known_ok _ _ _ _ K H1) | exact H2].
    - intros tg h tg' h' [r0 a0] HI HE [H1 H2]. unfold bread. cbn [fst snd] in *. apply (acc_stable tg h tg' h' HI HE); assumption.
    - constructor.
  Qed.
End Basic.

(* C11_stable and C11_stable_partial (Props/C11.v) in one: for all accessors when streamBytes reads are
   position-independent, and for all but AsBytes / AsLargeBytes of a streamBytes node otherwise. *)
Theorem stable_gen : forall cf hs1 hs2,
  legalh cf pinit (hs1 ++ hs2) = true ->
  forall r, known_b (kn (runh cf pinit hs1)) (HNode r) = true ->
  forall a, cf_stream_shared cf = false \/ stream_acc r a = false ->
  read_obs cf (runh cf pinit hs1) r a = read_obs cf (runh cf pinit (hs1 ++ hs2)) r a.
Proof.
  intros cf hs1 hs2 Hl r Hk a Hs. rewrite !read_obs_fst, !runh_par.
  pose proof (basic_engine_stable cf hs1 hs2 Hl r a (conj Hk Hs)) as E. unfold bread in E. cbn [fst snd] in E.
  cbn [par pinit]. rewrite E. reflexivity.
Qed.

Theorem repeat_gen : forall cf hs,
  legalh cf pinit hs = true ->
  forall r, known_b (kn (runh cf pinit hs)) (HNode r) = true ->
  forall a, cf_stream_shared cf = false \/ stream_acc r a = false ->
  read_obs cf (runh cf pinit hs) r a = read_obs cf (fst (pstep cf (runh cf pinit hs) (PRead (HNode r) a))) r a.
Proof.
  intros cf hs Hl r Hk a Hs.
  assert (L : legalh cf pinit (hs ++ [PRead (HNode r) a]) = true).
  { rewrite legalh_app, Hl. cbn [legalh andb]. unfold legal. cbn [prim_operands forallb legal_heap]. rewrite Hk. reflexivity. }
  rewrite (stable_gen cf hs [PRead (HNode r) a] L r Hk a Hs). rewrite runh_app. reflexivity.
Qed.
