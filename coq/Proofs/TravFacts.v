(* Traversal, shared: one-step unfoldings of the two walkers (walk_S, cwalk_S), seqk and subseq facts, and [walk_inv],
   the invariant principle of the plain walk: a predicate on (fuel, link stack, path, node, selector) kept from a
   node to each explored child gives a property of every event and of the outcome.  C14_walk_paths, C10_walk_total,
   walk_not_budget and walk_path_prefix are instances.  (The induction that compares the walk with the denotation
   is walk_sim, TravDenoteWalk.v; the one under controls is ctl_sim, TravCtl.v.) *)
Require Import IP.Base.Bytes IP.DM.Value IP.Trav.Selector IP.Trav.Walk IP.Trav.Controls IP.Trav.ControlsSpec
  IP.Proofs.BytesFacts.
From Coq Require Import Lia.
Open Scope Z_scope.

Lemma mem_bytes_In c l : mem_bytes c l = true <-> In c l.
Proof.
  induction l as [|x l IH]; cbn; [split; [discriminate | tauto]|].
  rewrite orb_true_iff, bytes_eqb_eq, IH. split; intros [H|H]; auto.
Qed.

Lemma seqk_cons {A} (step : A -> list event * outcome) k r :
  seqk step (k :: r) =
  match step k with
  | (e, OOk) => let '(e', o) := seqk step r in (e ++ e', o)
  | (e, o) => (e, o)
  end.
Proof. reflexivity. Qed.

Lemma walk_S q g f ls P n s :
  walk q g (S f) ls P n s =
  if is_container n then
    let '(e, o) := seqk (explore_step q g (walk q g f) ls P n s) (children q n s) in (visit_event P n s ls :: e, o)
  else ([visit_event P n s ls], OOk).
Proof. reflexivity. Qed.

Lemma cwalk_S q c g f st past ls P n s :
  cwalk q c g (S f) st past ls P n s =
  match check_node st with
  | None => ([], OErr WNodeBudget, st)
  | Some st1 =>
      let vis := if negb past && Nat.ltb (length P) (length (c_start c)) then []
                 else [visit_event P n s ls] in
      if is_container n then
        let '(e, o, st2) := cloop c (cexplore_step q c g (cwalk q c g f) ls P n s) P (children q n s) st1 past false in
        (vis ++ e, o, st2)
      else (vis, OOk, st1)
  end.
Proof. reflexivity. Qed.

Lemma visit_event_is_visit P n s ls : is_visit (visit_event P n s ls) = true.
Proof. unfold visit_event; destruct (match_sel s n); reflexivity. Qed.

Lemma visit_event_path P n s ls : ev_path (visit_event P n s ls) = P.
Proof. unfold visit_event; destruct (match_sel s n); reflexivity. Qed.

Lemma visit_event_stack P n s ls : ev_stack (visit_event P n s ls) = ls.
Proof. unfold visit_event; destruct (match_sel s n); reflexivity. Qed.

Lemma seqk_ok_inv {A} (step : A -> list event * outcome) k r t :
  seqk step (k :: r) = (t, OOk) ->
  exists e e', step k = (e, OOk) /\ seqk step r = (e', OOk) /\ t = e ++ e'.
Proof.
  rewrite seqk_cons. destruct (step k) as [e o]. destruct o; try discriminate.
  destruct (seqk step r) as [e' o']. intros H; inversion H; subst. eauto.
Qed.

Lemma seqk_inv {A} (Q : event -> Prop) (R : outcome -> Prop) (step : A -> list event * outcome) ks :
  R OOk -> (forall k, In k ks -> Forall Q (fst (step k)) /\ R (snd (step k))) ->
  Forall Q (fst (seqk step ks)) /\ R (snd (seqk step ks)).
Proof.
  intros H0. induction ks as [|k r IH]; intros H; [split; [constructor|exact H0]|].
  cbn. destruct (H k (or_introl eq_refl)) as [Hq Hr]. destruct (step k) as [e o]. destruct o; cbn in *; auto.
  destruct (IH (fun k' Hin => H k' (or_intror Hin))) as [Hq' Hr'].
  destruct (seqk step r) as [e' o']; cbn in *. split; [apply Forall_app; auto|exact Hr'].
Qed.

(* I is what is known of the fuel, link stack, path, node and selector the walk is
   at; it gives Q of the visit there, and for each explored child Q of its load and I again where the walk continues.
   Then Q holds of every event and R of the outcome. *)
Section WalkInv.
  Variables (q : quirks) (g : list (bytes * dm)).
  Variable I : nat -> list bytes -> list seg -> dm -> sel -> Prop.
  Variable Q : event -> Prop.
  Variable R : outcome -> Prop.
  Hypothesis R_ok : R OOk /\ R (OErr WLoad) /\ R (OErr WExplore).
  Hypothesis I_fuel : forall ls P n s, I O ls P n s -> R OFuel.
  Hypothesis I_visit : forall f ls P n s, I (S f) ls P n s -> Q (visit_event P n s ls).
  Hypothesis I_kid : forall f ls P n s ps v,
    I (S f) ls P n s -> In (ps, v) (children q n s) ->
    match explore q s n ps with
    | XPanic => R OPanic
    | XOk (Some s') =>
        match v with
        | DLink c => Q (ELoad (P ++ [ps]) c ls) /\ forall b, assoc c g = Some b -> I f (c :: ls) (P ++ [ps]) b s'
        | _ => I f ls (P ++ [ps]) v s'
        end
    | _ => True
    end.

  Theorem walk_inv f : forall ls P n s,
    I f ls P n s -> Forall Q (fst (walk q g f ls P n s)) /\ R (snd (walk q g f ls P n s)).
  Proof.
    destruct R_ok as (Rk & Rl & Re).
    induction f as [|f IH]; intros ls P n s Hi; [split; [constructor|exact (I_fuel _ _ _ _ Hi)]|].
    pose proof (I_visit _ _ _ _ _ Hi) as Hv.
    rewrite walk_S. destruct (is_container n); [|split; [constructor; [exact Hv|constructor]|exact Rk]].
    pose proof (seqk_inv Q R (explore_step q g (walk q g f) ls P n s) (children q n s) Rk) as H.
    destruct (seqk (explore_step q g (walk q g f) ls P n s) (children q n s)) as [e o]. cbn [fst snd] in *.
    enough (He : Forall Q e /\ R o) by (split; [constructor; [exact Hv|]|]; apply He).
    apply H. clear H. intros [ps v] Hin. pose proof (I_kid f ls P n s ps v Hi Hin) as Hk.
    unfold explore_step; cbn [fst snd].
    destruct (explore q s n ps) as [[s'|]| |]; cbn [fst snd]; try (split; [constructor|assumption]).
    destruct v; try (apply IH; exact Hk).
    destruct Hk as [Hl Hb]. destruct (assoc c g) as [b|]; [|split; [constructor; [exact Hl|constructor]|exact Rl]].
    destruct (IH (c :: ls) (P ++ [ps]) b s' (Hb b eq_refl)) as [He Ho].
    destruct (walk q g f (c :: ls) (P ++ [ps]) b s') as [e' o']. split; [constructor; [exact Hl|exact He]|exact Ho].
  Qed.
End WalkInv.

Lemma walk_path_prefix q g f ls P n s :
  Forall (fun e => exists sfx, ev_path e = P ++ sfx) (fst (walk q g f ls P n s)).
Proof.
  apply (walk_inv q g (fun _ _ P' _ _ => exists sfx, P' = P ++ sfx) (fun e => exists sfx, ev_path e = P ++ sfx)
                  (fun _ => True)); auto.
  - intros _ ls' P' n' s' Hi. rewrite visit_event_path. exact Hi.
  - intros _ ls' P' n' s' ps v [sfx ->] _. destruct (explore q s' n' ps) as [[s''|]| |]; auto.
    assert (Hs : exists sfx', (P ++ sfx) ++ [ps] = P ++ sfx') by (rewrite <- app_assoc; eauto).
    destruct v; auto.
  - exists []. symmetry. apply app_nil_r.
Qed.

Lemma subseq_refl {A} (l : list A) : subseq l l.
Proof. induction l; constructor; auto. Qed.
Lemma subseq_app {A} (a b c d : list A) : subseq a b -> subseq c d -> subseq (a ++ c) (b ++ d).
Proof.
  induction 1; intros; cbn.
  - induction l; cbn; [assumption|constructor; assumption].
  - constructor; auto.
  - constructor; auto.
Qed.
Lemma subseq_filter {A} (p : A -> bool) (a b : list A) : subseq a b -> subseq (filter p a) (filter p b).
Proof.
  induction 1; cbn.
  - constructor.
  - destruct (p x); [constructor|]; auto.
  - destruct (p x); [constructor|]; auto.
Qed.
Lemma subseq_filter_self {A} (p : A -> bool) (l : list A) : subseq (filter p l) l.
Proof. induction l; cbn; [constructor|]. destruct (p a); constructor; auto. Qed.
