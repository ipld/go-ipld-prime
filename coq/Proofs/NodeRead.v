(* Proofs/NodeRead.v — the read API: an iterator (for !Done { Next }) yields every entry once, in
   order, and then over-reads; [look] and [at_index] are LookupByString and LookupByIndex as the
   iterated entries determine them.  C01_views_agree_map/_list (Props/C01.v) are concluded from
   these. *)
Require Import IP.Base.Bytes IP.DM.Value IP.Node.Basic IP.Proofs.BytesFacts.
Open Scope N_scope.

Lemma it_done_app : forall A (p s : list A), it_done (p ++ s) (length p) = match s with [] => true | _ => false end.
Proof.
  intros. unfold it_done. rewrite app_length. destruct s; simpl.
  - rewrite Nat.add_0_r. apply Nat.leb_refl.
  - apply Nat.leb_gt. lia.
Qed.

Lemma drain_S : forall A f (l : list A) i,
  drain (S f) l i =
  if it_done l i then ([], match it_next l i with Err e => Some e | Ok _ => None end)
  else match it_next l i with
       | Ok (a, i') => let (r, e) := drain f l i' in (a :: r, e)
       | Err e => ([], Some e)
       end.
Proof. reflexivity. Qed.

Lemma drain_suffix : forall A (s p : list A),
  drain (S (length s)) (p ++ s) (length p) = (s, Some EOverread).
Proof.
  induction s as [|a s]; intros p.
  - rewrite drain_S. unfold it_next. rewrite it_done_app. reflexivity.
  - change (length (a :: s)) with (S (length s)). rewrite drain_S.
    unfold it_next. rewrite it_done_app.
    rewrite nth_error_app2 by lia. rewrite Nat.sub_diag. simpl nth_error.
    replace (p ++ a :: s) with ((p ++ [a]) ++ s) by (rewrite <- app_assoc; reflexivity).
    replace (S (length p)) with (length (p ++ [a])) by (rewrite app_length; simpl; lia).
    rewrite IHs. reflexivity.
Qed.

Theorem iterate_all : forall A (l : list A), iterate l = (l, Some EOverread).
Proof. intros. unfold iterate. apply (drain_suffix A l []). Qed.

Definition entries_of (n : node) : list (bytes * node) :=
  match n with NMap t _ | NFMap t => t | _ => [] end.
Definition items_of (n : node) : list node :=
  match n with NList x | NFList x => x | _ => [] end.

Lemma assoc_in_nodup : forall V (l : list (bytes * V)) k v,
  NoDup (map fst l) -> In (k, v) l -> assoc k l = Some v.
Proof.
  induction l as [|[k' v'] l]; simpl; intros k v Hnd Hin; [contradiction|].
  inversion Hnd; subst. destruct Hin as [E|Hin].
  - inversion E; subst. rewrite bytes_eqb_refl. reflexivity.
  - destruct (bytes_eqb k k') eqn:E.
    + apply bytes_eqb_eq in E. subst. exfalso. apply H1. apply (in_map fst) in Hin. auto.
    + auto.
Qed.

Definition look (n : node) (k : bytes) : res err node :=
  match assoc k (entries_of n) with Some v => Ok v | None => Err ENotExists end.

Definition at_index (n : node) (i : Z) : res err node :=
  if (i <? 0)%Z then Err ENotExists
  else match nth_error (items_of n) (Z.to_nat i) with Some v => Ok v | None => Err ENotExists end.

Lemma index_nth : forall (x : list node) i, lookup_by_index (NList x) i = at_index (NList x) i.
Proof.
  intros. unfold at_index. simpl. destruct (i <? 0)%Z eqn:E1; auto.
  destruct (Z.of_nat (length x) <=? i)%Z eqn:E2; auto.
  replace (nth_error x (Z.to_nat i)) with (@None node); auto.
  symmetry. apply nth_error_None. apply Z.leb_le in E2. apply Z.ltb_ge in E1. lia.
Qed.

Lemma seg_int_index : forall i, (0 <= i)%Z -> seg_index (seg_of_int i) = Some i.
Proof.
  intros. unfold seg_index, seg_of_int. simpl.
  destruct (i <? 0)%Z eqn:E; auto. apply Z.ltb_lt in E. lia.
Qed.

Lemma seg_string_index : forall s, seg_index (seg_of_string s) = parse_int s.
Proof. reflexivity. Qed.

(* the NUint disjunct: AsInt cannot carry an int above MaxInt64 *)
Theorem right_kind_table : forall n,
  (kind_of n = KBool -> exists b, as_bool n = Ok b) /\
  (kind_of n = KInt -> (exists z, as_int n = Ok z) \/ (exists z, n = NUint z /\ (two63z <= z)%Z /\ as_int n = Err EOther)) /\
  (kind_of n = KFloat -> exists f, as_float n = Ok f) /\
  (kind_of n = KString -> exists s, as_string n = Ok s) /\
  (kind_of n = KBytes -> exists s, as_bytes n = Ok s) /\
  (kind_of n = KLink -> exists c, as_link n = Ok c).
Proof.
  destruct n; simpl; repeat split; intros; try discriminate; eauto.
  destruct (z <? two63z)%Z eqn:E; [left; eauto|right; exists z; repeat split; auto; lia].
Qed.
