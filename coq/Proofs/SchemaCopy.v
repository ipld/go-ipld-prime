(* Proofs/SchemaCopy.v — copying the type-level view of a typed value (datamodel.Copy: absent struct
   fields are skipped) yields its type-level tree [tdm_spec]; so "feed the type-level builder with the
   type-level view" is "feed it tdm_spec" (C08_two_routes_views). *)
Require Import IP.Base.Bytes IP.DM.Value IP.Schema.Types IP.Schema.View IP.Schema.Conform IP.Schema.Sem
  IP.Proofs.SchemaBase IP.Proofs.SchemaRepr IP.Proofs.SchemaShape IP.Proofs.SchemaTop.
From Coq Require Import Lia.
Open Scope N_scope.

Lemma some_dlist (o : option (list dm)) l :
  match o with Some ds => Some (DList ds) | None => None end = Some (DList l) -> o = Some l.
Proof. destruct o; congruence. Qed.

Lemma some_dmap (o : option (list (bytes * dm))) m :
  match o with Some ds => Some (DMap ds) | None => None end = Some (DMap m) -> o = Some m.
Proof. destruct o; congruence. Qed.

Lemma ov_copy_list {A} (F : A -> ov) (G : A -> dm) n l : forall i,
  (forall x, In x l -> ov_copy (F x) = Some (G x)) ->
  ov_copy (OList n (indexed i (map F l))) = Some (DList (map G l)).
Proof.
  induction l as [|x l IH]; intros i H; [reflexivity|].
  specialize (IH (i + 1)%Z (fun y Hy => H y (or_intror Hy))). pose proof (H x (or_introl eq_refl)) as Hx.
  cbn [map indexed ov_copy fst snd] in IH |- *. apply some_dlist in IH.
  rewrite IH, Hx. destruct (F x); try reflexivity. discriminate.
Qed.

Lemma ov_copy_map {A} (k : A -> bytes) (F : A -> ov) (G : A -> dm) (p : A -> bool) n l :
  (forall x, In x l -> if p x then ov_copy (F x) = Some (G x) else F x = OAbsent) ->
  ov_copy (OMap n (map (fun x => (k x, F x)) l)) = Some (DMap (map (fun x => (k x, G x)) (filter p l))).
Proof.
  induction l as [|x l IH]; intros H; [reflexivity|].
  specialize (IH (fun y Hy => H y (or_intror Hy))). pose proof (H x (or_introl eq_refl)) as Hx.
  cbn [map filter ov_copy fst snd] in IH |- *. apply some_dmap in IH. rewrite IH. destruct (p x).
  - rewrite Hx. destruct (F x); try reflexivity. discriminate.
  - now rewrite Hx.
Qed.

Lemma filter_true {A} (l : list A) : filter (fun _ => true) l = l.
Proof. induction l; cbn; congruence. Qed.

Lemma ov_copy_of_dm d : ov_copy (ov_of_dm d) = Some d.
Proof.
  induction d using dm_ind2; try reflexivity; cbn [ov_of_dm].
  - rewrite (ov_copy_list ov_of_dm (fun x => x)), map_id; [reflexivity|]. now apply Forall_forall.
  - rewrite (ov_copy_map fst (fun kv => ov_of_dm (snd kv)) snd (fun _ => true)), filter_true.
    + f_equal. f_equal. rewrite <- (map_id m) at 2. apply map_ext. now intros [].
    + now apply Forall_forall.
Qed.

Section CopyStep.
  Variables (hs : ty -> tv -> bool) (tvw : ty -> tv -> ov) (td : ty -> tv -> dm).
  Hypothesis Hrec : forall c v, hs c v = true -> ov_copy (tvw c v) = Some (td c v).

  Lemma copy_slot opt nul c m : has_maybe hs opt nul c m = true -> is_absent m = false ->
    ov_copy (tview_maybe tvw c m) = Some (tdm_maybe td c m).
  Proof. destruct m as [| |w]; cbn; try discriminate; auto. Qed.

  Lemma copy_step t v : shape_step hs t v = true -> ov_copy (tview_step tvw t v) = Some (tdm_step td t v).
  Proof.
    intros Hh.
    destruct t; destruct v; cbn [shape_step] in Hh; try discriminate; try (destruct w; discriminate);
      try reflexivity; cbn [tview_step tdm_step].
    - apply ov_copy_of_dm.
    - rewrite forallb_forall in Hh. apply ov_copy_list. intros x Hx.
      apply (copy_slot false nul); [now apply Hh|]. specialize (Hh x Hx). now destruct x.
    - apply andb_true_iff in Hh as [_ Hh]. rewrite forallb_forall in Hh.
      rewrite (ov_copy_map fst (fun kv => tview_maybe tvw t (snd kv)) (fun kv => tdm_maybe td t (snd kv))
                           (fun _ => true)), filter_true; [reflexivity|].
      intros x Hx. apply (copy_slot false nul); [now apply Hh|]. specialize (Hh x Hx). now destruct (snd x).
    - (* absent fields are skipped *)
      apply (ov_copy_map (fun x => f_name (fst (fst x))) (fun x => tview_maybe tvw (snd (fst x)) (snd x))
                         (fun x => tdm_maybe td (snd (fst x)) (snd x))).
      intros x Hx. destruct (is_absent (snd x)) eqn:Ea; cbn [negb].
      + now destruct (snd x).
      + apply (copy_slot (f_opt (fst (fst x))) (f_nul (fst (fst x)))); [|exact Ea].
        now apply (proj1 (has_fields_zip hs _ _) Hh).
    - destruct (nth_error ms i) as [m|]; [|discriminate].
      cbn [ov_copy fst snd]. pose proof (Hrec _ _ Hh) as Hc. rewrite Hc.
      destruct (tvw (snd m) v); try reflexivity. discriminate.
  Qed.
End CopyStep.

Theorem copy_tview n : forall t v, shape_f n t v = true -> ov_copy (tview_f n t v) = Some (tdm_f n t v).
Proof.
  induction n as [|n IH]; intros t v H; [discriminate|].
  unfold shape_f, tview_f, tdm_f in *. cbn [fuel_rec] in *.
  apply (copy_step (fuel_rec shape_step (fun _ _ => false) n)); auto.
Qed.

(* the literal form of the two-routes statement: copy either view, feed the builder of that level *)
Theorem two_routes_views e t v : wf t = true -> has_type t v = true ->
  (exists d, ov_copy (type_view e qoff t v) = Some d /\ tbuild e qoff t d = BOk v) /\
  (exists d, ov_copy (repr_view e qoff t v) = Some d /\ rbuild e qoff t d = BOk v).
Proof.
  intros Hwf Hh.
  destruct (views_top e qoff t v (views_off_qoff e) Hwf Hh) as [Hr [_ Ht]].
  destruct (two_routes_top e t v Hwf Hh) as [Hb1 [Hb2 _]].
  split.
  - exists (tdm_spec t v). split; auto. rewrite Ht. apply copy_tview. now apply shape_of_has.
  - exists (repr_spec t v). split; auto. rewrite Hr. apply ov_copy_of_dm.
Qed.
