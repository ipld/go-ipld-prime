(* Basic facts about the bind model: what view, denote and gv_ok do at a pointer, the Go types each
   position of the supported vocabulary can have, integer ranges, distinct names and the lookup of a
   union member by its key. *)
Require Import IP.Base.Bytes IP.DM.Value IP.Bind.GoVal IP.Bind.Bind IP.Bind.Spec.
Require Export IP.Proofs.BytesFacts.
From Coq Require Import ZifyN ZifyNat ZifyBool.
Open Scope N_scope.

Lemma bres_bind_ok : forall {A B} (r : bres A) (f : A -> bres B) a, r = Ok a -> bind r f = f a.
Proof. intros; subst; reflexivity. Qed.

Lemma andb3 : forall a b c, a && b && c = true -> a = true /\ b = true /\ c = true.
Proof. intros a b c H; destruct a, b, c; auto. Qed.

Lemma bindable_noptr : forall t s, bindable t s = true -> shape_is_ptr s = false.
Proof. intros t s H; destruct t, s; simpl in *; congruence. Qed.

Lemma gv_ok_noptr : forall q n32 t s v, gv_ok q n32 t s (GPtr v) = false.
Proof.
  intros q n32 t s v; destruct t; simpl; try reflexivity.
  - destruct s; reflexivity.
  - destruct s as [| | [|] | | | | | | | |]; reflexivity.
  - destruct s; reflexivity.
  - destruct s as [| | | | | | | | |n fs|]; try reflexivity.
    destruct fs as [|[a b] [|[c e] [|]]]; try reflexivity;
      destruct b; try reflexivity; destruct e; reflexivity.
  - destruct s; reflexivity.
  - destruct s; reflexivity.
  - destruct s; reflexivity.
Qed.

Lemma unptr_noptr : forall g, (forall w, g <> GPtr w) -> unptr g = g.
Proof. intros g H; destruct g; try reflexivity. exfalso; eapply H; reflexivity. Qed.

Lemma nonptr_noptr : forall s g, shape_is_ptr s = false -> nonptr s g = Ok (s, g).
Proof. intros s g H; destruct s; simpl in *; try reflexivity; discriminate. Qed.

Lemma deref1_noptr : forall s, shape_is_ptr s = false -> deref1 s = s.
Proof. intros s H; destruct s; try reflexivity; discriminate. Qed.

Lemma ok_loc_noptr : forall ok s g, shape_is_ptr s = false -> ok_loc ok s g = ok s g.
Proof. intros ok s g H; destruct s; try reflexivity; discriminate. Qed.

Lemma bindable_loc_ok : forall t s, bindable t s = true -> loc_ok (fun _ => bindable t) t s = true.
Proof. intros t s H. pose proof (bindable_noptr _ _ H). destruct s; try exact H; discriminate. Qed.

Lemma loc_ok_inv : forall t s, loc_ok (fun _ => bindable t) t s = true ->
  bindable t s = true \/
  exists s1, s = SPtr s1 /\ bindable t s1 = true /\ is_unsigned_shape s1 = false /\ is_kinded t = false.
Proof.
  intros t s H. destruct s; try (left; exact H).
  right. apply andb3 in H. destruct H as [Hb [Hu Hk]]. apply negb_true_iff in Hu, Hk. eauto.
Qed.

Lemma loc_ok_direct : forall t s, loc_ok (fun _ => bindable t) t s = true -> bindable t (deref1 s) = true.
Proof.
  intros t s H. destruct (loc_ok_inv t s H) as [Hb | [s1 [-> [Hb _]]]]; [|exact Hb].
  rewrite (deref1_noptr s (bindable_noptr _ _ Hb)). exact Hb.
Qed.

Lemma nullable_ok_inv : forall t s, nullable_ok (fun _ => bindable t) t s = true ->
  (exists s1, s = SPtr s1 /\ loc_ok (fun _ => bindable t) t s = true)
  \/ (s = SNode /\ t = TAny) \/ (s = SLink LIface /\ t = TLink).
Proof.
  intros t s H. destruct s as [| | | | |[| |]| | s1 | | |]; try discriminate.
  - right; right. destruct t; try discriminate. auto.
  - right; left. destruct t; try discriminate. auto.
  - left. eauto.
Qed.

Lemma nullable_loc_ok : forall t s, nullable_ok (fun _ => bindable t) t s = true ->
  loc_ok (fun _ => bindable t) t s = true.
Proof. intros t s H. destruct (nullable_ok_inv t s H) as [[s1 [_ Hl]] | [[-> ->] | [-> ->]]]; [exact Hl | reflexivity..]. Qed.

Lemma nullable_zero : forall t s, nullable_ok (fun _ => bindable t) t s = true -> zero_of s = GNil.
Proof. intros t s H. destruct (nullable_ok_inv t s H) as [[s1 [-> _]] | [[-> _] | [-> _]]]; reflexivity. Qed.

Lemma field_ok_inv : forall t (opt nl : bool) s, field_ok (fun _ => bindable t) t opt nl s = true ->
  if opt then
    (exists s1, s = SPtr s1 /\
                (if nl then nullable_ok (fun _ => bindable t) t s1 else loc_ok (fun _ => bindable t) t s1) = true)
    \/ (nl = false /\ (s = SNode /\ t = TAny \/ s = SLink LIface /\ t = TLink))
  else (if nl then nullable_ok (fun _ => bindable t) t s else loc_ok (fun _ => bindable t) t s) = true.
Proof.
  intros t opt nl s H. destruct opt, nl; try exact H; simpl in H.
  - destruct s as [| | | | | | | s1 | | |]; try discriminate.
    apply andb_prop in H. destruct H as [H _]. left. eauto.
  - destruct s as [| | | | |[| |]| | s1 | | |]; try discriminate.
    + right. destruct t; try discriminate. auto.
    + right. destruct t; try discriminate. auto.
    + left. exists s1. auto using bindable_loc_ok.
Qed.

Lemma view_ptr : forall q lv t s v, shape_is_ptr s = false ->
  view q lv t (SPtr s) (GPtr v) = view q lv t s v.
Proof.
  intros q lv t s v H. destruct t; simpl; rewrite (nonptr_noptr s v H); reflexivity.
Qed.

Lemma denote_ptr : forall lv t v, (forall w, v <> GPtr w) -> denote lv t (GPtr v) = denote lv t v.
Proof.
  intros lv t v H. destruct t; simpl; rewrite (unptr_noptr v H); reflexivity.
Qed.

Lemma denote_ptr_ok : forall q n32 lv t s v, gv_ok q n32 t s v = true -> denote lv t (GPtr v) = denote lv t v.
Proof. intros q n32 lv t s v H. apply denote_ptr. intros w ->. rewrite gv_ok_noptr in H. discriminate. Qed.

Lemma bindable_map_inv : forall n kt vt (nl : bool) s, bindable (TMap n kt vt nl) s = true ->
  exists sn k1 n1 k2 mv,
    s = SStruct sn [(k1, SSlice n1 SString); (k2, SGoMap SString mv)] /\ kt = TString /\
    (if nl then nullable_ok (fun _ => bindable vt) vt mv else loc_ok (fun _ => bindable vt) vt mv) = true.
Proof.
  intros n kt vt nl s H.
  destruct s as [| | | | | | | | |sn fs|]; simpl in H; try discriminate.
  destruct fs as [|[k1 s1] fs]; try discriminate.
  destruct fs as [|[k2 s2] fs]; try (destruct s1 as [| | | | | | | |? [| | | | | | | | | |]| |]; discriminate).
  destruct s1 as [| | | | | | | |n1 ks| |]; try discriminate.
  destruct ks; try discriminate.
  destruct s2 as [| | | | | | | | | |mk mv]; try discriminate.
  destruct mk; try discriminate.
  destruct fs; try discriminate.
  apply andb_prop in H. destruct H as [Hk Hv].
  destruct kt; try discriminate.
  exists sn, k1, n1, k2, mv. auto.
Qed.

Lemma bindable_struct_inv : forall n fs r s, bindable (TStruct n fs r) s = true ->
  exists sn ss, s = SStruct sn ss /\ fields_bindable (fun f => bindable (f_type f)) fs ss = true /\
    names_nodup (map f_name fs) = true /\ names_nodup (map f_rkey fs) = true /\
    (r = SRTuple -> forallb (fun f => negb (f_opt f)) fs = true).
Proof.
  intros n fs r s H. destruct s as [| | | | | | | | |sn ss|]; simpl in H; try discriminate.
  apply andb_prop in H. destruct H as [H Hr]. apply andb3 in H. destruct H as [Hb [Hn Hk]].
  exists sn, ss. repeat split; try assumption. intros ->. exact Hr.
Qed.

(* stringprefix unions are outside the vocabulary *)
Lemma bindable_union_inv : forall n ms r s, bindable (TUnion n ms r) s = true ->
  exists sn ss, s = SStruct sn ss /\ members_bindable (fun m => bindable (snd m)) ms ss = true /\
    names_nodup (map (fun m => sty_name (snd m)) ms) = true /\ names_nodup (map fst ms) = true /\
    match r with URKeyed => True | URKinded => kinded_wf ms = true | URStringprefix => False end.
Proof.
  intros n ms r s H. destruct s as [| | | | | | | | |sn ss|]; simpl in H; try discriminate.
  apply andb_prop in H. destruct H as [H Hr]. apply andb3 in H. destruct H as [Hb [Hn Hk]].
  exists sn, ss. repeat split; try assumption. destruct r; (exact I || exact Hr || discriminate).
Qed.

Lemma ok_members_inv : forall (ok : bytes * sty -> shape -> gv -> bool) ms ss gs i,
  members_bindable (fun m => bindable (snd m)) ms ss = true ->
  ok_members ok ms ss gs false = true ->
  exists pre m post ms1 v,
    ms = pre ++ m :: post /\ ok m ms1 v = true /\ bindable (snd m) ms1 = true /\ is_any (snd m) = false /\
    nth_shape (length pre) ss = SPtr ms1 /\
    union_member ss gs i = Ok (Some ((i + length pre)%nat, ms1, v)) /\
    forall (den : bytes * sty -> gv -> dm) wrapm, den_union den wrapm ms gs = wrapm m (den m v).
Proof.
  intros ok. induction ms as [|m ms IH]; intros ss gs i Hb Hg.
  - destruct ss; simpl in Hb; try discriminate. destruct gs; simpl in Hg; discriminate.
  - destruct ss as [|[sn s] ss]; simpl in Hb; try discriminate.
    destruct s as [| | | | | | | ms1 | | |]; try discriminate.
    apply andb3 in Hb. destruct Hb as [Hb1 [Hany Hb2]]. apply negb_true_iff in Hany.
    destruct gs as [|g gs]; simpl in Hg; try discriminate.
    destruct g; try discriminate.
    + destruct (IH ss gs (S i) Hb2 Hg) as [pre [m' [post [ms1' [v [-> [Hok [Hbm [Ha [Hn [Hu Hd]]]]]]]]]]].
      exists (m :: pre), m', post, ms1', v. cbn [app length union_member den_union].
      rewrite <- Nat.add_succ_comm. repeat split; assumption.
    + cbn [negb andb] in Hg. apply andb_prop in Hg. destruct Hg as [Hok _].
      exists [], m, ms, ms1, g. cbn [app length union_member den_union]. rewrite Nat.add_0_r. repeat split; assumption.
Qed.

Lemma ik_bits_range : forall k, (1 <= ik_bits k <= 64)%Z.
Proof. destruct k; simpl; lia. Qed.

Lemma ik_narrow_in : forall k z, ik_in k z = true -> ik_narrow k z = z.
Proof.
  intros k z H. unfold ik_in, ik_lo, ik_hi, ik_narrow in *. pose proof (ik_bits_range k) as Hb.
  apply andb_prop in H; destruct H as [H1 H2]. apply Z.leb_le in H1. apply Z.ltb_lt in H2.
  destruct (ik_unsigned k); [apply Z.mod_small; lia|].
  set (h := (2 ^ (ik_bits k - 1))%Z) in *.
  assert (E : (2 ^ ik_bits k = 2 * h)%Z).
  { replace (ik_bits k) with (Z.succ (ik_bits k - 1)) at 1 by lia. apply Z.pow_succ_r. lia. }
  rewrite E, Z.mod_small; lia.
Qed.

Lemma signed_below_two63 : forall k z, ik_unsigned k = false -> ik_in k z = true -> (z <? two63z)%Z = true.
Proof.
  intros k z Hu H. unfold ik_in, ik_hi in H. rewrite Hu in H.
  apply andb_prop in H; destruct H as [_ H2]. apply Z.ltb_lt in H2. apply Z.ltb_lt.
  pose proof (ik_bits_range k) as Hb.
  assert (2 ^ (ik_bits k - 1) <= 2 ^ 63)%Z by (apply Z.pow_le_mono_r; lia).
  change two63z with (2 ^ 63)%Z. lia.
Qed.

Lemma unsigned_nonneg : forall k z, ik_unsigned k = true -> ik_in k z = true -> (z <? 0)%Z = false.
Proof.
  intros k z Hu H. unfold ik_in, ik_lo in H. rewrite Hu in H.
  apply andb_prop in H; destruct H as [H1 _]. apply Z.leb_le in H1. apply Z.ltb_ge. exact H1.
Qed.

Lemma mapM_ok : forall {A B} (f : A -> bres B) (h : A -> B) l,
  Forall (fun x => f x = Ok (h x)) l -> mapM f l = Ok (map h l).
Proof.
  intros A B f h l H; induction H; simpl; [reflexivity|].
  rewrite H. simpl. rewrite IHForall. reflexivity.
Qed.

Lemma set_nth_app : forall {A} (pre : list A) x y post,
  set_nth (length pre) x (pre ++ y :: post) = pre ++ x :: post.
Proof. intros A pre; induction pre; simpl; intros; [reflexivity | f_equal; apply IHpre]. Qed.

Lemma existsb_map_strings : forall k ks,
  existsb (gv_eqb (GString k)) (map GString ks) = existsb (bytes_eqb k) ks.
Proof. intros k ks; induction ks; [reflexivity|]. cbn [map existsb]. rewrite IHks. reflexivity. Qed.

Lemma fits_nonnull : forall q lv n32 t s, fits q lv n32 t s DNull = false.
Proof.
  intros q lv n32 t s. destruct t; simpl; try reflexivity;
    repeat match goal with
           | |- context [match ?x with _ => _ end] => destruct x; try reflexivity
           end.
Qed.

Lemma fits_child_inv : forall (F : shape -> dm -> bool) s d, fits_child F false s d = true -> F (deref1 s) d = true.
Proof. intros F s d H. destruct d; (discriminate H || exact H). Qed.

Lemma nullable_built : forall q n32 lv t s g, nullable_ok (fun _ => bindable t) t s = true ->
  ok_loc (gv_ok q n32 t) s g = true ->
  ok_child (gv_ok q n32 t) true s g = true /\ den_child (denote lv t) true g = denote lv t g.
Proof.
  intros q n32 lv t s g Hs Hg.
  destruct (nullable_ok_inv t s Hs) as [[s1 [-> _]] | [[-> ->] | [-> ->]]];
    destruct g; simpl in Hg; try discriminate; split; try reflexivity; try exact Hg.
  symmetry. exact (denote_ptr_ok _ _ lv _ _ _ Hg).
Qed.

Lemma nodup_head : forall k l, names_nodup (k :: l) = true ->
  (forall x, In x l -> bytes_eqb x k = false) /\ names_nodup l = true.
Proof.
  intros k l H. simpl in H. apply andb_prop in H. destruct H as [H1 H2]. split; [|assumption].
  apply negb_true_iff in H1. intros x Hx.
  rewrite bytes_eqb_sym. exact (existsb_false_In k l H1 x Hx).
Qed.

Lemma fits_fields_cons : forall (F : fld -> shape -> dm -> bool) (key : fld -> bytes) f fs sn s ss m,
  fits_fields F key (f :: fs) ((sn, s) :: ss) m = true ->
  (exists v m', m = (key f, v) :: m'
     /\ fits_child (F f) (f_nul f) (if f_opt f then deref1 s else s) v = true
     /\ fits_fields F key fs ss m' = true)
  \/ (f_opt f = true /\ fits_fields F key fs ss m = true).
Proof.
  intros F key f fs sn s ss m H. cbn [fits_fields] in H.
  destruct m as [|[k v] m']; [right; apply andb_prop; exact H|].
  destruct (bytes_eqb k (key f)) eqn:Ek; [|right; apply andb_prop; exact H].
  apply bytes_eqb_eq in Ek. subst k. apply andb_prop in H. left. exists v, m'. tauto.
Qed.

Lemma fits_fields_keys : forall (F : fld -> shape -> dm -> bool) (key : fld -> bytes) fs ss m,
  fits_fields F key fs ss m = true -> forall kv, In kv m -> In (fst kv) (map key fs).
Proof.
  intros F key. induction fs as [|f fs IH]; intros ss m Hfit.
  - destruct ss; simpl in Hfit; try discriminate. destruct m; try discriminate. intros kv [].
  - destruct ss as [|[sn s] ss]; [discriminate|].
    destruct (fits_fields_cons _ _ _ _ _ _ _ _ Hfit) as [[v [m' [-> [_ Hrest]]]] | [_ Hrest]].
    + intros kv [<-|Hkv]; [left; reflexivity | right; exact (IH ss _ Hrest kv Hkv)].
    + intros kv Hkv. right. exact (IH ss _ Hrest kv Hkv).
Qed.

Lemma nodup_app_fresh : forall {A} (key : A -> bytes) (pre : list A) m post,
  names_nodup (map key (pre ++ m :: post)) = true ->
  forall x, In x pre -> bytes_eqb (key m) (key x) = false.
Proof.
  intros A key. induction pre as [|p pre IH]; intros m post H x Hx; [contradiction|].
  cbn [app map] in H. destruct (nodup_head _ _ H) as [Hfresh Hnd].
  destruct Hx as [->|Hx].
  - apply Hfresh. rewrite map_app. apply in_or_app. right. left. reflexivity.
  - eapply IH; eassumption.
Qed.

Lemma gv_nodup_strings : forall ks, gv_nodup (map GString ks) = names_nodup ks.
Proof.
  induction ks as [|k ks IH]; [reflexivity|].
  cbn [names_nodup map gv_nodup]. rewrite IH, existsb_map_strings. reflexivity.
Qed.

Lemma strings_of_keys : forall keys,
  forallb (fun k => match k with GString _ => true | _ => false end) keys = true ->
  keys = map GString (map (fun k => match k with GString b => b | _ => [] end) keys).
Proof.
  induction keys as [|k keys IH]; intros H; [reflexivity|].
  cbn [forallb] in H. apply andb_prop in H. destruct H as [Hk H].
  destruct k; try discriminate. cbn [map]. rewrite <- (IH H). reflexivity.
Qed.

Definition member_key (byname : bool) (m : bytes * sty) : bytes := if byname then sty_name (snd m) else fst m.

Lemma with_member_found : forall {R} byname k (body : nat -> bytes * sty -> R) none pre m post i,
  (forall x, In x pre -> bytes_eqb k (member_key byname x) = false) -> bytes_eqb k (member_key byname m) = true ->
  with_member byname k body none (pre ++ m :: post) i = body (i + length pre)%nat m.
Proof.
  intros R byname k body none pre; induction pre as [|p pre IH]; intros m post i Hpre Hm.
  - cbn [app with_member length]. unfold member_key in Hm. rewrite Hm. rewrite Nat.add_0_r. reflexivity.
  - cbn [app with_member length]. pose proof (Hpre p (or_introl eq_refl)) as Hp. unfold member_key in Hp. rewrite Hp.
    rewrite IH; [f_equal; lia | intros x Hx; apply Hpre; right; exact Hx | exact Hm].
Qed.

Lemma with_member_self : forall {R} byname (body : nat -> bytes * sty -> R) none pre m post,
  names_nodup (map (member_key byname) (pre ++ m :: post)) = true ->
  with_member byname (member_key byname m) body none (pre ++ m :: post) 0 = body (length pre) m.
Proof.
  intros R byname body none pre m post H. rewrite with_member_found;
    [reflexivity | intros x Hx; exact (nodup_app_fresh (member_key byname) pre m post H x Hx) | apply bytes_eqb_refl].
Qed.
