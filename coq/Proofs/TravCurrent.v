(* C07 for the CURRENT tree ([current]: /repo as it stands, the pinned code plus the three selector fixes, only the
   shared depth counter left; see the header of TravPinned.v for the three named settings): on every compiled
   selector satisfying the syntactic condition [no_shared_depth] the walk is exactly what the selector denotes.
   The shared counter gives mid-sequence members a smaller remaining depth than the specification's per-thread
   counters; under the condition such members contain no edge of their recursion, so the difference can never be
   consulted.  Thread lists are therefore compared up to [norm], which erases depth counters that cannot be read:
   those of frames below the innermost one (edges bind to the innermost recursion) and that of the innermost frame of
   a clause without a free edge. *)
Require Import IP.Base.Bytes IP.DM.Value IP.Base.GoSem IP.Trav.Selector IP.Trav.Walk IP.Trav.Controls IP.Trav.SelectorSpec
  IP.Trav.Path IP.Trav.QuirkFree IP.Proofs.TravFacts IP.Proofs.TravSel IP.Proofs.TravPath
  IP.Proofs.TravSlice IP.Proofs.TravDenote IP.Proofs.TravDenoteWalk.
From Coq Require Import Lia.
Open Scope Z_scope.

Lemma ed_shift s : forall d, edge_depths d s = map (Nat.add d) (edge_depths 0 s).
Proof.
  induction s as [sl|nx IH|fs IH|i nx IH|a b' nx IH|ms IH|sq cur lim stop IH1 IH2|] using sel_ind2;
    intros d; try reflexivity;
    try (cbn [edge_depths]; rewrite (IH (S d)), (IH 1%nat), map_map; apply map_ext; intros; lia).
  - rewrite !ed_fields. induction IH as [|kv t Hx _ IHt]; [reflexivity|].
    cbn [flat_map]. rewrite !map_app, (Hx (S d)), (Hx 1%nat), map_map, IHt. f_equal. apply map_ext. intros; lia.
  - rewrite !ed_union. induction IH as [|m t Hx _ IHt]; [reflexivity|].
    cbn [flat_map]. rewrite map_app, (Hx d), IHt. reflexivity.
  - cbn. f_equal. lia.
Qed.

Definition is_efree (s : sel) : bool := match edge_depths 0 s with [] => true | _ => false end.
(* all members of a current selector at one phase pass their edges together *)
Definition phase (r : nat) (s : sel) : Prop := Forall (fun d => d = r) (edge_depths 0 s).

Lemma efree_phase r s : is_efree s = true -> phase r s.
Proof. unfold is_efree, phase. destruct (edge_depths 0 s); [constructor|discriminate]. Qed.

Definition erase (f : frame) : frame := {| fr_seq := fr_seq f; fr_lim := None; fr_stop := fr_stop f |}.
Definition norm_fr (b : bool) (fr : list frame) : list frame :=
  match fr with [] => [] | f :: r => (if b then f else erase f) :: map erase r end.
Definition norm (t : thr) : thr :=
  match t with Thr p fr => Thr p (norm_fr (negb (is_efree p)) fr) end.

Lemma erase_idem f : erase (erase f) = erase f.
Proof. reflexivity. Qed.
Lemma map_erase_idem l : map erase (map erase l) = map erase l.
Proof. rewrite map_map. reflexivity. Qed.

Lemma norm_fr_erase b frA frB : norm_fr b frA = norm_fr b frB -> map erase frA = map erase frB.
Proof.
  destruct frA as [|a ta], frB as [|b0 tb]; cbn; try discriminate; [reflexivity|].
  intros H. inversion H as [[H1 H2]]. rewrite H2. f_equal.
  destruct b; [rewrite H1; reflexivity|exact H1].
Qed.

Lemma norm_fr_mono p p' frA frB :
  (is_efree p = true -> is_efree p' = true) ->
  norm_fr (negb (is_efree p)) frA = norm_fr (negb (is_efree p)) frB ->
  norm_fr (negb (is_efree p')) frA = norm_fr (negb (is_efree p')) frB.
Proof.
  intros Hb H. destruct (is_efree p'); [|destruct (is_efree p); [discriminate (Hb eq_refl)|exact H]].
  pose proof (norm_fr_erase _ frA frB H) as E.
  destruct frA as [|a ta], frB as [|b0 tb]; cbn in *; try discriminate; [reflexivity|]. congruence.
Qed.

Lemma stopped_erase fr v : stopped (map erase fr) v = stopped fr v.
Proof. unfold stopped. induction fr as [|f r IH]; [reflexivity|]. cbn. rewrite IH. reflexivity. Qed.

Lemma norm_nil_iff a b : map norm a = map norm b -> (a = [] <-> b = []).
Proof. destruct a, b; cbn; try discriminate; intros _; split; try discriminate; auto. Qed.

Lemma map_norm_or_nop frA frB a b :
  map erase frA = map erase frB -> map norm a = map norm b ->
  map norm (or_nop frA a) = map norm (or_nop frB b).
Proof.
  intros Hf H. destruct a, b; cbn in H; try discriminate; [|exact H].
  cbn. f_equal. f_equal.
  destruct frA as [|x ta], frB as [|y tb]; cbn in *; try discriminate; try congruence.
Qed.

Lemma enter0_tail s : forall h tA tB,
  map erase tA = map erase tB -> map norm (enter0 s (h :: tA)) = map norm (enter0 s (h :: tB)).
Proof.
  induction s as [sl|nx IH|fs IH|i nx IH|a b' nx IH|ms IH|sq cur lim stop IH1 IH2|] using sel_ind2;
    intros h tA tB H; try reflexivity; try (cbn; rewrite H; reflexivity).
  - destruct ms as [|m ms]; [cbn; rewrite H; reflexivity|]. rewrite !enter0_union.
    rewrite Forall_forall in IH. apply map_flat_map_ext_in. intros x Hx. apply (IH x Hx), H.
  - cbn [enter0]. apply map_norm_or_nop; [cbn; rewrite H; reflexivity|].
    apply IH1. cbn. rewrite H. reflexivity.
Qed.

Lemma rep_tail s : forall h tA tB,
  map erase tA = map erase tB -> map norm (rep s (h :: tA)) = map norm (rep s (h :: tB)).
Proof.
  induction s as [sl|nx IH|fs IH|i nx IH|a b' nx IH|ms IH|sq cur lim stop IH1 IH2|] using sel_ind2;
    intros h tA tB H; try reflexivity; try (cbn; rewrite H; reflexivity).
  - destruct ms as [|m ms]; [cbn; rewrite H; reflexivity|]. rewrite !rep_union.
    rewrite Forall_forall in IH. apply map_flat_map_ext_in. intros x Hx. apply (IH x Hx), H.
  - cbn [rep]. apply map_norm_or_nop; [cbn; rewrite H; reflexivity|].
    apply IH2. cbn. rewrite H. reflexivity.
Qed.

Lemma conts_depths s s' : In s' (conts s) -> incl (map S (edge_depths 0 s')) (edge_depths 0 s).
Proof.
  change S with (Nat.add 1). rewrite <- (ed_shift s' 1).
  destruct s; cbn [conts]; intros Hin; try (destruct Hin as [<-|[]]; apply incl_refl); try destruct Hin.
  rewrite ed_fields. apply in_map_iff in Hin. destruct Hin as (kv & <- & Hin).
  intros d Hd. apply in_flat_map. eauto.
Qed.
Lemma efree_conts s s' : is_efree s = true -> In s' (conts s) -> is_efree s' = true.
Proof.
  unfold is_efree. intros H Hin. pose proof (conts_depths s s' Hin) as Hi.
  destruct (edge_depths 0 s); [|discriminate]. apply incl_l_nil in Hi. destruct (edge_depths 0 s'); [reflexivity|discriminate].
Qed.
Lemma phase_conts r s s' : phase r s -> In s' (conts s) -> phase (pred r) s'.
Proof.
  unfold phase. rewrite !Forall_forall. intros H Hin d Hd. rewrite <- (H (S d)); [reflexivity|].
  exact (conts_depths s s' Hin _ (in_map S _ d Hd)).
Qed.
Lemma efree_union ms m : is_efree (SUnion ms) = true -> In m ms -> is_efree m = true.
Proof.
  unfold is_efree. rewrite ed_union. induction ms as [|x t IH]; intros H Hin; [destruct Hin|].
  cbn in H. destruct (edge_depths 0 x) eqn:Ex; [|discriminate]. cbn in H.
  destruct Hin as [->|Hin]; [rewrite Ex; reflexivity|]. apply IH; assumption.
Qed.

Lemma enter_norm nx : forall frA frB,
  norm_fr (negb (is_efree nx)) frA = norm_fr (negb (is_efree nx)) frB ->
  map norm (enter nx frA) = map norm (enter nx frB).
Proof.
  induction nx as [sl|nx IH|fs IH|i nx IH|a b' nx IH|ms IH|sq cur lim stop IH1 IH2|] using sel_ind2;
    intros frA frB H; try (cbn [enter map norm]; rewrite H; reflexivity).
  - destruct ms as [|m ms]; [cbn [enter map norm]; rewrite H; reflexivity|]. rewrite !enter_union.
    rewrite Forall_forall in IH. apply map_flat_map_ext_in. intros x Hx. apply (IH x Hx).
    apply (norm_fr_mono (SUnion (m :: ms))); [intros Eu; exact (efree_union _ _ Eu Hx)|exact H].
  - cbn [enter]. pose proof (norm_fr_erase _ _ _ H) as He.
    apply map_norm_or_nop; [cbn; rewrite He; reflexivity|]. apply enter0_tail. exact He.
  - cbn [is_efree edge_depths negb] in H. change (negb (is_efree SEdge)) with true in H.
    destruct frA as [|x ta], frB as [|y tb]; cbn in H; try discriminate; [reflexivity|].
    inversion H as [[H1 H2]]. subst y. cbn [enter]. destruct (exhausted (fr_lim x)); [reflexivity|].
    apply map_norm_or_nop; [cbn; rewrite H2; reflexivity|]. apply enter0_tail. exact H2.
Qed.

Lemma sstep_norm n ps v p frA frB :
  norm_fr (negb (is_efree p)) frA = norm_fr (negb (is_efree p)) frB ->
  map norm (sstep n ps v (Thr p frA)) = map norm (sstep n ps v (Thr p frB)).
Proof.
  intros H. rewrite !sstep_next.
  rewrite <- (stopped_erase frA), <- (stopped_erase frB), (norm_fr_erase _ _ _ H).
  destruct (stopped (map erase frB) v); [reflexivity|]. destruct (next p n ps) as [nx|] eqn:E; [|reflexivity].
  apply enter_norm, (norm_fr_mono p); [intros Ep; exact (efree_conts p nx Ep (next_conts p n ps nx E))|exact H].
Qed.

Lemma flat_sstep_norm n ps v : forall A B,
  map norm A = map norm B -> map norm (flat_map (sstep n ps v) A) = map norm (flat_map (sstep n ps v) B).
Proof.
  induction A as [|x A IH]; destruct B as [|y B]; cbn [map]; try discriminate; [reflexivity|].
  intros H. inversion H as [[H1 H2]]. cbn [flat_map]. rewrite !map_app, (IH B H2). f_equal.
  destruct x as [p frA], y as [p' frB]. cbn [norm] in H1. inversion H1 as [[Hp Hf]]. subst p'. apply sstep_norm. exact Hf.
Qed.

Lemma smatch_norm A n : smatch (map norm A) n = smatch A n.
Proof. induction A as [|[p fr] A IH]; [reflexivity|]. cbn. rewrite IH. reflexivity. Qed.
Lemma sinterests_norm A : sinterests (map norm A) = sinterests A.
Proof. induction A as [|[p fr] A IH]; [reflexivity|]. cbn. rewrite IH. reflexivity. Qed.

Theorem denote_norm g f : forall ls P n A B,
  map norm A = map norm B -> denote g f ls P n A = denote g f ls P n B.
Proof.
  induction f as [|f IH]; intros ls P n A B H; [reflexivity|].
  rewrite !denote_S.
  assert (Em : smatch A n = smatch B n) by (rewrite <- (smatch_norm A), <- (smatch_norm B), H; reflexivity).
  assert (Ec : schildren n A = schildren n B).
  { unfold schildren. rewrite <- (sinterests_norm A), <- (sinterests_norm B), H. reflexivity. }
  rewrite Em, Ec. destruct (is_container n); [|reflexivity].
  rewrite (seqk_ext_in (denote_step g (denote g f) ls P n A) (denote_step g (denote g f) ls P n B)); [reflexivity|].
  intros [ps v] _. unfold denote_step; cbn [fst snd].
  pose proof (flat_sstep_norm n ps v A B H) as Hs.
  destruct (flat_map (sstep n ps v) A) as [|a0 A'] eqn:EA; destruct (flat_map (sstep n ps v) B) as [|b0 B'] eqn:EB;
    cbn [map] in Hs; try discriminate; [reflexivity|].
  destruct v; try (apply IH; exact Hs).
  destruct (assoc c g); [|reflexivity]. rewrite (IH (c :: ls) (P ++ [ps]) d (a0 :: A') (b0 :: B') Hs). reflexivity.
Qed.

Lemma phase_union r ms : phase r (SUnion ms) <-> Forall (phase r) ms.
Proof. unfold phase. rewrite ed_union. apply Forall_flat_map. Qed.
Lemma uniform_phase sq : uniform sq = true -> exists k, phase k sq.
Proof.
  unfold uniform, phase. destruct (edge_depths 0 sq) as [|d r]; [exists O; constructor|].
  intros H. exists d. constructor; [reflexivity|]. rewrite forallb_forall in H. apply Forall_forall.
  intros x Hx. specialize (H x Hx). apply Nat.eqb_eq in H. auto.
Qed.
Lemma atomic_phase0 s : atomic s = true -> phase 0 s -> is_efree s = true.
Proof.
  assert (Hc : forall nx, Forall (fun d => d = 0%nat) (edge_depths 1 nx) -> edge_depths 1 nx = []).
  { intros nx H. rewrite (ed_shift nx 1) in *. destruct (edge_depths 0 nx); [reflexivity|]. inversion H; discriminate. }
  unfold phase, is_efree. destruct s; try discriminate; try (intros _ _; reflexivity);
    try (cbn [edge_depths]; intros _ H; rewrite (Hc _ H); reflexivity).
  - rewrite ed_fields. intros _ H. apply Forall_flat_map in H.
    replace (flat_map (fun kv => edge_depths 1 (snd kv)) fs) with (@nil nat); [reflexivity|].
    induction H as [|kv t Hx _ IHt]; [reflexivity|]. cbn [flat_map]. rewrite (Hc _ Hx). exact IHt.
  - destruct ms; [intros _ _; reflexivity|discriminate].
Qed.

(* nsd_rec for a selector as it occurs during a walk: the current clause of a limited recursion need no longer be
   its sequence, but it is still at one phase *)
Inductive nsdr : sel -> Prop :=
| nr_union ms : Forall nsdr ms -> nsdr (SUnion ms)
| nr_rec sq cur lim stop :
    nsd_rec sq = true -> live sq = true -> nsdr cur ->
    (lim = None \/ (uniform sq = true /\ exists r, phase r cur)) -> nsdr (SRec sq cur lim stop)
| nr_edge : nsdr SEdge
| nr_clause s : clause s = true -> nsd_rec s = true -> nsdr s.

Lemma nsd_src s : forall b, srcw b s -> nsd_rec s = true -> nsdr s.
Proof.
  induction s as [sl|nx IH|fs IH|i nx IH|a b' nx IH|ms IH|sq cur lim stop IH1 IH2|] using sel_ind2;
    intros b Hs Hn; try (apply nr_clause; [reflexivity|exact Hn]).
  - apply nr_union. rewrite nsd_union, forallb_forall in Hn. inversion Hs as [| | | | |? ? Hms| |]; subst.
    rewrite Forall_forall in *. intros x Hx. eapply IH; eauto.
  - inversion Hs as [| | | | | |? ? ? ? Hsq|]; subst.
    cbn [nsd_rec] in Hn. apply andb_true_iff in Hn. destruct Hn as [Hn Hu]. apply andb_true_iff in Hn.
    destruct Hn as [Hn Hl]. apply nr_rec; auto; [eapply IH1; eauto|].
    destruct lim; [right; split; [exact Hu|apply uniform_phase; exact Hu]|left; reflexivity].
  - apply nr_edge.
Qed.

Definition inv_cur (b : bool) (s : sel) : Prop := rt b s /\ nsdr s /\ noempty s = true.

Lemma conts_cur b s s' : inv_cur b s -> In s' (conts s) -> inv_cur b s'.
Proof.
  intros (Hrt & Hns & Hne) Hin. pose proof (srcw_conts b s s' Hrt Hin) as Hs.
  inversion Hns as [| | |? _ Hn]; subst; try destruct Hin.
  split; [apply srcw_rt, Hs|split].
  - apply (nsd_src s' b Hs). apply (conts_forallb nsd_rec s s' Hn); [destruct s; exact I || reflexivity|exact Hin].
  - apply (conts_forallb noempty s s' Hne); [destruct s; exact I || reflexivity|exact Hin].
Qed.

Lemma inv_cur_union b m t : Forall (inv_cur b) (m :: t) -> inv_cur b (SUnion (m :: t)).
Proof.
  intros Hl. rewrite Forall_forall in Hl. repeat split.
  - constructor. apply Forall_forall. intros x Hx. apply (Hl x Hx).
  - apply nr_union. apply Forall_forall. intros x Hx. apply (Hl x Hx).
  - rewrite noempty_union. apply forallb_forall. intros x Hx. apply (Hl x Hx).
Qed.
Lemma inv_cur_members b l : inv_cur b (SUnion l) -> Forall (inv_cur b) l.
Proof.
  intros (Hrt & Hns & Hne). destruct l as [|m t]; [constructor|].
  inversion Hrt as [| | | | |? ? Hms| |]; subst. inversion Hns as [? Nms| | |? Hcl]; subst; [|discriminate Hcl].
  rewrite noempty_union, forallb_forall in Hne. rewrite Forall_forall in *. intros x Hx. repeat split; auto.
Qed.

Lemma has_edge_depth0 s : has_edge s = true -> In 0%nat (edge_depths 0 s).
Proof.
  induction s as [sl|nx IH|fs IH|i nx IH|a b' nx IH|ms IH|sq cur lim stop IH1 IH2|] using sel_ind2;
    intros H; try discriminate; [|left; reflexivity].
  rewrite has_edge_union in H. rewrite ed_union. apply existsb_exists in H. destruct H as (x & Hx & Ex).
  rewrite Forall_forall in IH. apply in_flat_map. exists x. split; [exact Hx|apply (IH x Hx Ex)].
Qed.

Lemma replace_edge_cur b r nx c :
  (forall x, r = Some x -> inv_cur b x) -> inv_cur b nx -> replace_edge nx r = Some c -> inv_cur b c.
Proof.
  intros Hr. apply (replace_edge_pres (inv_cur b) (inv_cur b) r (inv_cur_union b) (inv_cur_members b)); auto.
Qed.

(* Edges replaced under a wrapper whose counter becomes lim': the replacement stands for what the specification
   re-enters; a member that is not an edge keeps its place under a counter that may be off (lim' for lim), which at
   phase 0 it cannot read, having no free edge left. *)
Lemma replace_norm sq lim lim' stop fr r nx :
  let fr1 := mkframe sq lim stop :: fr in
  let fr2 := mkframe sq lim' stop :: fr in
  map norm (orep r fr2) = map norm (reenter fr1) ->
  lim' = lim \/ phase 0 nx -> noempty nx = true ->
  map norm (orep (replace_edge nx r) fr2) = map norm (lrep nx fr1).
Proof.
  intros fr1 fr2 He Hph Hne.
  apply (replace_rep norm (fun s => noempty s = true /\ (lim' = lim \/ phase 0 s))); [exact He| | |auto].
  - intros [|m l] [En Ep]; [discriminate|]. split; [discriminate|]. rewrite noempty_union, forallb_forall in En.
    apply Forall_forall. intros x Hx. split; [exact (En x Hx)|].
    destruct Ep as [H|H]; auto. apply phase_union in H. rewrite Forall_forall in H. auto.
  - intros a Ha [_ Ep]. unfold fr1, fr2. destruct Ep as [->|Ep]; [reflexivity|].
    destruct a; try discriminate Ha;
      try (apply atomic_phase0 in Ep; [cbn [rep map norm]; rewrite Ep; reflexivity|reflexivity]).
    (* a nested recursion: a member of its own; below its frame nothing of ours is readable *)
    cbn [rep]. apply map_norm_or_nop; [reflexivity|]. apply rep_tail. reflexivity.
Qed.

(* What ExploreRecursive does with the selector nx its current clause handed back, against the specification's
   re-entry of every edge of nx.  Without an edge in nx the wrapper is kept as it is.  With one, nx is at phase 0, so
   every member other than an edge has no free edge left; then the code's single new counter (exhausted: edges
   dropped; otherwise: edges replaced by the sequence, depth decremented for all members) differs from the
   specification's per-thread counters only where [norm] erases them.
   Of [inv_cur true sq] only its part [noempty sq] is independent of the three hypotheses after it (srcw_rt and
   nsd_src give the other two parts, as at the call in explore_cur); it is asked whole since replace_edge_cur wants
   it whole. *)
Lemma wrap_cur sq lim stop nx b fr :
  inv_cur true sq -> srcw true sq -> live sq = true -> nsd_rec sq = true -> inv_cur true nx ->
  (lim = None \/ (uniform sq = true /\ exists r, phase r nx)) ->
  exists r', rec_wrap current sq lim stop nx = XOk r' /\
    (forall w, r' = Some w -> inv_cur b w /\ forall k, phase k w) /\
    map norm (lrep_opt r' fr) = map norm (lrep nx (mkframe sq lim stop :: fr)).
Proof.
  intros Hisq Hsq Hlive Hnsd Hi Hph. unfold rec_wrap. cbn [current q_shared_depth q_exhausted_unwrap].
  assert (Hlsq : emptyrep sq = false) by (apply negb_true_iff; exact Hlive).
  assert (Hw : forall c l, inv_cur true c -> (l = None \/ (uniform sq = true /\ exists r, phase r c)) ->
                           inv_cur b (SRec sq c l stop) /\ forall k, phase k (SRec sq c l stop)).
  { intros c l (Rc & Nc & Ec) Hl. destruct Hisq as (_ & _ & Esq). repeat split.
    - constructor; assumption.
    - apply nr_rec; assumption.
    - cbn [noempty]. rewrite Esq, Ec. reflexivity.
    - constructor. }
  destruct (has_edge nx) eqn:He; cbn [negb].
  - assert (Hph0 : lim = None \/ phase 0 nx).
    { destruct Hph as [H|(_ & r & Hr)]; [left; exact H|right].
      pose proof (has_edge_depth0 nx He) as H0. unfold phase in Hr. rewrite Forall_forall in Hr.
      pose proof (Hr _ H0) as E0. subst r. apply Forall_forall. exact Hr. }
    destruct (exhausted lim) eqn:Hex.
    + assert (H1 : map norm (orep (replace_edge nx None) (mkframe sq lim stop :: fr)) = map norm (lrep nx (mkframe sq lim stop :: fr))).
      { apply replace_norm; [cbn [reenter mkframe fr_lim]; rewrite Hex; reflexivity|left; reflexivity|exact (proj2 (proj2 Hi))]. }
      destruct (replace_edge nx None) as [c|] eqn:Er; [|exists None; split; [reflexivity|split; [discriminate|exact H1]]].
      exists (Some (SRec sq c lim stop)). split; [reflexivity|]. split.
      * intros w E; inversion E; subst. apply Hw; [apply (replace_edge_cur true None nx c); [discriminate|exact Hi|exact Er]|].
        destruct Hph as [H|(Hu & r & Hr)]; [left; exact H|right; split; [exact Hu|exists r]].
        apply (replace_edge_pres (phase r) (phase r) None) with (nx := nx); auto; try discriminate.
        -- intros m t H. apply phase_union, H.
        -- intros l H. apply phase_union, H.
      * rewrite lrep_opt_rec; [exact H1|apply (replace_edge_live None nx c); [discriminate|exact Er]].
    + assert (H2 : map norm (orep (replace_edge nx (Some sq)) (mkframe sq (lim_pred lim) stop :: fr))
                   = map norm (lrep nx (mkframe sq lim stop :: fr))).
      { apply replace_norm; [rewrite (reenter_live sq lim stop fr Hsq Hlive Hex); reflexivity| |exact (proj2 (proj2 Hi))].
        destruct Hph0 as [->|H]; [left; reflexivity|right; exact H]. }
      destruct (replace_edge nx (Some sq)) as [c|] eqn:Er; [|exfalso; exact (replace_some_not_none sq nx He Er)].
      exists (Some (SRec sq c (lim_pred lim) stop)). split; [reflexivity|]. split.
      * intros w E; inversion E; subst.
        apply Hw; [apply (replace_edge_cur true (Some sq) nx c); [intros x Ex; inversion Ex; subst; exact Hisq|exact Hi|exact Er]|].
        destruct Hph as [H|(Hu & r & Hr)]; [subst lim; left; reflexivity|].
        destruct lim as [z|]; [|left; reflexivity]. right. split; [exact Hu|].
        destruct (uniform_phase sq Hu) as [k Hk]. exists k.
        destruct Hph0 as [H|H0]; [discriminate|].
        (* members other than edges have no free edge (they sit at phase 0), so they are at any phase *)
        apply (replace_edge_pres (phase 0) (phase k) (Some sq)) with (nx := nx); auto.
        -- intros m t H. apply phase_union, H.
        -- intros l H. apply phase_union, H.
        -- intros s Hs H. apply efree_phase, atomic_phase0; [destruct s; try discriminate Hs; reflexivity|exact H].
        -- intros x Ex; inversion Ex; subst; exact Hk.
      * rewrite lrep_opt_rec; [exact H2|apply (replace_edge_live (Some sq) nx c); [|exact Er]].
        intros x Ex; inversion Ex; subst; exact Hlsq.
  - exists (Some (SRec sq nx lim stop)). split; [reflexivity|]. split.
    + intros w E; inversion E; subst. apply Hw; assumption.
    + rewrite (lrep_opt_rec_noedge sq nx lim stop fr He). reflexivity.
Qed.

(* besides the invariant, what is handed on is one step closer to its edges: wrap_cur asks the phase of what the
   current clause hands back *)
Lemma explore_cur : forall s b fr n ps v,
  inv_cur b s -> lookup_seg n ps = Some v -> stopped fr v = false ->
  exists r, explore current s n ps = XOk r /\
            (forall s', r = Some s' -> inv_cur b s' /\ forall k, phase k s -> phase (pred k) s') /\
            map norm (lrep_opt r fr) = map norm (flat_map (sstep n ps v) (rep s fr)).
Proof.
  induction s as [sl|nx IH|fs IH|i nx IH|a b' nx IH|ms IH|sq cur lim stop IH1 IH2|] using sel_ind2;
    intros b fr n ps v Hi Hl Hs.
  1-5: destruct (explore_clause_sstep current _ b fr n ps v (proj1 Hi) Hs eq_refl) as (r & Er & _ & Lr);
    exists r; (split; [exact Er|split; [|rewrite Lr; reflexivity]]);
    intros s' ->; apply explore_conts in Er; [|reflexivity];
    (split; [exact (conts_cur b _ s' Hi Er)|intros k Hk; exact (phase_conts k _ s' Hk Er)]).
  - destruct ms as [|m ms]; [discriminate (proj2 (proj2 Hi))|]. apply inv_cur_members in Hi.
    apply (explore_union_sim current (fun s' => inv_cur b s' /\ forall k, phase k (SUnion (m :: ms)) -> phase (pred k) s')
                             (fun A B => map norm A = map norm B)).
    + reflexivity.
    + intros ? ? ? ? H1 H2. rewrite !map_app, H1, H2. reflexivity.
    + intros rs c. apply union_of_closed. intros x t Hx. rewrite Forall_forall in Hx. split.
      * apply inv_cur_union, Forall_forall. intros y Hy. apply (Hx y Hy).
      * intros k Hk. apply phase_union, Forall_forall. intros y Hy. apply (Hx y Hy), Hk.
    + rewrite Forall_forall in *. intros x Hx.
      destruct (IH x Hx b fr n ps v (Hi x Hx) Hl Hs) as (r & Er & Rr & Lr).
      exists r. split; [exact Er|split; [|exact Lr]]. intros s' E. split; [apply (Rr s' E)|].
      intros k Hk. apply (Rr s' E). apply phase_union in Hk. rewrite Forall_forall in Hk. exact (Hk x Hx).
  - destruct Hi as (Hrt & Hns & Hne).
    inversion Hrt as [| | | | | |? ? ? ? ? Hsq Hcur|]; subst.
    inversion Hns as [|? ? ? ? Hnsq Hlive Hncur Hph| |? Hcl]; subst; [|discriminate Hcl].
    cbn [noempty] in Hne. apply andb_true_iff in Hne. destruct Hne as [Hnes Hnec].
    pose proof (explore_rec_sim current sq cur lim stop n ps v fr Hl Hs) as H. cbv zeta in H.
    set (fr' := mkframe sq lim stop :: fr) in *.
    destruct (stopped fr' v) eqn:Est; [destruct H as [-> ->]; exists None; fin; reflexivity|].
    destruct H as (-> & -> & _).
    destruct (is_edge cur) eqn:Ee; [destruct cur; try discriminate; exists None; fin; reflexivity|].
    destruct (IH2 true fr' n ps v (conj Hcur (conj Hncur Hnec)) Hl Est) as (r & Er & Rr & Lr). rewrite Er.
    destruct r as [nx|]; [|exists None; fin; exact Lr].
    destruct (Rr nx eq_refl) as [Rn Pn].
    assert (Hphn : lim = None \/ (uniform sq = true /\ exists r, phase r nx)).
    { destruct Hph as [H|(Hu & r & Hr)]; [left; exact H|right; split; [exact Hu|]].
      exists (pred r). exact (Pn r Hr). }
    destruct (wrap_cur sq lim stop nx b fr (conj (srcw_rt sq true Hsq) (conj (nsd_src sq true Hsq Hnsq) Hnes))
                Hsq Hlive Hnsq Rn Hphn) as (r' & Er' & Rr' & Lr').
    exists r'. split; [exact Er'|split].
    + intros s' E. split; [apply (Rr' s' E)|intros k _; apply (Rr' s' E)].
    + rewrite <- Lr. exact Lr'.
  - exists None. cbn. fin. reflexivity.
Qed.

Theorem walk_denote_cur g (Hg : keys_graph g = true) (Hsg : small_graph g = true) f : forall ls P n s,
  inv_cur false s -> keys_ok n = true -> small_dm n = true ->
  walk current g f ls P n s = denote g f ls P n (rep s []).
Proof.
  intros ls P n s Hi. generalize (proj1 Hi). revert ls P n s Hi.
  apply (walk_sim current g Hg Hsg (fun A B => map norm A = map norm B) (denote_norm g) norm_nil_iff)
    with (I := fun _ _ s => inv_cur false s).
  - reflexivity.
  - intros f0 n s ps v Hi _ _ _ Hl.
    destruct (explore_cur s false [] n ps v Hi Hl eq_refl) as (r & Er & Rr & Lr).
    exists r. split; [exact Er|split; [exact Lr|]]. intros s' E. split; [apply (Rr s' E)|intros; apply (Rr s' E)].
Qed.

Theorem walk_denote_sel_cur g f root s :
  keys_graph g = true -> small_graph g = true -> keys_ok root = true -> small_dm root = true ->
  srcw false s -> no_shared_depth s = true ->
  walk_adv current g f root s = denote_sel g f root s.
Proof.
  intros Hg Hsg Hk Hsm Hs Hn. unfold no_shared_depth in Hn. apply andb_true_iff in Hn. destruct Hn as [Hne Hnsd].
  unfold walk_adv, denote_sel. rewrite <- (rep_enter_closed s [] Hs). apply walk_denote_cur; auto.
  repeat split; [apply srcw_rt, Hs|exact (nsd_src s false Hs Hnsd)|exact Hne].
Qed.

(* examples inside and outside the condition, written with the declaration encoders d_* of TravC07Refuted.v *)
Require Import IP.Proofs.TravC07Refuted.

Example no_shared_depth_realistic :
  exists s, compile (d_rec_depth 5 (d_union [d_match; d_all d_edge])) = COk s /\ no_shared_depth s = true.
Proof. eexists; split; vm_compute; reflexivity. Qed.
Example no_shared_depth_more :
  exists s, compile (d_rec_depth 3 (d_union [d_all d_match; d_all d_edge;
                                             d_fields [([97%N], d_rec_none (d_all d_edge))]])) = COk s /\
            no_shared_depth s = true.
Proof. eexists; split; vm_compute; reflexivity. Qed.

(* replaceRecursiveEdge drops an EMPTY union that sits next to an edge, so at exhaustion the
   node is not visited although the empty union (which visits its node and explores nothing, as all(union()) does)
   is still there: R(depth 1, all(union(edge, union()))) over [[1]] does not visit the element *)
Definition w5_sel : dm := d_rec_depth 1 (d_all (d_union [d_edge; d_union []])).
Definition w5_root : dm := DList [DList [DInt 1]].
