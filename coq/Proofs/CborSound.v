(* Proofs/CborSound.v — C03: whatever the decoder model accepts is, according to the independent
   SPEC checker [chk] of Codec/CborSpec.v, one well-formed item denoting exactly the value built.
   Before that, [chk] as this file and Proofs/CborComplete.v read it: its matches on literal bytes and
   major types as tests, its inner loops under names, its widenings against the decoder's. *)
Require Import IP.Base.Bytes IP.DM.Value IP.Codec.Cid IP.Codec.Cbor IP.Codec.CborSpec IP.Gen.FromGo.
Require Import IP.Proofs.BytesFacts IP.Proofs.CborHead IP.Proofs.CborEnc IP.Proofs.CborRel IP.Proofs.CborDec.
From Coq Require Import ZifyN ZifyNat ZifyBool.
Open Scope N_scope.

(* BytesFacts' bytes_wf, under the name the C03 statements use *)
Definition wfb (bs : bytes) : Prop := Forall (fun b => b < 256) bs.

(* the decoder's two-step widening of a binary16 pattern (refmt: half -> single bits, then Go's
   float64(float32)) agrees with the SPEC's direct one: field arithmetic, no sweep.  Both mask the three fields out
   of their argument, so nothing is asked of it *)
Lemma widen32_fields s e m : e < 256 -> m < 8388608 ->
  widen32 (s * 2147483648 + e * 8388608 + m) =
  let sign := s * 9223372036854775808 in
  if e =? 0 then
    if m =? 0 then sign
    else let p := N.log2 m in sign + (p + 874) * 4503599627370496 + (m - 2 ^ p) * 2 ^ (52 - p)
  else if e =? 255 then sign + 2047 * 4503599627370496 + m * 536870912
  else sign + (e + 896) * 4503599627370496 + m * 536870912.
Proof.
  intros He Hm. unfold widen32.
  (* the pattern is the numeral [s; e; m] in the mixed base (256, 2^23): digit_split reads the fields off *)
  replace (s * 2147483648 + e * 8388608 + m) with ((s * 256 + e) * 8388608 + m) by lia.
  change 2147483648 with (8388608 * 256). rewrite <- N.div_div by discriminate.
  destruct (digit_split 8388608 (s * 256 + e) m Hm) as [-> ->].
  destruct (digit_split 256 s e He) as [-> ->]. reflexivity.
Qed.

Lemma widen16_agree y : widen16 y = widen16_spec y.
Proof.
  unfold widen16, widen16_spec, half_to_single.
  assert (He : (y / 1024) mod 32 < 32) by (apply N.mod_lt; discriminate).
  assert (Hm : y mod 1024 < 1024) by (apply N.mod_lt; discriminate).
  generalize ((y / 32768) mod 2). intros s.
  generalize dependent ((y / 1024) mod 32). intros e He.
  generalize dependent (y mod 1024). intros m Hm. clear y. cbv zeta.
  destruct (N.eqb_spec e 0) as [->|He0].
  - destruct (N.eqb_spec m 0) as [->|Hm0].
    + replace (s * 2147483648) with (s * 2147483648 + 0 * 8388608 + 0) by lia.
      rewrite widen32_fields by lia. reflexivity.
    + pose proof (N.log2_spec m ltac:(lia)) as [Hlo Hhi]. set (p := N.log2 m) in *.
      assert (Hp : p <= 9).
      { destruct (N.le_gt_cases p 9) as [|Hgt]; [assumption|]. exfalso.
        assert (2 ^ 10 <= 2 ^ p) by (apply N.pow_le_mono_r; lia). change (2 ^ 10) with 1024 in *. lia. }
      assert (Hsplit : 2 ^ p * 2 ^ (23 - p) = 8388608).
      { rewrite <- N.pow_add_r. replace (p + (23 - p)) with 23 by lia. reflexivity. }
      assert (Hsucc : 2 ^ N.succ p = 2 * 2 ^ p) by (rewrite N.pow_succ_r'; reflexivity).
      set (k := (m - 2 ^ p) * 2 ^ (23 - p)).
      assert (Hk : k < 8388608).
      { unfold k. rewrite <- Hsplit. apply N.mul_lt_mono_pos_r; [|lia].
        assert (0 < 2 ^ (23 - p)) by (apply N.neq_0_lt_0, N.pow_nonzero; lia). assumption. }
      rewrite widen32_fields by lia. cbv zeta.
      destruct (N.eqb_spec (p + 103) 0); [lia|]. destruct (N.eqb_spec (p + 103) 255); [lia|].
      replace (p + 103 + 896) with (p + 999) by lia. f_equal.
      unfold k. rewrite <- N.mul_assoc. f_equal.
      change 536870912 with (2 ^ 29). rewrite <- N.pow_add_r. f_equal. lia.
  - destruct (N.eqb_spec e 31) as [->|He31].
    + destruct (N.eqb_spec m 0) as [->|Hm0].
      * replace (s * 2147483648 + 2139095040) with (s * 2147483648 + 255 * 8388608 + 0) by lia.
        rewrite widen32_fields by lia. cbv zeta. cbn [N.eqb Pos.eqb]. lia.
      * replace (s * 2147483648 + 2139095040 + m * 8192) with (s * 2147483648 + 255 * 8388608 + m * 8192) by lia.
        rewrite widen32_fields by lia. cbv zeta. cbn [N.eqb Pos.eqb]. lia.
    + rewrite widen32_fields by lia. cbv zeta.
      destruct (N.eqb_spec (e + 112) 0); [lia|]. destruct (N.eqb_spec (e + 112) 255); [lia|]. lia.
Qed.

Lemma chk_null_eq s l n bs : chk s l n DNull bs =
  match bs with b :: r => if (b =? 246) || (b =? 247) then Some r else None | [] => None end.
Proof.
  destruct bs as [|b r]; [reflexivity|]. cbn [chk]. destruct b as [|p]; [reflexivity|].
  (* chk matches the first byte against numerals below 256: a positive of at most eight digits below its leading one,
     so nine destructs reach every branch of the match *)
  do 9 (try (destruct p as [p|p|]; try reflexivity)).
Qed.
Lemma chk_bool_eq s l n (x : bool) bs : chk s l n (DBool x) bs =
  match bs with b :: r => if b =? (if x then 245 else 244) then Some r else None | [] => None end.
Proof.
  destruct bs as [|b r]; [reflexivity|]. cbn [chk]. destruct b as [|p]; [now destruct x|].
  destruct x; do 9 (try (destruct p as [p|p|]; try reflexivity)).
Qed.

Lemma chk_float_eq s l n f bs : chk s l n (DFloat f) bs =
  if s && negb (f64_finite f) then None else
  match bs with
  | b :: r =>
    if is_float b then
      match take (float_width b) r with
      | Some (x, r') =>
        let y := float_bits b (unbe x 0) in if (y =? f) || (f64_is_nan f && f64_is_nan y) then Some r' else None
      | None => None
      end
    else None
  | [] => None end.
Proof.
  cbn [chk]. destruct (s && negb (f64_finite f)); [reflexivity|].
  destruct bs as [|b r]; [reflexivity|]. destruct b as [|p]; [reflexivity|].
  do 9 (try (destruct p as [p|p|]; try reflexivity)).
  (* 250 and 251 went by reflexivity with the other bytes (widen32_spec has widen32's body: the SPEC says nothing of its
     own about binary32); 249 is left, where the SPEC widens the half in one step and the decoder in two *)
  cbn [is_float float_width float_bits N.eqb Pos.eqb orb]. destruct (take 2 r) as [[x r']|]; [|reflexivity]. now rewrite widen16_agree.
Qed.

Lemma is2 {A} (mj : N) (x y : A) : match mj with 2 => x | _ => y end = if mj =? 2 then x else y.
Proof. destruct mj as [|p]; [reflexivity|]. repeat (destruct p as [p|p|]; try reflexivity). Qed.
Lemma is3 {A} (mj : N) (x y : A) : match mj with 3 => x | _ => y end = if mj =? 3 then x else y.
Proof. destruct mj as [|p]; [reflexivity|]. repeat (destruct p as [p|p|]; try reflexivity). Qed.
Lemma is4 {A} (mj : N) (x y : A) : match mj with 4 => x | _ => y end = if mj =? 4 then x else y.
Proof. destruct mj as [|p]; [reflexivity|]. repeat (destruct p as [p|p|]; try reflexivity). Qed.
Lemma is5 {A} (mj : N) (x y : A) : match mj with 5 => x | _ => y end = if mj =? 5 then x else y.
Proof. destruct mj as [|p]; [reflexivity|]. repeat (destruct p as [p|p|]; try reflexivity). Qed.
Lemma is6 {A} (mj : N) (x y : A) : match mj with 6 => x | _ => y end = if mj =? 6 then x else y.
Proof. destruct mj as [|p]; [reflexivity|]. repeat (destruct p as [p|p|]; try reflexivity). Qed.
Lemma is42 {A} (mj : N) (x y : A) : match mj with 42 => x | _ => y end = if mj =? 42 then x else y.
Proof. destruct mj as [|p]; [reflexivity|]. repeat (destruct p as [p|p|]; try reflexivity). Qed.

(* chk's inner loops under names: the same fixpoints, so that the unfolding lemmas below hold by conversion *)
Definition chk_list (strict links nw : bool) : list dm -> bytes -> option bytes :=
  fix go (l : list dm) (bs : bytes) : option bytes :=
    match l with
    | [] => Some bs
    | x :: l' => match chk strict links nw x bs with Some bs' => go l' bs' | None => None end
    end.

Definition chk_ents (strict links nw : bool) : list (bytes * dm) -> bytes -> option bytes :=
  fix go (m : list (bytes * dm)) (bs : bytes) : option bytes :=
    match m with
    | [] => Some bs
    | (k, x) :: m' =>
      match rd_head strict bs with
      | Some (3, ka, r1) =>
        match take ka r1 with
        | Some (k', r2) =>
          if bytes_eqb k k' then
            match chk strict links nw x r2 with Some bs' => go m' bs' | None => None end
          else None
        | None => None
        end
      | _ => None
      end
    end.

Definition nodup_go {V} : list (bytes * V) -> list bytes -> bool :=
  fix go (m : list (bytes * V)) (seen : list bytes) : bool :=
    match m with
    | [] => true
    | (k, _) :: r => negb (existsb (bytes_eqb k) seen) && go r (k :: seen)
    end.

Lemma chk_list_unfold strict links nw l bs :
  chk strict links nw (DList l) bs =
  match rd_head strict bs with
  | Some (4, a, r) => if negb (a =? lenN l) then None else chk_list strict links nw l r
  | _ => None
  end.
Proof. reflexivity. Qed.

Lemma chk_map_unfold strict links nw m bs :
  chk strict links nw (DMap m) bs =
  match rd_head strict bs with
  | Some (5, a, r) => if negb (a =? lenN m) || negb (nodup_go m []) then None else chk_ents strict links nw m r
  | _ => None
  end.
Proof. reflexivity. Qed.

Lemma chk_ents_cons s l n k x m bs : chk_ents s l n ((k, x) :: m) bs =
  match chk s l n (DString k) bs with
  | Some r2 => match chk s l n x r2 with Some bs' => chk_ents s l n m bs' | None => None end
  | None => None
  end.
Proof.
  cbn [chk_ents chk]. destruct (rd_head s bs) as [[[mj a] r1]|]; [|reflexivity]. rewrite !is3.
  destruct (mj =? 3); [|reflexivity]. destruct (take a r1) as [[k' r2]|]; [|reflexivity]. now destruct (bytes_eqb k k').
Qed.

Section Sound.
  Variable o : dopts.
  Hypothesis Hrt : d_reject_tags o = true.
  Local Notation strict := (negb (d_relaxed o)).
  Local Notation links := (d_allow_links o).

  Lemma tagged_link t bs v r : DecV o (Some t) bs v r ->
    t = 42 /\ links = true /\ exists c, v = DLink c /\ cid_valid c = true /\
      rd_head strict bs = Some (2, lenN c + 1, 0 :: c ++ r).
  Proof. intros H. inversion H; subst; try (cbn in *; congruence). eauto 8. Qed.

  (* the SPEC has no item behind a tag but the link's, so only items read with no tag pending are given a meaning *)
  Lemma rel_sound :
    (forall tag bs v r, DecV o tag bs v r -> tag = None -> wfb bs -> chk strict links true v bs = Some r /\ wfb r) /\
    (forall bs vs r, DecI o bs vs r -> wfb bs -> chk_list strict links true vs bs = Some r /\ wfb r) /\
    (forall seen bs es r, DecE o seen bs es r -> wfb bs ->
       chk_ents strict links true es bs = Some r /\ nodup_go es seen = true /\ wfb r).
  Proof.
    apply Dec_ind.
    - intros tag b r Hb _ _ Hw. inversion Hw; subst. split; [|assumption].
      apply orb_prop in Hb as [E|E]; apply N.eqb_eq in E; subst; reflexivity.
    - intros tag x r _ _ Hw. inversion Hw; subst. split; [|assumption]. now destruct x.
    - intros tag b x r f Hf Hl -> Hfin _ _ Hw. inversion Hw as [|? ? _ Hwr]; subst.
      apply Forall_app in Hwr as [Hx Hr]. split; [|assumption]. rewrite chk_float_eq, Hfin, Hf, <- Hl, take_app.
      cbv zeta. now rewrite N.eqb_refl.
    - intros tag bs a r Hrd _ _ Hw. split; [|eapply rd_head_wf; eassumption].
      cbn [chk]. rewrite Hrd. cbn [N.eqb andb]. now rewrite Z.eqb_refl.
    - intros tag bs a r Hrd Ha _ _ Hw.
      destruct (rd_head_wf _ _ _ _ _ Hw Hrd) as (Ha64 & _ & Hr). split; [|assumption].
      cbn [chk]. rewrite Hrd. cbn [N.eqb Pos.eqb andb]. rewrite (wrap_succ a Ha64) in *.
      destruct (N.eqb_spec a (two64 - 1)) as [->|Hne]; [reflexivity|].
      destruct (N.ltb_spec a two63); [|unfold two63 in *; lia]. cbn [andb].
      destruct (Z.eqb_spec (-1 - Z.of_N a) (- Z.of_N (a + 1))); [reflexivity|lia].
    - intros bs s r Hrd Ha _ Hw. destruct (rd_head_wf _ _ _ _ _ Hw Hrd) as (_ & _ & Hr). apply Forall_app in Hr as [_ Hr].
      split; [|assumption]. cbn [chk]. now rewrite Hrd, take_app, bytes_eqb_refl.
    - discriminate.
    - intros tag bs s r Hrd Ha _ _ Hw.
      destruct (rd_head_wf _ _ _ _ _ Hw Hrd) as (_ & _ & Hr). apply Forall_app in Hr as [_ Hr].
      split; [|assumption]. cbn [chk]. now rewrite Hrd, take_app, bytes_eqb_refl.
    - intros tag bs r vs r' Hrd Ha _ Hi IH _ Hw.
      destruct (rd_head_wf _ _ _ _ _ Hw Hrd) as (_ & _ & Hr). destruct (IH Hr) as [Hc Hw']. split; [|assumption].
      now rewrite chk_list_unfold, Hrd, N.eqb_refl.
    - intros tag bs r es r' Hrd Ha _ He IH _ Hw.
      destruct (rd_head_wf _ _ _ _ _ Hw Hrd) as (_ & _ & Hr). destruct (IH Hr) as (Hc & Hn & Hw'). split; [|assumption].
      now rewrite chk_map_unfold, Hrd, N.eqb_refl, Hn.
    - intros bs a r v r' Hrd Ha Ht _ _ Hw. destruct (rd_head_wf _ _ _ _ _ Hw Hrd) as (_ & _ & Hr).
      apply tagged_link in Ht as (-> & Hlk & c & -> & Hcid & Hrd2).
      destruct (rd_head_wf _ _ _ _ _ Hr Hrd2) as (_ & _ & Hr2). inversion Hr2 as [|? ? _ Hr3]; subst.
      apply Forall_app in Hr3 as [_ Hr3]. split; [|assumption].
      cbn [chk]. rewrite Hlk, Hcid, Hrd. cbn [negb orb]. now rewrite Hrd2, take_cons_app, bytes_eqb_refl.
    - auto.
    - intros bs v bs1 vs bs2 _ IHv _ IHi Hw. destruct (IHv eq_refl Hw) as [Hs Hw1]. destruct (IHi Hw1) as [Hc Hw2].
      split; [|assumption]. cbn [chk_list]. now rewrite Hs.
    - auto.
    - intros seen bs k bs1 v bs2 es bs3 _ IHk Hs _ IHv _ IHe Hw.
      destruct (IHk eq_refl Hw) as [Hk Hw1]. destruct (IHv eq_refl Hw1) as [Hv Hw2]. destruct (IHe Hw2) as (Hc & Hnd & Hw3).
      cbn [nodup_go]. now rewrite chk_ents_cons, Hk, Hv, Hs, Hnd.
  Qed.

  (* C03 (with the refmt wrap of -2^64 tolerated): acceptance implies the consumed prefix is one
     well-formed item denoting exactly the value, and nothing is left unless stop-at-end was asked *)
  Theorem decode_sound bs v rest : wfb bs -> decode o bs = Ok (v, rest) ->
    chk strict links true v bs = Some rest /\ (d_dont_parse_beyond o = false -> rest = []).
  Proof.
    intros Hw H. apply decode_ok_rel in H as (Hd & _ & _ & Hr). split; [|exact Hr].
    destruct rel_sound as [Hv _]. exact (proj1 (Hv _ _ _ _ Hd eq_refl Hw)).
  Qed.
End Sound.
