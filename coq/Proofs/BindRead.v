(* Reading a well-formed Go value of a bindable pair: the node view computed along
   bindnode's code paths (with their panics and errors) succeeds and is the denotation of the value, and
   that denotation fits the type, at type level and at representation level.  One induction over the type
   ([read_denote]); [view_denote] and [denote_fits] are its two halves. *)
Require Import IP.Base.Bytes IP.DM.Value IP.Bind.GoVal IP.Bind.Bind IP.Bind.Spec.
Require Import IP.Proofs.BindFacts.
Open Scope N_scope.

Section Read.
  Variable q : quirks.
  Variable lv : level.
  Variable n32 : N -> N.

  (* what a parent reads at a child of type t: an Any child is not walked into *)
  Definition peek (t : sty) (s : shape) (g : gv) : bres dm :=
    if is_any t then any_node s g else view q lv t s g.

  Definition read_spec (t : sty) : Prop :=
    forall s g, bindable t s = true -> gv_ok q n32 t s g = true ->
      peek t s g = Ok (denote lv t g) /\ fits q lv n32 t s (denote lv t g) = true.

  Lemma fits_child_of_fits : forall t (nl : bool) s d,
    fits q lv n32 t (deref1 s) d = true -> fits_child (fits q lv n32 t) nl s d = true.
  Proof.
    intros t nl s d H. unfold fits_child. destruct d; try exact H.
    rewrite fits_nonnull in H. discriminate.
  Qed.

  Lemma peek_ptr : forall t s g, shape_is_ptr s = false -> peek t (SPtr s) (GPtr g) = peek t s g.
  Proof.
    intros t s g H. unfold peek, any_node. rewrite view_ptr by exact H.
    cbn [nonptr bind]. rewrite (nonptr_noptr s g H). reflexivity.
  Qed.

  Lemma loc_read : forall t s g, read_spec t ->
    loc_ok (fun _ => bindable t) t s = true -> ok_loc (gv_ok q n32 t) s g = true ->
    peek t s g = Ok (denote lv t g) /\ fits q lv n32 t (deref1 s) (denote lv t g) = true.
  Proof.
    intros t s g IH Hl Hg. destruct (loc_ok_inv t s Hl) as [Hb | [s1 [-> [Hb _]]]].
    - pose proof (bindable_noptr _ _ Hb) as Hnp. rewrite ok_loc_noptr in Hg by exact Hnp.
      rewrite (deref1_noptr s Hnp). apply IH; assumption.
    - destruct g; try discriminate. cbn [ok_loc deref1] in *.
      rewrite (peek_ptr t s1 g (bindable_noptr _ _ Hb)), (denote_ptr_ok _ _ lv _ _ _ Hg). apply IH; assumption.
  Qed.

  Lemma child_read : forall strict t (nl : bool) s g, read_spec t ->
    (if nl then nullable_ok (fun _ => bindable t) t s else loc_ok (fun _ => bindable t) t s) = true ->
    ok_child (gv_ok q n32 t) nl s g = true ->
    view_child (view q lv t) strict (is_any t) nl s g = Ok (den_child (denote lv t) nl g)
    /\ fits_child (fits q lv n32 t) nl s (den_child (denote lv t) nl g) = true.
  Proof.
    intros strict t nl s g IH Hs Hg. unfold view_child, den_child, ok_child in *.
    destruct nl; [|destruct (loc_read t s g IH Hs Hg) as [Hv Hf]; split; [exact Hv | exact (fits_child_of_fits _ _ _ _ Hf)]].
    unfold is_nil.
    destruct (nullable_ok_inv t s Hs) as [[s1 [-> Hl]] | [[-> ->] | [-> ->]]]; cbn [shape_nilable bind];
      (destruct g; simpl in Hg; try discriminate; try (split; reflexivity); cbn [unptr]).
    - (* a pointer: val.Elem() and "deref if pointer" agree *)
      destruct (IH s1 g (loc_ok_direct _ _ Hl) Hg) as [Hv Hf].
      split; [rewrite <- Hv; destruct strict; reflexivity | exact (fits_child_of_fits t true (SPtr s1) _ Hf)].
    - destruct (IH SNode (GNode d) eq_refl Hg) as [Hv Hf].
      split; [rewrite <- Hv; destruct strict; reflexivity | exact (fits_child_of_fits TAny true SNode _ Hf)].
    - destruct (IH (SLink LIface) (GLink c) eq_refl Hg) as [Hv Hf].
      split; [rewrite <- Hv; destruct strict; reflexivity | exact (fits_child_of_fits TLink true (SLink LIface) _ Hf)].
  Qed.

  Definition field_here (f : fld) (s : shape) (g : gv) : bres (option dm) :=
    if f_opt f then
       do n <- is_nil s g;
       if n then Ok None else
       let sg := elem_if_ptr s g in
       do d <- view_child (view q lv (f_type f)) false (is_any (f_type f)) (f_nul f) (fst sg) (snd sg); Ok (Some d)
     else
       do d <- view_child (view q lv (f_type f)) false (is_any (f_type f)) (f_nul f) s g; Ok (Some d).

  Lemma field_read : forall f s g, read_spec (f_type f) ->
    field_ok (fun _ => bindable (f_type f)) (f_type f) (f_opt f) (f_nul f) s = true ->
    ok_field (gv_ok q n32 (f_type f)) (f_opt f) (f_nul f) s g = true ->
    field_here f s g = Ok (den_field (denote lv (f_type f)) (f_opt f) (f_nul f) g) /\
    match den_field (denote lv (f_type f)) (f_opt f) (f_nul f) g with
    | Some d => fits_child (fits q lv n32 (f_type f)) (f_nul f) (if f_opt f then deref1 s else s) d = true
    | None => f_opt f = true
    end.
  Proof.
    intros f s g IH Hs Hg. apply field_ok_inv in Hs. unfold field_here, ok_field, den_field in *.
    remember (f_type f) as t eqn:Et. clear Et.
    destruct (f_opt f).
    - destruct Hs as [[s1 [-> Hs]] | [Hnl [[-> ->] | [-> ->]]]]; try rewrite Hnl in *;
        (destruct g; simpl in Hg; try discriminate Hg; try (split; reflexivity));
        cbn [is_nil shape_nilable bind elem_if_ptr fst snd unptr deref1].
      + destruct (child_read false t (f_nul f) s1 g IH Hs Hg) as [Hv Hf]. rewrite Hv. split; [reflexivity | exact Hf].
      + destruct (child_read false TAny false SNode (GNode d) IH eq_refl Hg) as [Hv Hf]. rewrite Hv. split; [reflexivity | exact Hf].
    - destruct (child_read false t (f_nul f) s g IH Hs Hg) as [Hv Hf]. rewrite Hv. split; [reflexivity | exact Hf].
  Qed.

  Lemma fields_read : forall fs ss gs,
    Forall (fun f => read_spec (f_type f)) fs ->
    fields_bindable (fun f => bindable (f_type f)) fs ss = true ->
    ok_fields (fun f => gv_ok q n32 (f_type f)) fs ss gs = true ->
    view_fields (fun f => view q lv (f_type f)) fs ss gs = Ok (den_fields (fun f => denote lv (f_type f)) fs gs)
    /\ view_tuple (fun f => view q lv (f_type f)) fs ss gs = Ok (den_tuple (fun f => denote lv (f_type f)) fs gs)
    /\ (forall key : fld -> bytes, names_nodup (map key fs) = true ->
         fits_fields (fun f => fits q lv n32 (f_type f)) key fs ss
           (map (fun e => (key (fst e), snd e)) (den_fields (fun f => denote lv (f_type f)) fs gs)) = true)
    /\ (forallb (fun f => negb (f_opt f)) fs = true ->
         fits_tuple (fun f => fits q lv n32 (f_type f)) fs ss (den_tuple (fun f => denote lv (f_type f)) fs gs) = true).
  Proof.
    induction fs as [|f fs IH]; intros ss gs HF Hb Hg.
    { destruct ss, gs; try discriminate. repeat split; reflexivity. }
    destruct ss as [|[sn s] ss]; [discriminate|]. destruct gs as [|g gs]; [discriminate|].
    cbn [fields_bindable ok_fields] in Hb, Hg.
    apply andb_prop in Hb. destruct Hb as [Hb1 Hb2]. apply andb_prop in Hg. destruct Hg as [Hg1 Hg2].
    inversion HF as [|? ? HF1 HF2]; subst.
    destruct (IH ss gs HF2 Hb2 Hg2) as [IH1 [IH2 [IH3 IH4]]].
    destruct (field_read f s g HF1 Hb1 Hg1) as [Hv Hfield].
    change (view_fields (fun f => view q lv (f_type f)) (f :: fs) ((sn, s) :: ss) (g :: gs))
      with (do here <- field_here f s g;
            do rest <- view_fields (fun f => view q lv (f_type f)) fs ss gs;
            Ok (match here with Some d => (f, d) :: rest | None => rest end)).
    change (view_tuple (fun f => view q lv (f_type f)) (f :: fs) ((sn, s) :: ss) (g :: gs))
      with (do here <- field_here f s g;
            do rest <- view_tuple (fun f => view q lv (f_type f)) fs ss gs;
            Ok (match here, rest with
                | Some d, _ => d :: rest
                | None, [] => []
                | None, _ => DNull :: rest
                end)).
    rewrite Hv, IH1, IH2. cbn [bind den_fields den_tuple fits_fields fits_tuple map forallb].
    destruct (den_field (denote lv (f_type f)) (f_opt f) (f_nul f) g) as [d|].
    - repeat split.
      + intros key Hnd. destruct (nodup_head _ _ Hnd) as [_ Hnd'].
        cbn [map fst snd]. rewrite bytes_eqb_refl, Hfield, (IH3 key Hnd'). reflexivity.
      + intros Hno. apply andb_prop in Hno. destruct Hno as [Hn1 Hn2]. apply negb_true_iff in Hn1.
        rewrite Hn1 in Hfield. rewrite Hfield, (IH4 Hn2). reflexivity.
    - rewrite Hfield. cbn [negb andb]. repeat split.
      + destruct (den_tuple (fun f0 : fld => denote lv (f_type f0)) fs gs); reflexivity.
      + (* an absent field: the next entry, if any, belongs to a later field *)
        intros key Hnd. destruct (nodup_head _ _ Hnd) as [Hfresh Hnd']. pose proof (IH3 key Hnd') as Hrest.
        pose proof (fits_fields_keys _ key fs ss _ Hrest) as Hkeys.
        destruct (map (fun e => (key (fst e), snd e)) (den_fields (fun f0 => denote lv (f_type f0)) fs gs))
          as [|[k v] m']; [exact Hrest|].
        rewrite (Hfresh k (Hkeys (k, v) (or_introl eq_refl))). exact Hrest.
      + discriminate.
  Qed.

  Lemma with_nth_app : forall {A R} (body : A -> R) none (pre : list A) m rest,
    with_nth body none (pre ++ m :: rest) (length pre) = body m.
  Proof. intros A R body none pre; induction pre; simpl; intros; [reflexivity | apply IHpre]. Qed.

  Lemma view_int_ok : forall k z, int_ok q k z = true -> view_int q k z = Ok (DInt z).
  Proof.
    intros k z H. unfold int_ok in H. apply andb_prop in H. destruct H as [_ H].
    destruct k; try reflexivity. unfold view_int.
    destruct (q_uint_kind q); [reflexivity|]. simpl in H. rewrite H. reflexivity.
  Qed.

  Lemma enum_name_facts : forall ms x sr ir,
    enum_by_name x ms = Some (sr, ir) ->
    (exists m, enum_by_repr sr ms = Some m) /\ (exists m, enum_by_int ir ms = Some m)
    /\ In (x, sr, ir) ms.
  Proof.
    induction ms as [|[[mn msr] mir] ms IH]; intros x sr ir H; [discriminate|].
    simpl in H. destruct (bytes_eqb x mn) eqn:E.
    - inversion H; subst. apply bytes_eqb_eq in E. subst.
      simpl. rewrite bytes_eqb_refl, Z.eqb_refl. repeat split; eauto.
    - destruct (IH x sr ir H) as [[m1 H1] [[m2 H2] Hin]].
      simpl. repeat split.
      + destruct (bytes_eqb sr msr); eauto.
      + destruct (Z.eqb ir mir); eauto.
      + right. exact Hin.
  Qed.

  Lemma fits_kind : forall t s d k, repr_kind t = Some k -> fits q LRepr n32 t s d = true -> kind_name d = k.
  Proof.
    intros t s d k Hk Hf.
    destruct t as [| | | | | | |n e nl|n kt vt nl|n fs r|n ms r|n ms r]; try destruct r; simpl in Hk; try discriminate Hk;
      injection Hk as <-; destruct d; try reflexivity; exfalso; simpl in Hf; try discriminate Hf;
      repeat match type of Hf with context [match ?x with _ => _ end] => destruct x; try discriminate Hf end.
  Qed.

  Theorem read_denote : forall t, read_spec t.
  Proof.
    induction t using sty_ind2; intros s g Hb Hg; unfold peek.
    - destruct s; simpl in Hb; try discriminate; destruct g; simpl in Hg; try discriminate; split; reflexivity.
    - destruct s; simpl in Hb; try discriminate; destruct g; simpl in Hg; try discriminate.
      split; [apply view_int_ok|]; exact Hg.
    - destruct s as [| |single| | | | | | | |]; simpl in Hb; try discriminate;
        destruct single; destruct g; simpl in Hg; try discriminate; split; simpl; assumption || reflexivity.
    - destruct s; simpl in Hb; try discriminate; destruct g; simpl in Hg; try discriminate; split; reflexivity.
    - destruct s; simpl in Hb; try discriminate; destruct g; simpl in Hg; try discriminate; split; reflexivity.
    - destruct s; simpl in Hb; try discriminate; destruct g; simpl in Hg; try discriminate; split; reflexivity.
    - destruct s; simpl in Hb; try discriminate; destruct g; simpl in Hg; try discriminate.
      destruct d; try discriminate; split; reflexivity.
    - destruct s as [| | | | | | | |sn es| |]; simpl in Hb; try discriminate.
      destruct g; simpl in Hg; try discriminate; [split; reflexivity|].
      assert (HF : Forall (fun x => view_child (view q lv t) true (is_any t) nl es x = Ok (den_child (denote lv t) nl x)
                                    /\ fits_child (fits q lv n32 t) nl es (den_child (denote lv t) nl x) = true) l).
      { rewrite forallb_forall in Hg. apply Forall_forall. intros x Hx. apply child_read; auto. }
      simpl. split.
      + rewrite (mapM_ok _ (den_child (denote lv t) nl) l); [reflexivity|].
        eapply Forall_impl; [|exact HF]. intros x Hx. exact (proj1 Hx).
      + rewrite forallb_map. apply forallb_forall. rewrite Forall_forall in HF. intros x Hx. exact (proj2 (HF x Hx)).
    - destruct (bindable_map_inv _ _ _ _ _ Hb) as [sn [k1 [n1 [k2 [mv [-> [-> Hv]]]]]]].
      destruct g as [| | | | | | | | | |gs|]; simpl in Hg; try discriminate.
      destruct gs as [|gk [|gm [|]]]; try discriminate.
      repeat (apply andb_prop in Hg; destruct Hg as [Hg ?]).
      cbn [is_any view nonptr bind fst snd denote unptr fits].
      set (keys := match gk with GSlice l => l | _ => [] end) in *.
      set (m := match gm with GGoMap m => m | _ => [] end) in *.
      assert (HF : Forall (fun k => exists kb v, k = GString kb /\ gomap_get k m = Some v
                      /\ view_child (view q lv t2) true (is_any t2) nl mv v = Ok (den_child (denote lv t2) nl v)
                      /\ fits_child (fits q lv n32 t2) nl mv (den_child (denote lv t2) nl v) = true) keys).
      { rewrite forallb_forall in H, H0. apply Forall_forall. intros k Hk.
        specialize (H k Hk). specialize (H0 k Hk). destruct k; try discriminate.
        destruct (gomap_get (GString s) m) as [v|]; try discriminate.
        destruct (child_read true t2 nl mv v IHt2 Hv H). eauto 6. }
      split.
      + rewrite (mapM_ok _ (fun k => (match denote lv TString k with DString b => b | _ => [] end,
                                     match gomap_get k m with
                                     | Some v => den_child (denote lv t2) nl v
                                     | None => DNull
                                     end)) keys); [reflexivity|].
        eapply Forall_impl; [|exact HF]. intros k [kb [v [-> [Hget [Hvw _]]]]]. simpl. rewrite Hget, Hvw. reflexivity.
      + apply andb_true_intro. split.
        * (* the keys are Go strings, distinct as Go values, hence distinct as names *)
          rewrite (strings_of_keys keys H0) in H1 |- *. rewrite gv_nodup_strings in H1.
          rewrite !map_map. cbn [fst denote unptr]. exact H1.
        * rewrite forallb_map. apply forallb_forall. rewrite Forall_forall in HF. intros k Hk. cbn [snd].
          destruct (HF k Hk) as [kb [v [_ [-> [_ Hft]]]]]. exact Hft.
    - destruct (bindable_struct_inv _ _ _ _ Hb) as [sn [ss [-> [Hbf [Hnn [Hnr Hr]]]]]].
      destruct g as [| | | | | | | | | |gs|]; simpl in Hg; try discriminate.
      cbn [is_any view denote nonptr bind fst snd unptr fits].
      destruct (fields_read fs ss gs H Hbf Hg) as [-> [-> [Hfit Htup]]]. cbn [bind].
      destruct lv; [|destruct r]; split; try reflexivity.
      + pose proof (Hfit f_name Hnn). destruct r; assumption.
      + exact (Hfit f_rkey Hnr).
      + exact (Htup (Hr eq_refl)).
    - (* the one member that is set is what unionMember finds and what [denote] shows *)
      destruct (bindable_union_inv _ _ _ _ Hb) as [sn [ss [-> [Hbm [Hnn [Hnd Hkwf]]]]]].
      destruct g as [| | | | | | | | | |gs|]; simpl in Hg; try discriminate.
      destruct (ok_members_inv _ ms ss gs 0 Hbm Hg)
        as [pre [m [post [ms1 [v [-> [Hok [Hb1 [Hnany [Hnth [Hfind Hden]]]]]]]]]]].
      rewrite Forall_forall in H. destruct (H m (in_elt m pre post) ms1 v Hb1 Hok) as [Hvm Hfm].
      unfold peek in Hvm. rewrite Hnany in Hvm.
      cbn [is_any view denote nonptr bind fst snd unptr].
      rewrite Hfind, Hden. cbn [bind Nat.add]. rewrite with_nth_app, Hvm. cbn [bind].
      pose proof (fits_child_of_fits (snd m) false (SPtr ms1) _ Hfm) as Hfc.
      destruct lv; [|destruct r; [| |contradiction]]; (split; [reflexivity|]).
      + assert (Hgoal : with_member true (sty_name (snd m))
                  (fun i m0 => fits_child (fits q LType n32 (snd m0)) false (nth_shape i ss) (denote LType (snd m) v))
                  false (pre ++ m :: post) 0 = true).
        { rewrite (with_member_self true _ _ pre m post Hnn), Hnth. exact Hfc. }
        cbn [fits]. destruct r; exact Hgoal.
      + cbn [fits]. rewrite (with_member_self false _ _ pre m post Hnd), Hnth. exact Hfc.
      + (* the member is found through the kind of its representation *)
        assert (Hkm : kind_name (denote LRepr (snd m) v) = fst m).
        { unfold kinded_wf in Hkwf. rewrite forallb_forall in Hkwf.
          specialize (Hkwf m (in_elt m pre post)). destruct (repr_kind (snd m)) as [k|] eqn:Ek; try discriminate.
          apply bytes_eqb_eq in Hkwf. rewrite Hkwf. exact (fits_kind _ _ _ _ Ek Hfm). }
        assert (Hd : denote LRepr (snd m) v <> DNull).
        { intros E. rewrite E in Hfm. rewrite fits_nonnull in Hfm. discriminate. }
        assert (Hw : with_member false (kind_name (denote LRepr (snd m) v))
                       (fun i m0 => fits q LRepr n32 (snd m0) (deref1 (nth_shape i ss)) (denote LRepr (snd m) v))
                       false (pre ++ m :: post) 0 = true).
        { rewrite Hkm, (with_member_self false _ _ pre m post Hnd), Hnth. exact Hfm. }
        cbn [fits]. destruct (denote LRepr (snd m) v); try congruence; exact Hw.
    - destruct s; simpl in Hb; try discriminate.
      apply andb_prop in Hb. destruct Hb as [Hb Hsmall].
      destruct g as [| | |x| | | | | | | |]; simpl in Hg; try discriminate.
      destruct (enum_by_name x ms) as [[sr ir]|] eqn:E; try discriminate.
      destruct (enum_name_facts ms x sr ir E) as [[m1 H1] [[m2 H2] Hin]].
      simpl. unfold view_enum, den_enum. destruct lv; [|destruct r]; rewrite ?E; (split; [reflexivity|]); cbn [fits].
      + destruct r; reflexivity.
      + rewrite H1. reflexivity.
      + rewrite H2. rewrite forallb_forall in Hsmall. specialize (Hsmall _ Hin). simpl in Hsmall. rewrite Hsmall. reflexivity.
  Qed.
End Read.

Theorem view_denote : forall q lv n32 t, is_any t = false ->
  forall s g, bindable t s = true -> gv_ok q n32 t s g = true -> view q lv t s g = Ok (denote lv t g).
Proof.
  intros q lv n32 t Ha s g Hb Hg. destruct (read_denote q lv n32 t s g Hb Hg) as [H _].
  unfold peek in H. rewrite Ha in H. exact H.
Qed.

Theorem denote_fits : forall q lv n32 t s g, bindable t s = true -> gv_ok q n32 t s g = true ->
  fits q lv n32 t s (denote lv t g) = true.
Proof. intros q lv n32 t s g Hb Hg. exact (proj2 (read_denote q lv n32 t s g Hb Hg)). Qed.
