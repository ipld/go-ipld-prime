(* Proofs/HeapC11.v — one Legal call at the level of client states: it preserves the ownership
   invariant and keeps every handle the client holds frozen ([pstep_inv]); what a read of a finished
   node returns depends on frozen cells only ([acc_stable]); what a reader cell yields ([source_content], [cursor_read_spec]). *)
Require Import IP.Base.Bytes IP.DM.Value IP.Gen.FromGo IP.Heap.GoMem IP.Heap.BasicHeap.
Require Import IP.Proofs.HeapMem IP.Proofs.HeapLogic IP.Proofs.HeapSteps IP.Proofs.HeapFro IP.Proofs.HeapOps IP.Proofs.HeapPrims.
From Coq Require Import List Arith Bool Lia ZArith.
Import ListNotations.
Local Open Scope nat_scope.

Lemma skind_eqb_eq : forall a b, skind_eqb a b = true -> a = b.
Proof. destruct a, b; cbn; congruence. Qed.

Lemma slice_eqb_eq : forall a b, slice_eqb a b = true -> a = b.
Proof.
  intros [a1 a2 a3 a4] [b1 b2 b3 b4]; unfold slice_eqb; cbn. rewrite !andb_true_iff, !Nat.eqb_eq.
  intros [[[H1 ->] ->] ->]. destruct a1, b1; try discriminate; [apply addr_eqb_eq in H1; subst|]; reflexivity.
Qed.

Lemma nref_eqb_eq : forall a b, nref_eqb a b = true -> a = b.
Proof.
  destruct a, b; cbn; try discriminate; intros H; auto;
    try (apply addr_eqb_eq in H; subst; reflexivity).
  - apply andb_true_iff in H. destruct H as [H1 H2]. apply skind_eqb_eq in H1. apply addr_eqb_eq in H2. subst; reflexivity.
  - apply slice_eqb_eq in H. subst; reflexivity.
Qed.

Lemma handle_eqb_eq : forall a b, handle_eqb a b = true -> a = b.
Proof.
  destruct a, b; cbn; try discriminate; intros H; auto;
    try (apply addr_eqb_eq in H; subst; reflexivity).
  - apply nref_eqb_eq in H. subst; reflexivity.
  - apply slice_eqb_eq in H. subst; reflexivity.
Qed.

Definition KInv (tg : tags) (h : mheap) (k : list handle) : Prop := Forall (fun hd => handle_ok hd tg h) k.

Lemma handle_ok_ext : forall tg h tg' h' hd, Ext tg h tg' h' -> handle_ok hd tg h -> handle_ok hd tg' h'.
Proof.
  intros * HE. destruct hd; cbn; auto; [apply fref_ext | apply bslice_ok_ext | intros H; eapply rdr_at_stable; eauto]; assumption.
Qed.

Lemma KInv_ext : forall tg h tg' h' k, Ext tg h tg' h' -> KInv tg h k -> KInv tg' h' k.
Proof. intros * HE. apply Forall_impl. intros; eapply handle_ok_ext; eauto. Qed.

Lemma existsb_handle_in : forall hd k, existsb (handle_eqb hd) k = true -> In hd k.
Proof. intros hd k H. apply existsb_exists in H. destruct H as (x & Hx & E). apply handle_eqb_eq in E. subst; assumption. Qed.

Lemma known_ok : forall tg h k hd, KInv tg h k -> known_b k hd = true -> handle_ok hd tg h.
Proof.
  intros * HK Hk. unfold KInv in HK. rewrite Forall_forall in HK.
  destruct hd; cbn in *; auto.
  - destruct r; cbn; auto; try (apply existsb_handle_in in Hk; apply (HK _ Hk)).
    apply orb_true_iff in Hk. destruct Hk as [Hk|Hk]; apply existsb_handle_in in Hk; apply (HK _ Hk).
  - apply existsb_handle_in in Hk. apply (HK _ Hk).
  - apply existsb_handle_in in Hk. apply (HK _ Hk).
Qed.

Lemma add_known_cases : forall k hd, add_known k hd = k \/ add_known k hd = hd :: k.
Proof.
  intros k hd. unfold add_known. destruct hd as [| | | | | | |r| |]; auto; [destruct r; auto | |];
    destruct (existsb _ k); auto.
Qed.

Lemma fold_add_known_ind : forall (P : list handle -> Prop) l k, P k ->
  (forall k' hd, In hd l -> P k' -> P (hd :: k')) -> P (fold_left add_known l k).
Proof.
  induction l as [|a l IH]; cbn; intros k Hk Hs; [assumption|].
  apply IH; [|auto]. destruct (add_known_cases k a) as [->| ->]; auto.
Qed.

Lemma out_handles_ok : forall tg h o, pout_ok o tg h -> Forall (fun hd => handle_ok hd tg h) (out_handles o).
Proof.
  intros tg h o H. destruct o; cbn in *; auto.
  destruct x; cbn in *; auto.
  - apply Forall_map. revert H. apply Forall_impl. auto.
  - apply Forall_map. revert H. apply Forall_impl. auto.
  - destruct alias; auto.
Qed.

Definition SInv (tg : tags) (ps : pstate) : Prop := Inv tg (hp ps) /\ KInv tg (hp ps) (kn ps).

Lemma pstep_exec : forall cf ps p,
  pstep cf ps p =
  match exec (par ps) (prim_prog cf p) (hp ps) with
  | (Done po, h') => ({| hp := h'; kn := if returns_caps p then fold_left add_known (out_handles po) (kn ps) else kn ps;
                         par := par ps; ptr := p :: ptr ps |}, RDone po)
  | (Crashed, h') => ({| hp := h'; kn := kn ps; par := par ps; ptr := p :: ptr ps |}, RPanic)
  end.
Proof.
  intros. unfold pstep, exec. destruct (run (par ps) (prim_prog cf p) (hp ps)) as [[[po|] h'] l]; reflexivity.
Qed.

Lemma pstep_par : forall cf ps p, par (fst (pstep cf ps p)) = par ps.
Proof. intros. rewrite pstep_exec. destruct (exec (par ps) (prim_prog cf p) (hp ps)) as [[po|] h']; reflexivity. Qed.

Lemma runh_par : forall cf hs ps, par (runh cf ps hs) = par ps.
Proof. induction hs; cbn; intros; auto. rewrite IHhs. apply pstep_par. Qed.

Lemma legal_pre : forall tg ps p, KInv tg (hp ps) (kn ps) -> legal ps p = true -> prim_pre p tg (hp ps).
Proof.
  intros tg ps p HK Hl. unfold legal in Hl. apply andb_true_iff in Hl. destruct Hl as [Hops Hheap].
  split; [|assumption]. rewrite forallb_forall in Hops. apply Forall_forall. intros hd Hin.
  eapply known_ok; eauto.
Qed.

Lemma pstep_inv : forall cf tg ps p, SInv tg ps -> legal ps p = true ->
  exists tg', SInv tg' (fst (pstep cf ps p)) /\ Ext tg (hp ps) tg' (hp (fst (pstep cf ps p))).
Proof.
  intros cf tg ps p [HI HK] Hl. pose proof (legal_pre _ _ _ HK Hl) as Hpre.
  rewrite pstep_exec. destruct (exec (par ps) (prim_prog cf p) (hp ps)) as [o h'] eqn:He.
  destruct (t_prim_prog cf p tg (hp ps) (par ps) _ _ HI Hpre He) as (tg' & [I' E'] & Hpost).
  pose proof (KInv_ext _ _ _ _ _ E' HK) as HK'.
  exists tg'. destruct o as [po|]; cbn; (split; [|assumption]); (split; [assumption|]); cbn; [|assumption].
  unfold prim_post in Hpost. destruct (returns_caps p); [|assumption].
  pose proof (out_handles_ok _ _ _ Hpost) as Ho. rewrite Forall_forall in Ho.
  apply fold_add_known_ind; [assumption|]. intros k' hd Hin Hk'. constructor; auto.
Qed.

Lemma sinv_init : SInv (fun _ => TFree) pinit.
Proof. split; [apply inv_init | constructor]. Qed.

Lemma acc_stable : forall tg h tg' h', Inv tg h -> Ext tg h tg' h' -> forall ar cf r a, fref tg h r ->
  (cf_stream_shared cf = false \/ stream_acc r a = false) ->
  fst (exec ar (acc_prog cf r a) h) = fst (exec ar (acc_prog cf r a) h').
Proof. intros * HI HE * Hr Hs. eapply fro_later; [apply acc_fro|]; eauto. Qed.

Lemma rd_content_stable : forall tg h tg' h', Inv tg h -> Ext tg h tg' h' -> forall fuel ar x, rdr_at x tg h ->
  fst (exec ar (rd_content fuel x) h) = fst (exec ar (rd_content fuel x) h').
Proof. intros * HI HE * Hx. eapply fro_later; [apply rd_content_fro|]; eauto. Qed.

Lemma read_obs_fst : forall cf ps r a,
  read_obs cf ps r a =
  match fst (exec (par ps) (acc_prog cf r a) (hp ps)) with Done x => RDone (PAcc x) | Crashed => RPanic end.
Proof.
  intros. unfold read_obs. rewrite pstep_exec. cbn [prim_prog]. rewrite exec_bind.
  destruct (exec (par ps) (acc_prog cf r a) (hp ps)) as [[x|] h1]; cbn; rewrite ?exec_ret; reflexivity.
Qed.

Definition take_k (k : option nat) (l : list N) : list N := match k with None => l | Some n => firstn n l end.

(* [Nat.pred rd_fuel] is the fuel [rd_read] has left for the source once it has opened the cursor itself *)
Definition source_content (ps : pstate) (src : addr) : outcome (list N) :=
  fst (exec (par ps) (rd_content (Nat.pred rd_fuel) src) (hp ps)).

Lemma cursor_read_spec : forall cf ps x src off k c,
  hget (hp ps) x = Some (CRdr (RdCursor src off)) ->
  source_content ps src = Done c ->
  snd (pstep cf ps (PReaderRead (HReader x) k)) = RDone (PAcc (XBytes (take_k k (skipn off c)) None)) /\
  hget (hp (fst (pstep cf ps (PReaderRead (HReader x) k)))) x =
    Some (CRdr (RdCursor src (off + length (take_k k (skipn off c))))).
Proof.
  intros cf ps x src off k c Hx Hc. unfold source_content in Hc.
  rewrite pstep_exec. cbn [prim_prog]. rewrite exec_bind.
  change rd_fuel with (S (Nat.pred rd_fuel)). cbn [rd_read].
  rewrite exec_rd, Hx. rewrite exec_bind.
  rewrite (exec_wfree _ _ (par ps) (hp ps) (wfree_rd_content (Nat.pred rd_fuel) src)). rewrite Hc.
  rewrite exec_wr, Hx, !exec_ret. cbn.
  split; [destruct k; reflexivity|].
  rewrite hget_hset, addr_eqb_refl, Hx. destruct k; reflexivity.
Qed.
