(* C15: the walk under controls against the plain walk, once.  As long as the start path does not interfere
   ([inert]: it has been passed, or is no longer than the path walked so far), the controlled walker is the plain
   walker with a hook at each node (the node budget) and at each link (visit-once, the link budget, SkipMe).  A
   relation Q between plain and controlled results that is kept by an empty result, by sequencing and by the two
   hooks holds between the walks. *)
Require Import IP.Base.Bytes IP.DM.Value IP.Trav.Selector IP.Trav.Walk IP.Trav.Controls IP.Trav.ControlsSpec
  IP.Proofs.TravFacts.
From Coq Require Import Lia.
Open Scope Z_scope.

Definition nst (seen : list bytes) : wst := {| w_budget := None; w_seen := seen |}.

Definition res : Type := list event * outcome.
Definition cres : Type := res * wst.

(* the sequencing of seqk and of cloop *)
Definition then_ (y1 y2 : res) : res :=
  match y1 with
  | (e, OOk) => let '(e', o) := y2 in (e ++ e', o)
  | (e, o) => (e, o)
  end.
Definition cthen (r1 : cres) (x2 : wst -> cres) : cres :=
  match r1 with
  | (e, OOk, st') => let '(e', o, st'') := x2 st' in (e ++ e', o, st'')
  | (e, o, st') => (e, o, st')
  end.

(* Q ls y st r: below link stack ls, the plain result y against the controlled result r from state st.  In the
   last clause (e, o) is the walk of the block behind the link, or no event and the load error. *)
Definition ctl_closed (c : ctl) (Q : list bytes -> res -> wst -> cres -> Prop) : Prop :=
  (forall ls o st, Q ls ([], o) st ([], o, st)) /\
  (forall ls y1 y2 x2 st r1,
     Q ls y1 st r1 -> (forall st', Q ls y2 st' (x2 st')) -> Q ls (then_ y1 y2) st (cthen r1 x2)) /\
  (forall ls ev e o x st,
     is_visit ev = true -> ev_stack ev = ls -> (forall st', Q ls (e, o) st' (x st')) ->
     Q ls (ev :: e, o) st
       match check_node st with
       | None => ([], OErr WNodeBudget, st)
       | Some st1 => let '(e', o', st2) := x st1 in (ev :: e', o', st2)
       end) /\
  (forall ls P l e o x st,
     (forall st', Q (l :: ls) (e, o) st' (x st')) ->
     Q ls (ELoad P l ls :: e, o) st
       (if c_once c && mem_bytes l (w_seen st) then ([], OOk, st)
        else let st1 := if c_once c then mark_seen l st else st in
             match check_link st1 with
             | None => ([], OErr WLinkBudget, st1)
             | Some st2 => if mem_bytes l (c_skip c) then ([ELoad P l ls], OOk, st2)
                           else let '(e', o', st3) := x st2 in (ELoad P l ls :: e', o', st3)
             end)).

Section CtlSim.
  Variables (q : quirks) (c : ctl) (g : list (bytes * dm)).
  Variable Q : list bytes -> res -> wst -> cres -> Prop.
  Hypothesis HQ : ctl_closed c Q.
  Let Q_ret := proj1 HQ.
  Let Q_seq := proj1 (proj2 HQ).
  Let Q_visit := proj1 (proj2 (proj2 HQ)).
  Let Q_link := proj2 (proj2 (proj2 HQ)).

  Definition inert (past : bool) (P : list seg) : Prop := past = true \/ (length (c_start c) <= length P)%nat.

  Lemma inert_visible past P : inert past P -> (negb past && Nat.ltb (length P) (length (c_start c)))%bool = false.
  Proof.
    intros [->|H]; [reflexivity|]. destruct (Nat.ltb_spec (length P) (length (c_start c))); [lia|apply andb_false_r].
  Qed.

  Lemma inert_decide P ps past reached : inert past P \/ reached = true ->
    exists past' reached', start_decide c P ps past reached = (past', reached', true) /\ inert past' P.
  Proof.
    intros H. unfold start_decide.
    destruct (c_start c) eqn:Ec; [exists past, reached; split; [reflexivity|right; rewrite Ec; cbn; lia]|]. rewrite <- Ec.
    destruct reached; [exists true, true; split; [reflexivity|left; reflexivity]|].
    destruct H as [H|H]; [|discriminate]. rewrite (inert_visible past P H). eauto.
  Qed.

  Lemma inert_nostart past P : c_start c = [] -> inert past P.
  Proof. intros E. right. rewrite E. apply Nat.le_0_l. Qed.

  Lemma inert_app past P ps : inert past P -> inert past (P ++ [ps]).
  Proof. intros [->|H]; [left; reflexivity|right; rewrite app_length; lia]. Qed.

  Section Level.
    Variable f : nat.
    Hypothesis IH : forall st past ls P n s,
      inert past P -> Q ls (walk q g f ls P n s) st (cwalk q c g f st past ls P n s).

    Lemma ctl_step ls P n s st past k : inert past P ->
      Q ls (explore_step q g (walk q g f) ls P n s k) st
           (cexplore_step q c g (cwalk q c g f) ls P n s st past k).
    Proof.
      intros Hp. apply (inert_app past P (fst k)) in Hp. unfold explore_step, cexplore_step.
      destruct (explore q s n (fst k)) as [[s'|]| |]; try apply Q_ret.
      destruct (snd k) as [| | | | | |l| |]; try (apply IH; exact Hp).
      destruct (assoc l g) as [b|].
      - destruct (walk q g f (l :: ls) (P ++ [fst k]) b s') as [e o] eqn:Ew.
        apply (Q_link ls (P ++ [fst k]) l e o (fun st2 => cwalk q c g f st2 past (l :: ls) (P ++ [fst k]) b s') st).
        intros st'. rewrite <- Ew. apply IH, Hp.
      - apply (Q_link ls (P ++ [fst k]) l [] (OErr WLoad) (fun st2 => ([], OErr WLoad, st2)) st). intros; apply Q_ret.
    Qed.

    Lemma ctl_loop ls P n s : forall ks st past reached, inert past P \/ reached = true ->
      Q ls (seqk (explore_step q g (walk q g f) ls P n s) ks) st
           (cloop c (cexplore_step q c g (cwalk q c g f) ls P n s) P ks st past reached).
    Proof.
      induction ks as [|k r IHr]; intros st past reached Hp; [apply Q_ret|].
      cbn [cloop]. destruct (inert_decide P (fst k) past reached Hp) as (p' & r' & -> & Hp').
      apply (Q_seq ls _ _ (fun st' => cloop c (cexplore_step q c g (cwalk q c g f) ls P n s) P r st' p' r') st).
      - apply ctl_step, Hp'.
      - intros st'. apply IHr. left; exact Hp'.
    Qed.
  End Level.

  Theorem ctl_sim f : forall st past ls P n s,
    inert past P -> Q ls (walk q g f ls P n s) st (cwalk q c g f st past ls P n s).
  Proof.
    induction f as [|f IH]; intros st past ls P n s Hp; [apply Q_ret|].
    rewrite walk_S, cwalk_S, (inert_visible past P Hp).
    pose proof (fun st' => ctl_loop f IH ls P n s (children q n s) st' past false (or_introl Hp)) as HL.
    destruct (is_container n).
    - destruct (seqk (explore_step q g (walk q g f) ls P n s) (children q n s)) as [e o].
      exact (Q_visit ls _ e o _ st (visit_event_is_visit P n s ls) (visit_event_stack P n s ls) HL).
    - exact (Q_visit ls _ [] OOk (fun st1 => ([], OOk, st1)) st (visit_event_is_visit P n s ls)
                     (visit_event_stack P n s ls) (Q_ret ls OOk)).
  Qed.

  Corollary ctl_sim_loop f ls P n s ks st past reached : inert past P \/ reached = true ->
    Q ls (seqk (explore_step q g (walk q g f) ls P n s) ks) st
         (cloop c (cexplore_step q c g (cwalk q c g f) ls P n s) P ks st past reached).
  Proof. apply ctl_loop, ctl_sim. Qed.
End CtlSim.
