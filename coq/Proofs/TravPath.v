(* C14: the paths reported by the walk resolve (get) to the visited nodes (walk_resolves), and
   what the other C14 theorems are concluded from in Props/C14.v: get over an appended path, single steps against
   LookupBySegment, split/join of path text, Focus as get that also keeps LastBlock (get_last_fst), the link-root
   block. *)
Require Import IP.Base.Bytes IP.DM.Value IP.Trav.Selector IP.Trav.Walk IP.Trav.Path
  IP.Trav.Controls IP.Trav.ControlsSpec IP.Proofs.BytesFacts IP.Proofs.TravFacts IP.Proofs.TravSel IP.Proofs.TravStart.
From Coq Require Import Lia.
Open Scope Z_scope.

Lemma get_app g p : forall n q, get g n (p ++ q) = bind (get g n p) (fun v => get g v q).
Proof.
  induction p as [|sg p IH]; intros; [reflexivity|].
  cbn. destruct (step_deref g n sg) as [v|e]; cbn; [apply IH|reflexivity].
Qed.

Definition get_fold (g : list (bytes * dm)) (n : dm) (p : list seg) : res gerr dm :=
  fold_left (fun acc sg => bind acc (fun v => step_deref g v sg)) p (Ok n).

Lemma fold_err g p e :
  fold_left (fun acc sg => bind acc (fun v => step_deref g v sg)) p (Err e) = Err e.
Proof. induction p; cbn; auto. Qed.

Lemma step_ok_iff n sg v : step n sg = Ok v <-> lookup_seg n sg = Some v.
Proof.
  unfold step, lookup_seg. destruct n; try (split; discriminate).
  - destruct (seg_index sg); [|split; discriminate]. destruct (list_at l z); split; congruence.
  - destruct (assoc (seg_string sg) m); split; congruence.
Qed.
Fixpoint keys_ok (v : dm) : bool :=
  match v with
  | DList l => forallb keys_ok l
  | DMap m => nodup_strs (map fst m) && forallb (fun kv => keys_ok (snd kv)) m
  | _ => true
  end.
Definition is_link (v : dm) : bool := match v with DLink _ => true | _ => false end.
Definition good_graph (g : list (bytes * dm)) : bool :=
  forallb (fun cb => keys_ok (snd cb) && negb (is_link (snd cb))) g.

Lemma assoc_nodup {V} (l : list (bytes * V)) : forall k v,
  nodup_strs (map fst l) = true -> In (k, v) l -> assoc k l = Some v.
Proof.
  induction l as [|[k' v'] l IH]; intros k v Hn Hin; [destruct Hin|].
  cbn in *. apply andb_true_iff in Hn. destruct Hn as [Hm Hn]. destruct Hin as [H|H].
  - inversion H; subst. rewrite bytes_eqb_refl. reflexivity.
  - destruct (bytes_eqb k k') eqn:E.
    + apply bytes_eqb_eq in E. subst. apply negb_true_iff in Hm.
      assert (mem_bytes k' (map fst l) = true) as Hc; [|congruence].
      apply mem_bytes_In. apply in_map_iff. exists (k', v). auto.
    + apply IH; assumption.
Qed.

Lemma good_block g c b : good_graph g = true -> assoc c g = Some b -> keys_ok b = true /\ is_link b = false.
Proof.
  intros Hg Ha. pose proof (assoc_forallb (fun x => keys_ok x && negb (is_link x)) c g b Hg Ha) as H.
  apply andb_true_iff in H. destruct H as [H1 H2]. apply negb_true_iff in H2. auto.
Qed.

Lemma index_from_In l : forall i ps v, In (ps, v) (index_from i l) ->
  exists j, ps = SegI (i + Z.of_nat j) /\ nth_error l j = Some v.
Proof.
  induction l as [|x l IH]; intros i ps v H; [destruct H|].
  cbn in H. destruct H as [H|H].
  - inversion H; subst. exists O. split; [f_equal; lia|reflexivity].
  - destruct (IH _ _ _ H) as (j & -> & Hj). exists (S j). split; [f_equal; lia|exact Hj].
Qed.

Definition values (n : dm) : list dm :=
  match n with DList l => l | DMap m => map snd m | _ => [] end.

Lemma lookup_values n ps x : lookup_seg n ps = Some x -> In x (values n).
Proof.
  unfold lookup_seg. destruct n; try discriminate.
  - destruct (seg_index ps); [|discriminate]. unfold list_at. destruct (_ || _)%bool; [discriminate|].
    apply nth_error_In.
  - intros H. destruct (assoc_In _ _ _ H) as [k' Hin]. apply (in_map snd) in Hin. exact Hin.
Qed.

Lemma children_spec q n s ps v :
  In (ps, v) (children q n s) -> In v (values n) /\ (keys_ok n = true -> lookup_seg n ps = Some v).
Proof.
  unfold children. destruct (interests s) as [attn|].
  - unfold interest_kids. intros H. apply in_flat_map in H. destruct H as (ps' & _ & H).
    destruct (lookup_seg n ps') eqn:E; [|destruct H]. destruct H as [H|[]]. inversion H; subst.
    split; [exact (lookup_values _ _ _ E)|intros _; exact E].
  - unfold kids. destruct n; try (intros []).
    + intros H. apply index_from_In in H. destruct H as (j & -> & Hj). split; [exact (nth_error_In _ _ Hj)|intros _].
      cbn. unfold list_at. assert (j < length l)%nat by (apply nth_error_Some; congruence).
      assert (E1 : (Z.of_nat j <? 0) = false) by (apply Z.ltb_ge; lia).
      assert (E2 : (Z.of_nat (length l) <=? Z.of_nat j) = false) by (apply Z.leb_gt; lia).
      rewrite E1, E2. cbn. rewrite Nat2Z.id. exact Hj.
    + intros H. apply in_map_iff in H. destruct H as ([k x] & H & Hin). inversion H; subst.
      split; [exact (in_map snd _ _ Hin)|]. cbn. intros Hk. apply andb_true_iff in Hk. apply assoc_nodup; [apply Hk|exact Hin].
Qed.
Lemma children_values q n s ps v : In (ps, v) (children q n s) -> In v (values n).
Proof. intros H. apply (children_spec q n s ps v H). Qed.
Lemma children_lookup q n s ps v :
  keys_ok n = true -> In (ps, v) (children q n s) -> lookup_seg n ps = Some v.
Proof. intros Hk H. exact (proj2 (children_spec q n s ps v H) Hk). Qed.

Lemma values_forallb (p : dm -> bool) n x :
  match n with
  | DList l => p n = true -> forallb p l = true
  | DMap m => p n = true -> forallb (fun kv => p (snd kv)) m = true
  | _ => True
  end -> p n = true -> In x (values n) -> p x = true.
Proof.
  destruct n; cbn [values]; try contradiction; intros H Hp Hin; specialize (H Hp); rewrite forallb_forall in H.
  - exact (H _ Hin).
  - apply in_map_iff in Hin. destruct Hin as (kv & <- & Hin). exact (H _ Hin).
Qed.

Lemma lookup_keys_ok n ps v : keys_ok n = true -> lookup_seg n ps = Some v -> keys_ok v = true.
Proof.
  intros Hk Hl. apply (values_forallb keys_ok n v); [|exact Hk|exact (lookup_values _ _ _ Hl)].
  destruct n; try exact I; cbn; intros H; [exact H|apply andb_true_iff in H; apply H].
Qed.

Definition resolves (g : list (bytes * dm)) (root : dm) (e : event) : Prop :=
  match e with
  | EVisit P m r _ =>
      exists n', get g root P = Ok n' /\
                 (m = n' \/ (r = RMatch /\ exists ft, slice_node ft n' = Some m))
  | ELoad _ _ _ => True
  end.

Lemma deref_nonlink g f v : is_link v = false -> deref g f v = Ok v.
Proof. intros H; destruct v; try discriminate; destruct f; reflexivity. Qed.

Section Resolve.
  Variable q : quirks.
  Variable g : list (bytes * dm).
  Variable root : dm.
  Hypothesis Hg : good_graph g = true.

  Lemma walk_resolves f ls P n s :
    get g root P = Ok n -> keys_ok n = true ->
    Forall (resolves g root) (fst (walk q g f ls P n s)).
  Proof.
    intros Hget Hk.
    apply (walk_inv q g (fun _ _ P n _ => get g root P = Ok n /\ keys_ok n = true) (resolves g root) (fun _ => True));
      auto.
    - clear. intros _ ls P n s [Hget _]. unfold visit_event. destruct (match_sel s n) as [m|] eqn:Em; cbn.
      + exists n. split; [exact Hget|]. destruct (match_sel_shape s n m Em) as [->|H]; [left; reflexivity|right; auto].
      + exists n. auto.
    - clear - Hg. intros _ ls P n s ps v [Hget Hk] Hin.
      pose proof (children_lookup q n s ps v Hk Hin) as Hl.
      pose proof (lookup_keys_ok n ps v Hk Hl) as Hkv.
      apply step_ok_iff in Hl.
      destruct (explore q s n ps) as [[s'|]| |]; auto.
      assert (Hstep : forall w, deref g (S (length g)) v = Ok w -> get g root (P ++ [ps]) = Ok w).
      { intros w Hw. rewrite get_app, Hget. cbn [bind get]. unfold step_deref. rewrite Hl. cbn [bind]. rewrite Hw. reflexivity. }
      destruct v; try (split; [apply Hstep; reflexivity|exact Hkv]).
      split; [exact I|]. intros b Eb. destruct (good_block g c b Hg Eb) as [Hkb Hlb].
      split; [|exact Hkb]. apply Hstep. cbn. rewrite Eb. apply deref_nonlink; exact Hlb.
  Qed.
End Resolve.

(* the link-root block: the walk visits the link node, get follows it *)
Definition lb_c1 : bytes := [1; 113; 18; 1; 170]%N.
Definition lb_c2 : bytes := [1; 113; 18; 1; 187]%N.
Definition lb_g : list (bytes * dm) := [(lb_c1, DMap [([118%N], DInt 7)]); (lb_c2, DLink lb_c1)].
Definition lb_root : dm := DMap [([112%N], DLink lb_c2)].
Definition lb_sel : sel := SAll (SMatch None).

Lemma walk_paths_refuted_link_block :
  exists e, In e (fst (walk_adv pinned lb_g 5 lb_root lb_sel)) /\ ~ resolves lb_g lb_root e.
Proof.
  exists (EVisit [SegS [112%N]] (DLink lb_c1) RMatch [lb_c2]). split.
  - vm_compute. right. right. left. reflexivity.
  - intros (n' & Hget & H). vm_compute in Hget. inversion Hget; subst. destruct H as [H|(_ & ft & H)]; discriminate.
Qed.

Definition no_slash (s : bytes) : Prop := Forall (fun c => c <> 47%N) s.

Lemma split_run x : forall cur r, no_slash x -> split_slash (x ++ r) cur = split_slash r (rev x ++ cur).
Proof.
  induction x as [|c x IH]; intros cur r H; [reflexivity|].
  inversion H as [|? ? Hc Hx]; subst. cbn [app split_slash].
  destruct (N.eqb_spec c 47); [contradiction|]. rewrite IH by exact Hx. cbn [rev]. rewrite <- app_assoc. reflexivity.
Qed.

Theorem split_join l :
  Forall (fun x => x <> [] /\ no_slash x) l -> split_slash (join_slash l) [] = l.
Proof.
  induction l as [|x l IH]; intros H; [reflexivity|].
  inversion H as [|? ? [Hne Hns] Hl]; subst. destruct l as [|y l].
  - cbn [join_slash]. rewrite <- (app_nil_r x) at 1. rewrite split_run by exact Hns. cbn [split_slash].
    rewrite app_nil_r. destruct (rev x) eqn:E.
    + apply (f_equal (@rev _)) in E. rewrite rev_involutive in E. cbn in E. contradiction.
    + rewrite <- E, rev_involutive. reflexivity.
  - change (join_slash (x :: y :: l)) with (x ++ 47%N :: join_slash (y :: l)).
    rewrite split_run by exact Hns. cbn [split_slash N.eqb Pos.eqb]. rewrite app_nil_r.
    destruct (rev x) eqn:E.
    + apply (f_equal (@rev _)) in E. rewrite rev_involutive in E. cbn in E. contradiction.
    + rewrite <- E, rev_involutive. rewrite IH by exact Hl. reflexivity.
Qed.

(* segments that are empty or contain a slash do not survive String() and ParsePath (the hypothesis of C14_roundtrip) *)
Example path_roundtrip_needs_hyp :
  parse_path (format_path [SegS [97%N; 47%N; 98%N]]) = [SegS [97%N]; SegS [98%N]] /\
  parse_path (format_path [SegS [97%N]; SegS []]) = [SegS [97%N]].
Proof. split; reflexivity. Qed.

(* the unconditional statement (any blocks with unique keys); the link-root block refutes it *)
Definition walk_paths_full : Prop :=
  forall q g root f s,
    forallb (fun cb => keys_ok (snd cb)) g = true -> keys_ok root = true ->
    Forall (resolves g root) (fst (walk_adv q g f root s)).

Example good_example :
  good_graph [([1; 113; 18; 1; 170]%N, DMap [([118%N], DInt 7)])] = true /\
  keys_ok (DMap [([97%N], DLink [1; 113; 18; 1; 170]%N); ([98%N], DList [DInt 1; DString [104%N]])]) = true.
Proof. split; reflexivity. Qed.

Lemma deref_last_fst g f : forall v l, bind (deref_last g f v l) (fun r => Ok (fst r)) = deref g f v.
Proof.
  induction f as [|f IH]; intros v l; destruct v; cbn; try reflexivity.
  destruct (assoc c g) as [b|]; [apply IH|reflexivity].
Qed.

Lemma get_last_fst g p : forall n done lb, bind (get_last g n done p lb) (fun r => Ok (fst r)) = get g n p.
Proof.
  induction p as [|sg r IH]; intros n done lb; cbn [get get_last]; [reflexivity|].
  unfold step_deref. destruct (step n sg) as [v|e]; cbn [bind]; [|reflexivity].
  rewrite <- (deref_last_fst g (S (length g)) v None).
  destruct (deref_last g (S (length g)) v None) as [[x l]|e]; cbn [bind fst snd]; [apply IH|reflexivity].
Qed.

Lemma get_local_app p : forall n q, get_local n (p ++ q) = bind (get_local n p) (fun v => get_local v q).
Proof.
  induction p as [|sg p IH]; intros; [reflexivity|].
  cbn. destruct (step n sg) as [v|e]; cbn; [apply IH|reflexivity].
Qed.

