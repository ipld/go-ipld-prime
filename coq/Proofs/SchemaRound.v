(* Proofs/SchemaRound.v — the specified representation (and the type-level tree) of a typed value
   conforms and denotes that value: [conforms_r t (repr_spec t v) = Some v] and
   [conforms_t t (tdm_spec t v) = Some v] for every well-formed schema and every value of the type.
   What conforms has the kind its strategy fixes, so the representation has ([repr_kinds]).
   With SchemaBuild this gives C08_two_routes. *)
Require Import IP.Base.Bytes IP.DM.Value IP.Schema.Types IP.Schema.View IP.Schema.Conform IP.Schema.Sem
  IP.Proofs.SchemaBase.
From Coq Require Import Lia.
Open Scope N_scope.

Lemma split_go1_none c s : forall cur, contains [c] s = false -> split_go [c] 0 cur s = [rev cur ++ s].
Proof.
  induction s as [|x s IH]; intros cur H; cbn.
  - now rewrite app_nil_r.
  - cbn in H. apply orb_false_iff in H as [H1 H2]. rewrite andb_true_r in H1. rewrite H1.
    cbn [andb]. rewrite IH by auto. cbn [rev]. now rewrite <- app_assoc.
Qed.

(* outer induction on the parts still to come, inner on the bytes of the current part p: a byte of p is not the
   delimiter and goes to [cur]; at the end of p the next byte is the delimiter that [join] put there *)
Lemma split_join1 c parts : forall cur p,
  Forall (fun p => contains [c] p = false) (p :: parts) ->
  split_go [c] 0 cur (join [c] (p :: parts)) = (rev cur ++ p) :: parts.
Proof.
  induction parts as [|p2 parts IH]; intros cur p Hf.
  - cbn [join]. inversion Hf; subst. now apply split_go1_none.
  - inversion Hf as [|? ? Hp Hr]; subst.
    revert cur. induction p as [|x p IHp]; intros cur.
    + change (join [c] ([] :: p2 :: parts)) with (c :: join [c] (p2 :: parts)).
      cbn [split_go is_prefix]. rewrite N.eqb_refl. cbn [andb length Nat.sub]. rewrite app_nil_r.
      f_equal. rewrite (IH [] p2 Hr). reflexivity.
    + change (join [c] ((x :: p) :: p2 :: parts)) with (x :: join [c] (p :: p2 :: parts)).
      cbn in Hp. apply orb_false_iff in Hp as [H1 H2]. rewrite andb_true_r in H1.
      cbn [split_go is_prefix]. rewrite H1. cbn [andb].
      rewrite IHp by auto. cbn [rev]. now rewrite <- app_assoc.
Qed.

Lemma split_join c parts :
  parts <> [] -> Forall (fun p => contains [c] p = false) parts -> split [c] (join [c] parts) = parts.
Proof.
  destruct parts as [|p parts]; [congruence|]. intros _ H. unfold split. now rewrite split_join1.
Qed.

Lemma is_prefix_app p s : is_prefix p (p ++ s) = true.
Proof. induction p as [|x p IH]; cbn; auto. now rewrite N.eqb_refl. Qed.

Lemma drop_app {A} (p s : list A) : drop (length p) (p ++ s) = s.
Proof. induction p as [|x p IH]; cbn; auto. Qed.

Lemma is_prefix_app_cases a b s : is_prefix a (b ++ s) = true -> is_prefix a b = true \/ is_prefix b a = true.
Proof.
  revert b; induction a as [|x a IH]; intros b H; cbn; auto.
  destruct b as [|y b]; cbn in *; auto.
  apply andb_true_iff in H as [H1 H2]. rewrite H1. cbn.
  rewrite N.eqb_sym, H1. cbn. auto.
Qed.

Lemma is_prefix_app_long d l s : (length d <= length l)%nat -> is_prefix d (l ++ s) = is_prefix d l.
Proof.
  revert l; induction d as [|x d IH]; intros l H; [destruct l; reflexivity|].
  destruct l as [|y l]; [cbn in H; lia|]. cbn. destruct (x =? y); cbn; auto. apply IH. cbn in H. lia.
Qed.

Lemma is_prefix_length d s : is_prefix d s = true -> (length d <= length s)%nat.
Proof.
  revert s; induction d as [|x d IH]; intros s H; [cbn; lia|].
  destruct s as [|y s]; [discriminate|]. cbn in *. apply andb_true_iff in H as [_ H]. apply IH in H. lia.
Qed.

Lemma split_first_app d : d <> [] -> forall a acc s,
  split_first d acc (a ++ d) = Some (rev acc ++ a, []) ->
  split_first d acc (a ++ d ++ s) = Some (rev acc ++ a, s).
Proof.
  intros Hd. induction a as [|x a IH]; intros acc s H.
  - cbn [app] in *. destruct d as [|c d']; [congruence|]. cbn [split_first app].
    change (c :: d' ++ s) with ((c :: d') ++ s). rewrite is_prefix_app. rewrite drop_app.
    now rewrite app_nil_r.
  - cbn [app split_first] in *.
    destruct (is_prefix d (x :: a ++ d)) eqn:E.
    + inversion H as [[H1 H2]]. exfalso. apply (f_equal (@length _)) in H1. rewrite app_length in H1. cbn in H1. lia.
    + replace (x :: a ++ d ++ s) with ((x :: a ++ d) ++ s) by (cbn; now rewrite <- app_assoc).
      rewrite is_prefix_app_long, E by (cbn; rewrite app_length; lia).
      specialize (IH (x :: acc) s). cbn [rev] in IH. rewrite <- !app_assoc in IH. cbn [app] in IH.
      apply IH. exact H.
Qed.

Lemma first_delim_split dl disc s : dl <> [] -> first_delim_ok dl disc = true ->
  split_first dl [] (disc ++ dl ++ s) = Some (disc, s).
Proof.
  intros Hd H. unfold first_delim_ok in H.
  destruct (split_first dl [] (disc ++ dl)) as [[p r]|] eqn:E; [|discriminate].
  apply andb_true_iff in H as [H1 H2]. apply bytes_eqb_eq in H1. subst p. destruct r; [|discriminate].
  apply (split_first_app dl Hd disc [] s). exact E.
Qed.

Lemma prefix_free_nth l : prefix_free l = true ->
  forall i j a b, (j < i)%nat -> nth_error l i = Some a -> nth_error l j = Some b ->
  is_prefix b a = false /\ is_prefix a b = false.
Proof.
  induction l as [|x l IH]; intros Hpf i j a b Hj Hi Hb; [destruct i; discriminate|].
  cbn in Hpf. apply andb_true_iff in Hpf as [Hh Ht].
  destruct i as [|i]; [lia|]. cbn in Hi. destruct j as [|j]; cbn in Hb.
  - inversion Hb; subst. rewrite forallb_forall in Hh.
    specialize (Hh a (nth_error_In _ _ Hi)). now rewrite andb_true_iff, !negb_true_iff in Hh.
  - apply (IH Ht i j); auto. lia.
Qed.

Lemma find_name_In (es : list einfo) s x : find (fun e => bytes_eqb (e_name e) s) es = Some x -> In x es /\ e_name x = s.
Proof.
  intros H. apply find_some in H as [H1 H2]. apply bytes_eqb_eq in H2. auto.
Qed.

Lemma zip_keys (key : finfo -> bytes) (fs : list (finfo * ty)) (vs : list (maybe tv)) : length vs = length fs ->
  map (fun x => key (fst (fst x))) (zip fs vs) = map (fun f => key (fst f)) fs.
Proof. intros H. now rewrite <- (map_map fst (fun f => key (fst f))), zip_map_fst. Qed.

Lemma conf_step_nonnull lvl rc t d v : conf_step lvl rc t d = Some v -> kind_of d <> KNull.
Proof.
  unfold conf_step. destruct (kind_eqb (kind_of d) KNull) eqn:E; [discriminate|]. intros _ E'. now rewrite E' in E.
Qed.

Lemma conf_step_kinds rc t d v : conf_step LRepr rc t d = Some v -> forall k, repr_kind t = Some k -> kind_of d = k.
Proof.
  intros H k Hk. unfold conf_step in H.
  destruct (kind_eqb (kind_of d) KNull); [discriminate|].
  destruct t; try destruct r; try destruct int_repr; cbn in Hk; inversion Hk; subst k;
    destruct d; try discriminate; try (destruct w; discriminate); reflexivity.
Qed.

Definition kinds_ok (hs : ty -> tv -> bool) (rp : ty -> tv -> dm) : Prop :=
  forall c v, hs c v = true -> wf c = true -> forall k, repr_kind c = Some k -> kind_of (rp c v) = k.

Lemma kinds_string hs rp c v : kinds_ok hs rp -> hs c v = true -> wf c = true ->
  repr_kind c = Some KString -> rp c v = DString (str_of (rp c v)).
Proof. intros Hk Hh Hc Hr. apply kind_string. now apply (Hk c v Hh Hc). Qed.

(* [tr] maps a typed value to a tree — the representation or the type-level tree — whose children conform
   back ([Hrec]); what conforms is not null ([Hrn]), so a child's tree is not taken for the null of a nullable
   slot.  The representation level also needs that what conforms has the kind its strategy fixes ([Hrk]):
   a kinded union finds its member by the kind, stringjoin and stringprefix read their children as strings *)
Section Round.
  Variables (hs : ty -> tv -> bool) (tr : ty -> tv -> dm) (rc : ty -> dm -> option tv).
  Hypothesis Hrec : forall c v, hs c v = true -> wf c = true -> rc c (tr c v) = Some v.
  Hypothesis Hrn : forall c d v, rc c d = Some v -> kind_of d <> KNull.

  Lemma conf_maybe_round opt nul c m :
    wf c = true -> has_maybe hs opt nul c m = true -> is_absent m = false ->
    conf_maybe rc nul c (repr_maybe tr c m) = Some m.
  Proof.
    intros Hc Hh Ha. destruct m as [| |w]; cbn in *; try discriminate.
    - now rewrite Hh.
    - pose proof (Hrec _ _ Hh Hc) as Hr. pose proof (Hrn _ _ _ Hr) as Hn. unfold conf_maybe.
      destruct (tr c w); try (now rewrite Hr). exfalso. now apply Hn.
  Qed.

  (* a slot of a list or map is never absent *)
  Lemma conf_slot_round nul c m :
    wf c = true -> has_maybe hs false nul c m = true -> conf_maybe rc nul c (repr_maybe tr c m) = Some m.
  Proof. intros Hc Hh. apply (conf_maybe_round false); auto. now destruct m. Qed.

  Lemma list_round nul c l :
    wf c = true -> forallb (has_maybe hs false nul c) l = true ->
    mapM (conf_maybe rc nul c) (map (repr_maybe tr c) l) = Some l.
  Proof.
    intros Hc Hh. rewrite forallb_forall in Hh. apply mapM_retract. intros x Hx. apply conf_slot_round; auto.
  Qed.

  Lemma map_round nul c m :
    wf c = true -> forallb (fun kv => has_maybe hs false nul c (snd kv)) m = true ->
    mapM (fun kv : bytes * dm => match conf_maybe rc nul c (snd kv) with Some v => Some (fst kv, v) | None => None end)
         (map (fun kv => (fst kv, repr_maybe tr c (snd kv))) m) = Some m.
  Proof.
    intros Hc Hh. rewrite forallb_forall in Hh. apply mapM_retract. intros [k x] Hx. cbn [fst snd].
    now rewrite (conf_slot_round nul c x Hc (Hh _ Hx)).
  Qed.

  Lemma fields_round (key : finfo -> bytes) fs vs :
    NoDup (map (fun f => key (fst f)) fs) -> Forall (fun f => wf (snd f) = true) fs ->
    has_fields hs fs vs = true ->
    conf_fields rc key fs
      (map (fun x => (key (fst (fst x)), repr_maybe tr (snd (fst x)) (snd x))) (present fs vs)) = Some (VStruct vs).
  Proof.
    intros Hnd Hch Hf. pose proof (has_fields_length _ _ _ Hf) as Hlen.
    rewrite <- (zip_keys key fs vs Hlen) in Hnd. unfold conf_fields, present.
    set (k := fun x : (finfo * ty) * maybe tv => key (fst (fst x))) in *.
    set (g := fun x : (finfo * ty) * maybe tv => repr_maybe tr (snd (fst x)) (snd x)).
    set (p := fun x : (finfo * ty) * maybe tv => negb (is_absent (snd x))).
    change (map _ (filter p (zip fs vs))) with (map (fun x => (k x, g x)) (filter p (zip fs vs))).
    assert (G1 : nodupb (map fst (map (fun x => (k x, g x)) (filter p (zip fs vs)))) = true).
    { apply nodupb_NoDup. rewrite map_map. now apply NoDup_map_filter. }
    assert (G2 : forallb (fun kv => existsb (fun f => bytes_eqb (key (fst f)) (fst kv)) fs)
                         (map (fun x => (k x, g x)) (filter p (zip fs vs))) = true).
    { apply forallb_map_in. intros y Hy. apply filter_In in Hy as [Hy _]. apply zip_In_fst in Hy.
      apply existsb_exists. exists (fst y). split; auto. apply bytes_eqb_refl. }
    rewrite G1, G2. cbn [andb].
    rewrite (mapM_zip _ fs vs Hlen); auto.
    intros x Hx. change (key (fst (fst x))) with (k x). rewrite (assoc_filter k g p _ x Hnd Hx). unfold p.
    destruct (has_fields_all hs fs vs Hch Hf x Hx) as [Hm Hc].
    destruct (is_absent (snd x)) eqn:Ea; cbn [negb].
    - destruct (snd x); try discriminate. cbn in Hm. now rewrite Hm.
    - unfold g. eapply conf_maybe_round; eauto.
  Qed.

  Lemma member_round {K} (key : minfo -> K) (eqb : K -> K -> bool) ms i m v :
    (forall a b, eqb a b = true <-> a = b) -> NoDup (map (fun x => key (fst x)) ms) ->
    nth_error ms i = Some m -> wf (snd m) = true -> hs (snd m) v = true ->
    conf_member rc ms (fun mi => eqb (key mi) (key (fst m))) (tr (snd m) v) = Some (VUnion i v).
  Proof.
    intros Heq Hnd En Hc Hh. unfold conf_member.
    rewrite (find_idx_unique_gen (fun x : minfo * ty => key (fst x)) eqb ms i m Heq Hnd En).
    now rewrite (Hrec _ _ Hh Hc).
  Qed.

  (* [tdm_maybe] is [repr_maybe] under another name, so the lemmas above apply as they are *)
  Lemma tdm_step_round rp t v :
    has_step hs rp t v = true -> wf t = true -> conf_step LType rc t (tdm_step tr t v) = Some v.
  Proof.
    intros Hh Hwf. unfold conf_step.
    destruct t; destruct v; cbn [has_step] in Hh; try discriminate; try (destruct w; discriminate);
      try reflexivity.
    - cbn. destruct w; now rewrite Hh.
    - cbn [tdm_step conf_scalar]. destruct (kind_eqb (kind_of d) KNull); [discriminate|]. now rewrite Hh.
    - cbn [tdm_step kind_of kind_eqb]. now rewrite list_round.
    - cbn [tdm_step kind_of kind_eqb]. apply andb_true_iff in Hh as [Hnd Hh].
      now rewrite map_fst_pair, Hnd, map_round.
    - (* always a map keyed by field name *)
      destruct (wf_struct_inv _ _ Hwf) as (Hnames & Hch & _).
      apply andb_true_iff in Hh as [Hf _].
      cbn [tdm_step kind_of kind_eqb]. destruct r; now apply (fields_round f_name).
    - (* a one-entry map keyed by the member's type name *)
      destruct (nth_error ms i) as [m|] eqn:En; [|discriminate].
      destruct (wf_union_inv _ _ Hwf) as [Hnames _]. destruct (wf_member _ _ _ _ Hwf En) as [Hc _].
      cbn [tdm_step]. rewrite En. cbn [kind_of kind_eqb].
      destruct r; exact (member_round m_name bytes_eqb ms i m v bytes_eqb_eq Hnames En Hc Hh).
    - cbn [tdm_step kind_of kind_eqb]. now rewrite Hh.
  Qed.

  Hypothesis Hrk : forall c d v, rc c d = Some v -> forall k, repr_kind c = Some k -> kind_of d = k.

  Let Hk : kinds_ok hs tr := fun c v Hh Hc => Hrk c _ v (Hrec c v Hh Hc).

  Lemma tuple_round fs : forall vs,
    Forall (fun f => wf (snd f) = true) fs -> has_fields hs fs vs = true ->
    trailing_opt (map is_absent vs) = true ->
    conf_tuple rc fs (map (fun x => repr_maybe tr (snd (fst x)) (snd x)) (present fs vs)) = Some vs.
  Proof.
    unfold present. induction fs as [|f fs IH]; intros vs Hch Hf Ht; destruct vs as [|v vs]; try discriminate; auto.
    inversion Hch as [|? ? Hc Hch']; subst. cbn in Hf. apply andb_true_iff in Hf as [Hm Hf].
    cbn [zip filter snd map]. cbn in Ht. destruct (is_absent v) eqn:Ea; cbn [negb].
    - (* every later slot is absent too: the tree ends here and the remaining fields are optional *)
      assert (Hall : forall gs ws, has_fields hs gs ws = true -> forallb (fun b => b) (map is_absent ws) = true ->
                 conf_tuple rc gs [] = Some ws).
      { clear. induction gs as [|g gs IHg]; intros ws Hf Ha; destruct ws as [|w ws]; try discriminate; auto.
        cbn in *. apply andb_true_iff in Hf as [Hm Hf]. apply andb_true_iff in Ha as [Hw Ha].
        destruct w; try discriminate. cbn in Hm. now rewrite Hm, (IHg ws Hf Ha). }
      fold (present fs vs). rewrite (all_absent_present fs vs Ht). cbn [map conf_tuple].
      destruct v; try discriminate. cbn in Hm. now rewrite Hm, (Hall fs vs Hf Ht).
    - cbn [map conf_tuple fst snd]. rewrite (conf_maybe_round _ _ _ _ Hc Hm Ea).
      rewrite (IH vs Hch' Hf Ht). reflexivity.
  Qed.

  Lemma pairs_round (g : (finfo * ty) * maybe tv -> dm) l :
    mapM (pair_of) (map (fun x : (finfo * ty) * maybe tv => DList [DString (f_name (fst (fst x))); g x]) l) =
    Some (map (fun x => (f_name (fst (fst x)), g x)) l).
  Proof. induction l as [|x l IH]; cbn; auto. now rewrite IH. Qed.

  Lemma join_round fs : forall vs,
    Forall (fun f => wf (snd f) = true) fs ->
    Forall (fun f => f_opt (fst f) = false /\ f_nul (fst f) = false /\ repr_kind (snd f) = Some KString) fs ->
    has_fields hs fs vs = true ->
    conf_join rc fs (map (fun x => str_of (repr_maybe tr (snd (fst x)) (snd x))) (zip fs vs)) = Some vs.
  Proof.
    induction fs as [|f fs IH]; intros vs Hch Hj Hf; destruct vs as [|v vs]; try discriminate; auto.
    inversion Hch as [|? ? Hc Hch']; subst. inversion Hj as [|? ? (Ho & Hn & Hks) Hj']; subst.
    cbn in Hf. apply andb_true_iff in Hf as [Hm Hf]. rewrite Ho, Hn in Hm.
    destruct v as [| |w]; cbn in Hm; try discriminate.
    cbn [zip map conf_join fst snd repr_maybe].
    rewrite <- (kinds_string _ _ _ _ Hk Hm Hc Hks), (Hrec _ _ Hm Hc), (IH vs Hch' Hj' Hf). reflexivity.
  Qed.

  Lemma repr_step_round t v :
    has_step hs tr t v = true -> wf t = true -> conf_step LRepr rc t (repr_step tr t v) = Some v.
  Proof.
    intros Hh Hwf. unfold conf_step.
    destruct t; destruct v; cbn [has_step] in Hh; try discriminate; try (destruct w; discriminate);
      try reflexivity.
    - cbn. destruct w; now rewrite Hh.
    - cbn [repr_step conf_scalar]. destruct (kind_eqb (kind_of d) KNull); [discriminate|]. now rewrite Hh.
    - cbn [repr_step kind_of kind_eqb]. now rewrite list_round.
    - cbn [repr_step kind_of kind_eqb]. apply andb_true_iff in Hh as [Hnd Hh].
      now rewrite map_fst_pair, Hnd, map_round.
    - destruct (wf_struct_inv _ _ Hwf) as (Hnames & Hch & Hloc).
      apply andb_true_iff in Hh as [Hf Hr].
      destruct r; cbn [repr_step kind_of kind_eqb].
      + now apply fields_round.
      + rewrite tuple_round; auto.
      + destruct Hloc as ([c ->] & Hne & Hj).
        rewrite split_join.
        * rewrite join_round; auto.
        * pose proof (has_fields_length _ _ _ Hf). destruct fs; [congruence|]. now destruct fs0.
        * apply Forall_forall. intros p Hp. apply in_map_iff in Hp as [x [<- Hx]].
          rewrite forallb_forall in Hr. specialize (Hr x Hx). now apply negb_true_iff in Hr.
      + rewrite pairs_round. now apply fields_round.
    - destruct (nth_error ms i) as [m|] eqn:En; [|discriminate].
      destruct (wf_union_inv _ _ Hwf) as [_ Hloc]. destruct (wf_member _ _ _ _ Hwf En) as [Hc Hm].
      pose proof (Hrec _ _ Hh Hc) as Hr.
      cbn [repr_step]. rewrite En.
      destruct r; cbn [kind_of kind_eqb].
      + exact (member_round m_disc bytes_eqb ms i m v bytes_eqb_eq Hloc En Hc Hh).
      + pose proof (member_round m_kind kind_eqb ms i m v kind_eqb_eq Hloc En Hc Hh) as G.
        rewrite <- (Hk _ _ Hh Hc _ Hm) in G.
        pose proof (Hrn _ _ _ Hr) as Hn. destruct (tr (snd m) v); try exact G. now elim Hn.
      + destruct Hm as [Hs Hfd].
        rewrite (kinds_string _ _ _ _ Hk Hh Hc Hs) in Hr |- *.
        cbn [str_of]. set (s := str_of (tr (snd m) v)) in *.
        assert (Hsp : sp_parse delim ms (m_disc (fst m) ++ delim ++ s) = Some (i, m, s)).
        { unfold sp_parse. destruct delim as [|c dl'].
          - cbn [app]. rewrite (find_idx_intro _ ms i m En (is_prefix_app _ _)), drop_app; [reflexivity|].
            (* an earlier member's discriminant is not a prefix of this string: it would be comparable with ours *)
            intros j y Hj Hy. destruct (is_prefix (m_disc (fst y)) (m_disc (fst m) ++ s)) eqn:Ep; auto.
            exfalso. apply is_prefix_app_cases in Ep.
            destruct (prefix_free_nth _ Hloc i j (m_disc (fst m)) (m_disc (fst y)) Hj) as [H1 H2];
              [now apply (map_nth_error (fun m0 : minfo * ty => m_disc (fst m0)))..|]. destruct Ep; congruence.
          - rewrite (first_delim_split (c :: dl') (m_disc (fst m)) s ltac:(discriminate) Hfd).
            rewrite (find_idx_unique (fun x : minfo * ty => m_disc (fst x)) ms i m Hloc En).
            reflexivity. }
        rewrite Hsp, Hr. reflexivity.
    - cbn [repr_step]. destruct (existsb_find _ _ Hh) as [x [Hx Hxs]]. rewrite Hx.
      apply find_name_In in Hx as [Hin Hname].
      unfold wf in Hwf. unfold wf_enum_local in Hwf. apply andb_true_iff in Hwf as [_ Hu].
      destruct int_repr; cbn [kind_of kind_eqb].
      + apply nodupz_NoDup in Hu.
        rewrite (find_unique_gen e_int Z.eqb es x Z.eqb_eq Hu Hin). now rewrite Hname.
      + apply nodupb_NoDup in Hu.
        rewrite (find_unique_gen e_str bytes_eqb es x bytes_eqb_eq Hu Hin). now rewrite Hname.
  Qed.
End Round.

Lemma conf_nonnull lvl n c d v : conf_f lvl n c d = Some v -> kind_of d <> KNull.
Proof. destruct n; [discriminate|apply conf_step_nonnull]. Qed.

Lemma conf_kinds n c d v : conf_f LRepr n c d = Some v -> forall k, repr_kind c = Some k -> kind_of d = k.
Proof. destruct n; [discriminate|apply conf_step_kinds]. Qed.

Theorem repr_round n : forall t v, has_f n t v = true -> wf t = true -> conf_f LRepr n t (repr_f n t v) = Some v.
Proof.
  induction n as [|n IH]; intros t v Hh Hwf; [discriminate|].
  exact (repr_step_round (has_f n) (repr_f n) _ IH (conf_nonnull LRepr n) (conf_kinds n) t v Hh Hwf).
Qed.

Theorem repr_kinds n : kinds_ok (has_f n) (repr_f n).
Proof. intros c v Hh Hc. exact (conf_kinds n c _ v (repr_round n c v Hh Hc)). Qed.

Theorem tdm_round n : forall t v, has_f n t v = true -> wf t = true -> conf_f LType n t (tdm_f n t v) = Some v.
Proof.
  induction n as [|n IH]; intros t v Hh Hwf; [discriminate|].
  exact (tdm_step_round (has_f n) (tdm_f n) _ IH (conf_nonnull LType n) (repr_f n) t v Hh Hwf).
Qed.
