(* Proofs/CborDec.v — the fuelled decoder model against the relation of Proofs/CborRel.v: totality (fuel is
   never exhausted); every accepted input is in the relation, was paid for in full and is no deeper than the maximum
   ([dec_rel]); everything in the relation is accepted when depth and budget allow ([rel_dec]); and the encode/decode
   round trip.  Also [sortv], the value the decoder rebuilds, and through it the encoder's independence of map entry
   order. *)
Require Import IP.Base.Bytes IP.DM.Value IP.Codec.Cid IP.Codec.Cbor IP.Codec.CborSpec IP.Gen.FromGo.
Require Import IP.Proofs.BytesFacts IP.Proofs.CborHead IP.Proofs.CborEnc IP.Proofs.CborRel.
From Coq Require Import ZifyN ZifyNat ZifyBool Permutation Sorted.
Open Scope N_scope.

Lemma dec_val_major f o depth bud pre tag bs mj a r :
  rd_head (negb (d_relaxed o)) bs = Some (mj, a, r) -> mj <? 7 = true ->
  dec_val (S f) o depth bud pre tag bs =
  dec_major (dec_val f o) (dec_items f o) (dec_entries f o) o depth bud pre tag mj a r.
Proof.
  intros H Hm. apply rd_head_inv in H as (b & t & -> & -> & Ea).
  apply N.ltb_lt, major_lt7 in Hm.
  assert (Hai : b mod 32 < 28) by (apply dec_arg_inv in Ea as [?|(w & lo & x & Hrow & _)]; [lia|apply row_ai in Hrow; lia]).
  (* the literal first bytes are 224 or more, or carry 31 as additional information *)
  assert (Hlit : (b =? 246) || (b =? 247) = false /\ (b =? 244) = false /\ (b =? 245) = false /\
                 (b =? 249) || (b =? 250) || (b =? 251) = false /\
                 (b =? 95) || (b =? 127) || (b =? 159) || (b =? 191) = false /\ (224 <=? b) = false) by (clear - Hm Hai; lia).
  destruct Hlit as (E1 & E2 & E3 & E4 & E5 & E6).
  cbn [dec_val dec_val_body]. now rewrite E1, E2, E3, E4, E5, E6, Ea.
Qed.

Fixpoint sortv (m : sortmode) (v : dm) : dm :=
  match v with
  | DList l => DList (map (sortv m) l)
  | DMap es => DMap (sort_entries m (map (fun kv => (fst kv, sortv m (snd kv))) es))
  | _ => v
  end.

Lemma sortv_sort_maps m ltb : (forall l : list (bytes * dm), sort_entries m l = sort_kv ltb l) ->
  forall v, sortv m v = sort_maps ltb v.
Proof.
  intros Hm. induction v as [| b | z | f | s | s | c | l IH | es IH] using dm_ind2; cbn [sortv sort_maps]; try reflexivity.
  - f_equal. now apply map_ext_Forall.
  - rewrite Hm. do 2 f_equal. apply map_ext_Forall. eapply Forall_impl; [|exact IH]. now intros kv ->.
Qed.

Lemma sortv_rfc v : sortv SortRFC7049 v = sort_maps rfc_ltb v.
Proof. now apply sortv_sort_maps. Qed.

Lemma sortv_lex v : sortv SortLexical v = sort_maps bytes_ltb v.
Proof. now apply sortv_sort_maps. Qed.

Lemma sortv_none v : sortv SortNone v = v.
Proof.
  induction v as [| b | z | f | s | s | c | l IH | es IH] using dm_ind2; cbn [sortv sort_entries]; try reflexivity.
  - f_equal. now apply map_id_Forall.
  - f_equal. now apply (map_snd_id_Forall (sortv SortNone)).
Qed.

Lemma encb_sortv m v : encb m v = encb SortNone (sortv m v).
Proof.
  induction v as [| b | z | f | s | s | c | l IH | es IH] using dm_ind2; try reflexivity.
  - cbn [sortv encb]. unfold lenN. rewrite map_length, map_map. do 2 f_equal. now apply map_ext_Forall.
  - cbn [sortv]. rewrite !encb_map. cbn [sort_entries]. rewrite sort_entries_map_snd, map_map. cbn [fst snd].
    pose proof (sort_entries_perm m es) as HP.
    f_equal; [unfold lenN; now rewrite map_length, (Permutation_length HP)|]. f_equal. apply map_ext_Forall.
    eapply Permutation_Forall; [exact HP|]. eapply Forall_impl; [|exact IH]. now intros kv ->.
Qed.

Theorem sortv_perm m v1 : m <> SortNone -> forall v2, perm_eq v1 v2 -> keys_nodup v1 -> sortv m v1 = sortv m v2.
Proof.
  intros Hm. induction v1 as [| x | z | f | s | s | c | l IH | es IH] using dm_ind2; intros v2 Hp Hnd;
    inversion Hp as [|? l2 HF|? m2 m2' HF HP]; subst; try reflexivity; cbn [sortv].
  - f_equal. apply keys_nodup_list in Hnd. clear Hp. induction HF as [|a b r r' Hab _ IHr]; [reflexivity|].
    inversion IH as [|? ? Ha IHt]; inversion Hnd as [|? ? Na Nt]; subst. cbn [map].
    f_equal; [exact (Ha _ Hab Na)|exact (IHr IHt Nt)].
  - f_equal. apply keys_nodup_map in Hnd as [ND Hv].
    (* entry by entry the sorted forms agree with those of the unpermuted m2; then the sort forgets the order *)
    assert (E : map (fun kv => (fst kv, sortv m (snd kv))) es = map (fun kv => (fst kv, sortv m (snd kv))) m2).
    { clear HP ND Hp. induction HF as [|a b r r' [Hk Hab] _ IHr]; [reflexivity|].
      inversion IH as [|? ? Ha IHt]; inversion Hv as [|? ? Na Nt]; subst. cbn [map]. f_equal; [|exact (IHr IHt Nt)].
      rewrite Hk. f_equal. exact (Ha _ Hab Na). }
    rewrite E. apply sort_entries_perm_invariant; [assumption| |now apply Permutation_map].
    now rewrite <- E, map_fst_pair.
Qed.

Theorem encb_perm_invariant m v1 v2 : m <> SortNone -> perm_eq v1 v2 -> keys_nodup v1 -> encb m v1 = encb m v2.
Proof. intros Hm Hp Hk. now rewrite (encb_sortv m v1), (encb_sortv m v2), (sortv_perm m v1 Hm v2 Hp Hk). Qed.

(* what the decoder charges against the allocation budget for a value *)
Fixpoint cost (v : dm) : Z :=
  match v with
  | DNull => 0
  | DBool _ | DInt _ | DFloat _ => 1
  | DString s | DBytes s => Z.of_N (lenN s)
  | DLink c => Z.of_N (lenN c) + 1
  | DList l => Z.of_N (lenN l) + fold_right (fun x a => go_listEntryCost + cost x + a) 0 l
  | DMap es => Z.of_N (lenN es) +
               fold_right (fun kv a => Z.of_N (lenN (fst kv)) + go_mapEntryCost + cost (snd kv) + a) 0 es
  end%Z.

Definition isum (l : list dm) : Z := fold_right (fun x a => go_listEntryCost + cost x + a)%Z 0%Z l.
Definition esum (l : list (bytes * dm)) : Z :=
  fold_right (fun kv a => Z.of_N (lenN (fst kv)) + go_mapEntryCost + cost (snd kv) + a)%Z 0%Z l.

Lemma cost_list l : cost (DList l) = (Z.of_N (lenN l) + isum l)%Z.
Proof. reflexivity. Qed.
Lemma cost_map es : cost (DMap es) = (Z.of_N (lenN es) + esum es)%Z.
Proof. reflexivity. Qed.

Lemma isum_nonneg_of l : Forall (fun x => 0 <= cost x)%Z l -> (0 <= isum l)%Z.
Proof.
  induction 1 as [|x r Hx _ IH]; [cbn; lia|]. cbn [isum fold_right]. fold (isum r). unfold go_listEntryCost. lia.
Qed.
Lemma esum_nonneg_of (es : list (bytes * dm)) : Forall (fun kv => 0 <= cost (snd kv))%Z es -> (0 <= esum es)%Z.
Proof.
  induction 1 as [|x r Hx _ IH]; [cbn; lia|]. cbn [esum fold_right]. fold (esum r). unfold go_mapEntryCost. lia.
Qed.

Lemma cost_nonneg v : (0 <= cost v)%Z.
Proof.
  induction v as [| b | z | f | s | s | c | l IH | es IH] using dm_ind2; try (cbn [cost]; lia).
  - rewrite cost_list. apply isum_nonneg_of in IH. lia.
  - rewrite cost_map. apply esum_nonneg_of in IH. lia.
Qed.

Lemma isum_nonneg l : (0 <= isum l)%Z.
Proof. apply isum_nonneg_of, Forall_forall. intros; apply cost_nonneg. Qed.
Lemma esum_nonneg es : (0 <= esum es)%Z.
Proof. apply esum_nonneg_of, Forall_forall. intros; apply cost_nonneg. Qed.

Lemma esum_perm es es' : Permutation es es' -> esum es = esum es'.
Proof. apply fold_right_perm. intros; lia. Qed.

Lemma cost_sortv m v : cost (sortv m v) = cost v.
Proof.
  induction v as [| b | z | f | s | s | c | l IH | es IH] using dm_ind2; cbn [sortv]; try reflexivity.
  - rewrite !cost_list. unfold lenN, isum. rewrite map_length. f_equal.
    induction IH as [|x r Hx _ IHr]; [reflexivity|]. cbn [map fold_right]. now rewrite Hx, IHr.
  - rewrite !cost_map. pose proof (sort_entries_perm m (map (fun kv => (fst kv, sortv m (snd kv))) es)) as HP.
    rewrite <- (esum_perm _ _ HP). unfold lenN, esum. rewrite <- (Permutation_length HP), map_length. f_equal. clear HP.
    induction IH as [|x r Hx _ IHr]; [reflexivity|]. cbn [map fold_right fst snd]. now rewrite Hx, IHr.
Qed.

Lemma depth_sortv m v : dm_depth (sortv m v) = dm_depth v.
Proof.
  induction v as [| b | z | f | s | s | c | l IH | es IH] using dm_ind2; cbn [sortv dm_depth]; try reflexivity; f_equal.
  - induction IH as [|x r Hx _ IHr]; [reflexivity|]. cbn [map fold_right]. now rewrite Hx, IHr.
  - transitivity (fold_right (fun kv a => Nat.max (dm_depth (snd kv)) a) 0%nat (map (fun kv => (fst kv, sortv m (snd kv))) es)).
    { symmetry. apply fold_right_perm; [intros; lia | apply sort_entries_perm]. }
    induction IH as [|x r Hx _ IHr]; [reflexivity|]. cbn [map fold_right snd]. now rewrite Hx, IHr.
Qed.

Definition pcost (pre : option Z) : Z := match pre with Some c => c | None => 0%Z end.

Definition paid (bud b c : Z) : Prop := (b = bud - c /\ (0 <= bud -> 0 <= b))%Z.

Lemma spend_ok b c : (c <= b)%Z -> spend b c = Ok (b - c)%Z.
Proof. intros H. unfold spend. destruct (Z.ltb_spec (b - c) 0); [lia|reflexivity]. Qed.

Lemma prespend_ok bud pre : (pcost pre <= bud)%Z -> prespend bud pre = Ok (bud - pcost pre)%Z.
Proof.
  destruct pre as [c|]; cbn [prespend pcost]; intros H; [now apply spend_ok|]. f_equal. lia.
Qed.

Local Notation good := (Fine (fun e : derr => e <> DFuel)).

Lemma spend_good bud c : good (fun b => b = bud - c /\ 0 <= b)%Z (spend bud c).
Proof. unfold spend. destruct (Z.ltb_spec (bud - c) 0); cbn; [discriminate|lia]. Qed.

Lemma prespend_good bud pre : good (fun b => paid bud b (pcost pre)) (prespend bud pre).
Proof.
  unfold paid. destruct pre as [c|]; cbn [prespend pcost]; [|cbn; lia].
  eapply Fine_impl; [apply spend_good|]. cbv beta. lia.
Qed.

Section Post.
  Variable o : dopts.

  Lemma post_ok bud pre tag k : untagged o tag -> (pcost pre <= bud)%Z -> post o bud pre tag k = k (bud - pcost pre)%Z.
  Proof.
    intros Hu H. unfold post. rewrite prespend_ok by assumption. cbn [bind].
    destruct tag; [cbn in Hu; now rewrite Hu|reflexivity].
  Qed.

  Lemma post_good bud pre tag k (Q : dm * Z * bytes -> Prop) :
    (untagged o tag -> forall b1, paid bud b1 (pcost pre) -> good Q (k b1)) -> good Q (post o bud pre tag k).
  Proof.
    intros Hk. unfold post. eapply Fine_bind; [apply prespend_good|]. intros b1 Hb1.
    destruct tag; cbn [untagged] in Hk; [destruct (d_reject_tags o); [discriminate|]|]; auto.
  Qed.

  (* the shape of every scalar branch: charge [pre], refuse a tag, charge [c], return *)
  Lemma post_spend_ok bud pre tag c (v : dm) r : untagged o tag -> (0 <= c)%Z -> (pcost pre + c <= bud)%Z ->
    post o bud pre tag (fun b1 => do b' <- spend b1 c; Ok (v, b', r)) = Ok (v, (bud - pcost pre - c)%Z, r).
  Proof. intros Hu Hc Hb. rewrite post_ok by (assumption || lia). rewrite spend_ok by lia. reflexivity. Qed.
End Post.

Definition len_of (bs : bytes) : nat := length bs.

Section Rel.
  Variable o : dopts.
  Local Notation strict := (negb (d_relaxed o)).
  Local Notation maxd := (max_depth o).
  Local Notation idepth := (fold_right (fun x a => Nat.max (dm_depth x) a) 0%nat).
  Local Notation edepth := (fold_right (fun kv a => Nat.max (dm_depth (snd kv)) a) 0%nat).

  (* One induction on the fuel.  Every recursive call is on a strictly shorter input (an accepted item is at least
     one byte long, [rel_shorter]), or on the same input one level down from an item to its first element: fuel
     2*|input|+k is never used up. *)
  Lemma dec_rel : forall f,
    (forall d bud pre tag bs, (2 * length bs < f)%nat ->
       good (fun '(v, b, r) => DecV o tag bs v r /\ paid bud b (pcost pre + cost v) /\
                               (d <= maxd -> d + Z.of_nat (dm_depth v) <= maxd)%Z) (dec_val f o d bud pre tag bs)) /\
    (forall d bud n bs, (2 * length bs + 1 < f)%nat ->
       good (fun '(vs, b, r) => DecI o bs vs r /\ lenN vs = n /\ paid bud b (isum vs) /\
                                (d + 1 <= maxd -> d + 1 + Z.of_nat (idepth vs) <= maxd)%Z)
            (dec_items f o d bud n bs)) /\
    (forall d bud n seen bs, (2 * length bs + 1 < f)%nat ->
       good (fun '(es, b, r) => DecE o seen bs es r /\ lenN es = n /\ paid bud b (esum es) /\
                                (d + 1 <= maxd -> d + 1 + Z.of_nat (edepth es) <= maxd)%Z)
            (dec_entries f o d bud n seen bs)).
  Proof.
    induction f as [|f (IHv & IHi & IHe)]; [repeat split; intros; lia|].
    destruct (rel_shorter o) as [Hsh _]. split; [|split].
    - intros d bud pre tag bs Hf. cbn [dec_val]. unfold dec_val_body.
      assert (Hsc : forall c v0 r0, (untagged o tag -> DecV o tag bs v0 r0) -> cost v0 = c -> dm_depth v0 = 0%nat ->
                good (fun '(v, b, r) => DecV o tag bs v r /\ paid bud b (pcost pre + cost v) /\
                                        (d <= maxd -> d + Z.of_nat (dm_depth v) <= maxd)%Z)
                     (post o bud pre tag (fun b1 => do b' <- spend b1 c; Ok (v0, b', r0)))).
      { intros c v0 r0 Hd <- Hz. apply post_good. intros Hu b1 Hb1. eapply Fine_bind; [apply spend_good|]. intros b' Hb'.
        split; [auto|]. rewrite Hz. unfold paid in *. lia. }
      destruct bs as [|b0 t]; [discriminate|]. cbn [length] in Hf.
      destruct ((b0 =? 246) || (b0 =? 247)) eqn:E0.
      { apply post_good. intros Hu b1 Hp. split; [now constructor|]. cbn [cost dm_depth]. rewrite !Z.add_0_r. auto. }
      destruct (N.eqb_spec b0 244) as [->|]; [apply Hsc; [apply (DvBool o tag false)|reflexivity..]|].
      destruct (N.eqb_spec b0 245) as [->|]; [apply Hsc; [apply (DvBool o tag true)|reflexivity..]|].
      fold (is_float b0) (float_width b0). destruct (is_float b0) eqn:Ef.
      { destruct (take _ t) as [[x r1]|] eqn:Et; [|discriminate]. fold (float_bits b0 (unbe x 0)).
        destruct (check_float _ _) as [fv|] eqn:Ec; [|discriminate]. apply take_some in Et as [-> Hl].
        apply check_float_iff in Ec as [-> Hfin]. apply Hsc; [intros; now apply DvFloat|reflexivity..]. }
      destruct ((b0 =? 95) || (b0 =? 127) || (b0 =? 159) || (b0 =? 191)); [discriminate|].
      destruct (N.leb_spec 224 b0) as [|Hm]; [discriminate|]. apply major_lt7 in Hm.
      pose proof (rd_head_dec_arg strict b0 t) as Hrd.
      destruct (dec_arg _ (b0 mod 32) t) as [[a r1]|] eqn:Ea; [|discriminate]. apply dec_arg_rest in Ea.
      revert Hrd Hm. generalize (b0 / 32). intros mj Hrd Hm. unfold dec_major.
      destruct (N.eqb_spec mj 0) as [->|]; [apply Hsc; [intros; now apply DvUint|reflexivity..]|].
      destruct (N.eqb_spec mj 1) as [->|].
      { destruct (N.ltb_spec two63 ((a + 1) mod two64)); [discriminate|].
        apply Hsc; [intros; now apply DvNint|reflexivity..]. }
      destruct (N.leb_spec two63 a); [discriminate|].
      destruct (N.eqb_spec mj 2) as [->|].
      { destruct (N.ltb_spec str_cap a); [discriminate|]. destruct (take a r1) as [[s r2]|] eqn:Et; [|discriminate].
        apply take_some in Et as [-> <-].
        eapply Fine_bind; [apply prespend_good|]. intros b1 Ep. eapply Fine_bind; [apply spend_good|]. intros b2 Es.
        destruct tag as [tg|].
        - destruct (N.eqb_spec tg go_linkTag) as [->|]; [|discriminate]. destruct (d_allow_links o) eqn:El; [|discriminate].
          destruct s as [|[|p] c]; try discriminate. destruct (cid_valid c) eqn:Ec; [|discriminate]. rewrite lenN_cons in *.
          split; [now apply DvLink|]. cbn [cost dm_depth]. unfold paid in *. lia.
        - split; [now apply DvBytes|]. cbn [cost dm_depth]. unfold paid in *. lia. }
      destruct (N.eqb_spec mj 3) as [->|].
      { destruct (N.ltb_spec str_cap a); [discriminate|]. destruct (take a r1) as [[s r2]|] eqn:Et; [|discriminate].
        apply take_some in Et as [-> <-]. apply Hsc; [intros; now apply DvString|reflexivity..]. }
      destruct (N.eqb_spec mj 4) as [->|].
      { apply post_good. intros Hu b1 Hp. destruct (Z.leb_spec maxd d); [discriminate|].
        eapply Fine_bind; [apply spend_good|]. intros b2 Es.
        eapply Fine_bind; [apply IHi; lia|]. intros [[vs b3] r3] (Hd & <- & Hb & Hdp).
        split; [now apply DvList with r1|]. rewrite cost_list. cbn [dm_depth].
        unfold paid in *. lia. }
      destruct (N.eqb_spec mj 5) as [->|].
      { apply post_good. intros Hu b1 Hp. destruct (Z.leb_spec maxd d); [discriminate|].
        eapply Fine_bind; [apply spend_good|]. intros b2 Es.
        eapply Fine_bind; [apply IHe; lia|]. intros [[vs b3] r3] (Hd & <- & Hb & Hdp).
        split; [now apply DvMap with r1|]. rewrite cost_map. cbn [dm_depth].
        unfold paid in *. lia. }
      destruct tag; [discriminate|]. assert (mj = 6) as -> by lia.
      eapply Fine_impl; [apply IHv; lia|]. intros [[v b] r] (Hd & Hb). split; [|exact Hb].
      now apply DvTag with a r1.
    - intros d bud n bs Hf. cbn [dec_items]. unfold dec_items_body.
      destruct (N.eqb_spec n 0) as [->|]; [split; [constructor|split; [reflexivity|split; [unfold paid; cbn; lia|cbn; lia]]]|].
      eapply Fine_bind; [apply IHv; lia|]. intros [[v b2] bs2] (Hd & Hb & Hdp). pose proof (Hsh _ _ _ _ Hd).
      eapply Fine_bind; [apply IHi; lia|]. intros [[vs' b3] bs3] (Hd2 & Hl2 & Hb2 & Hdp2). split; [now apply DiCons with bs2|].
      rewrite lenN_cons. cbn [isum fold_right pcost] in *. fold (isum vs'). unfold paid in *. repeat split; lia.
    - intros d bud n seen bs Hf. cbn [dec_entries]. unfold dec_entries_body.
      destruct (N.eqb_spec n 0) as [->|]; [split; [constructor|split; [reflexivity|split; [unfold paid; cbn; lia|cbn; lia]]]|].
      destruct (dec_key _ _ bs) as [[k bs1]|] eqn:Ek; [|discriminate]. apply dec_key_iff in Ek. pose proof (Hsh _ _ _ _ Ek).
      eapply Fine_bind; [apply spend_good|]. intros bud1 Es. destruct (existsb _ seen) eqn:Ex; [discriminate|].
      eapply Fine_bind; [apply IHv; lia|]. intros [[v b2] bs2] (Hd & Hb & Hdp). pose proof (Hsh _ _ _ _ Hd).
      eapply Fine_bind; [apply IHe; lia|]. intros [[es' b3] bs3] (Hd2 & Hl2 & Hb2 & Hdp2). split; [now apply DeCons with bs1 bs2|].
      rewrite lenN_cons. cbn [esum fold_right pcost fst snd] in *. fold (esum es'). unfold paid in *. repeat split; lia.
  Qed.
End Rel.

(* indefinite lengths are refused by every option setting, relaxed mode too *)
Lemma decode_indefinite o b r : In b [95; 127; 159; 191] -> decode o (b :: r) = Err DOther.
Proof.
  intros Hin. unfold decode, dec_fuel. cbn [length Nat.mul Nat.add dec_val]. unfold dec_val_body.
  cbn in Hin. destruct Hin as [<-|[<-|[<-|[<-|[]]]]]; reflexivity.
Qed.

Lemma max_depth_pos o : (0 < max_depth o)%Z.
Proof. unfold max_depth. destruct (Z.ltb_spec 0 (d_max_depth o)); [assumption|]. unfold go_defaultMaxDepth. lia. Qed.

Lemma decode_fine o bs :
  good (fun '(v, rest) => DecV o None bs v rest /\ (Z.of_nat (dm_depth v) <= max_depth o)%Z /\
                          (0 <= budget0 o -> cost v <= budget0 o)%Z /\ (d_dont_parse_beyond o = false -> rest = []))
       (decode o bs).
Proof.
  unfold decode. assert (Hv := proj1 (dec_rel o (dec_fuel bs)) 0%Z (budget0 o) None None bs ltac:(unfold dec_fuel; lia)).
  destruct (dec_val _ o 0 (budget0 o) None None bs) as [[[v b] r]|]; [|exact Hv]. destruct Hv as (Hd & [Hb Hn] & Hdp).
  pose proof (max_depth_pos o). cbn [pcost] in Hb.
  destruct (d_dont_parse_beyond o); [|destruct r; [|discriminate]]; (split; [exact Hd|split; [lia|split; [lia|congruence]]]).
Qed.

(* C10 (decoder part): for every configuration and every input the decoder terminates with a value
   or an error — the out-of-fuel outcome of the model is unreachable *)
Theorem decode_total o bs : decode o bs <> Err DFuel.
Proof. intros E. pose proof (decode_fine o bs) as H. rewrite E in H. now apply H. Qed.

Definition upto {A} (r : res derr A) (x : A) : Prop := r = Ok x \/ r = Err DFuel.

Lemma upto_bind {A B} (r : res derr A) x (k : A -> res derr B) y : upto r x -> upto (k x) y -> upto (bind r k) y.
Proof. intros [->| ->] H; [exact H|right; reflexivity]. Qed.

Section RelDec.
  Variable o : dopts.
  Local Notation strict := (negb (d_relaxed o)).
  Local Notation maxd := (max_depth o).
  Local Notation idepth := (fold_right (fun x a => Nat.max (dm_depth x) a) 0%nat).
  Local Notation edepth := (fold_right (fun kv a => Nat.max (dm_depth (snd kv)) a) 0%nat).

  Lemma rel_dec :
    (forall tag bs v r, DecV o tag bs v r -> forall f d bud pre, (pcost pre + cost v <= bud)%Z ->
       (d + Z.of_nat (dm_depth v) <= maxd)%Z ->
       upto (dec_val f o d bud pre tag bs) (v, (bud - pcost pre - cost v)%Z, r)) /\
    (forall bs vs r, DecI o bs vs r -> forall f d bud, (isum vs <= bud)%Z ->
       (d + 1 + Z.of_nat (idepth vs) <= maxd)%Z ->
       upto (dec_items f o d bud (lenN vs) bs) (vs, (bud - isum vs)%Z, r)) /\
    (forall seen bs es r, DecE o seen bs es r -> forall f d bud, (esum es <= bud)%Z ->
       (d + 1 + Z.of_nat (edepth es) <= maxd)%Z ->
       upto (dec_entries f o d bud (lenN es) seen bs) (es, (bud - esum es)%Z, r)).
  Proof.
    apply Dec_ind.
    - intros tag b r Hb Hu [|f] d bud pre Hc _; [now right|left]. cbn [dec_val dec_val_body cost] in *. rewrite Hb.
      rewrite post_ok by (assumption || lia). now rewrite Z.sub_0_r.
    - intros tag x r Hu [|f] d bud pre Hc _; [now right|left]. cbn [cost] in *.
      destruct x; cbn [dec_val dec_val_body N.eqb Pos.eqb orb]; now apply post_spend_ok.
    - intros tag b x r fv Hf Hl -> Hfin Hu [|f] d bud pre Hc _; [now right|left]. cbn [cost] in *.
      cbn [dec_val dec_val_body]. fold (is_float b) (float_width b). rewrite <- Hl, take_app. fold (float_bits b (unbe x 0)).
      rewrite (proj2 (check_float_iff _ _ _) (conj eq_refl Hfin)).
      unfold is_float in Hf. apply orb_prop in Hf as [Hf|Hf]; [apply orb_prop in Hf as [Hf|Hf]|]; apply N.eqb_eq in Hf; subst b;
        cbn [N.eqb Pos.eqb orb]; now apply post_spend_ok.
    - intros tag bs a r Hrd Hu [|f] d bud pre Hc _; [now right|left]. cbn [cost] in *.
      rewrite (dec_val_major _ _ _ _ _ _ _ _ _ _ Hrd eq_refl). unfold dec_major. cbn [N.eqb]. now apply post_spend_ok.
    - intros tag bs a r Hrd Ha Hu [|f] d bud pre Hc _; [now right|left]. cbn [cost] in *.
      rewrite (dec_val_major _ _ _ _ _ _ _ _ _ _ Hrd eq_refl). unfold dec_major. cbn [N.eqb Pos.eqb].
      destruct (N.ltb_spec two63 ((a + 1) mod two64)); [lia|]. now apply post_spend_ok.
    - intros bs s r Hrd Ha [|f] d bud pre Hc _; [now right|left]. cbn [cost] in *.
      rewrite (dec_val_major _ _ _ _ _ _ _ _ _ _ Hrd eq_refl). unfold dec_major. cbn [N.eqb Pos.eqb].
      destruct (N.leb_spec two63 (lenN s)); [unfold two63, str_cap in *; lia|]. destruct (N.ltb_spec str_cap (lenN s)); [lia|].
      rewrite take_app, prespend_ok by lia. cbn [bind]. rewrite spend_ok by lia. reflexivity.
    - intros bs c r Hrd Ha Hl Hcid [|f] d bud pre Hc _; [now right|left]. cbn [cost] in *.
      rewrite (dec_val_major _ _ _ _ _ _ _ _ _ _ Hrd eq_refl). unfold dec_major. cbn [N.eqb Pos.eqb].
      destruct (N.leb_spec two63 (lenN c + 1)); [unfold two63, str_cap in *; lia|]. destruct (N.ltb_spec str_cap (lenN c + 1)); [lia|].
      rewrite take_cons_app, prespend_ok by lia. cbn [bind]. rewrite spend_ok by lia. cbn [bind].
      rewrite N.eqb_refl, Hl, Hcid. cbn [andb cost]. do 3 f_equal. lia.
    - intros tag bs s r Hrd Ha Hu [|f] d bud pre Hc _; [now right|left]. cbn [cost] in *.
      rewrite (dec_val_major _ _ _ _ _ _ _ _ _ _ Hrd eq_refl). unfold dec_major. cbn [N.eqb Pos.eqb].
      destruct (N.leb_spec two63 (lenN s)); [unfold two63, str_cap in *; lia|]. destruct (N.ltb_spec str_cap (lenN s)); [lia|].
      rewrite take_app. apply post_spend_ok; (assumption || lia).
    - intros tag bs r vs r' Hrd Ha Hu Hi IH [|f] d bud pre Hc Hd; [now right|].
      pose proof (isum_nonneg vs). rewrite cost_list in *. cbn [dm_depth] in Hd.
      rewrite (dec_val_major _ _ _ _ _ _ _ _ _ _ Hrd eq_refl). unfold dec_major. cbn [N.eqb Pos.eqb].
      destruct (N.leb_spec two63 (lenN vs)); [lia|]. rewrite post_ok by (assumption || lia).
      destruct (Z.leb_spec maxd d); [lia|]. rewrite spend_ok by lia. cbn [bind].
      eapply upto_bind; [apply IH; lia|left; do 3 f_equal; lia].
    - intros tag bs r es r' Hrd Ha Hu He IH [|f] d bud pre Hc Hd; [now right|].
      pose proof (esum_nonneg es). rewrite cost_map in *. cbn [dm_depth] in Hd.
      rewrite (dec_val_major _ _ _ _ _ _ _ _ _ _ Hrd eq_refl). unfold dec_major. cbn [N.eqb Pos.eqb].
      destruct (N.leb_spec two63 (lenN es)); [lia|]. rewrite post_ok by (assumption || lia).
      destruct (Z.leb_spec maxd d); [lia|]. rewrite spend_ok by lia. cbn [bind].
      eapply upto_bind; [apply IH; lia|left; do 3 f_equal; lia].
    - intros bs a r v r' Hrd Ha _ IH [|f] d bud pre Hc Hd; [now right|].
      rewrite (dec_val_major _ _ _ _ _ _ _ _ _ _ Hrd eq_refl). unfold dec_major. cbn [N.eqb Pos.eqb].
      destruct (N.leb_spec two63 a); [lia|]. now apply IH.
    - intros bs [|f] d bud Hc _; [now right|left]. cbn. do 3 f_equal. lia.
    - intros bs v bs1 vs bs2 _ IHv _ IHi [|f] d bud Hc HD; [now right|].
      cbn [isum fold_right] in *. fold (isum vs) in *. pose proof (isum_nonneg vs).
      cbn [dec_items]. unfold dec_items_body. rewrite lenN_cons, N.add_sub. destruct (N.eqb_spec (lenN vs + 1) 0); [lia|].
      eapply upto_bind; [apply IHv; cbn [pcost]; unfold go_listEntryCost in *; (assumption || lia)|]. cbn [pcost].
      eapply upto_bind; [apply IHi; (assumption || lia)|]. left. do 3 f_equal. lia.
    - intros seen bs [|f] d bud Hc _; [now right|left]. cbn. do 3 f_equal. lia.
    - intros seen bs k bs1 v bs2 es bs3 Hk _ Hs _ IHv _ IHe [|f] d bud Hc HD; [now right|].
      apply dec_key_iff in Hk.
      cbn [esum fold_right fst snd] in *. fold (esum es) in *. pose proof (esum_nonneg es). pose proof (cost_nonneg v).
      cbn [dec_entries]. unfold dec_entries_body. rewrite lenN_cons, N.add_sub. destruct (N.eqb_spec (lenN es + 1) 0); [lia|].
      rewrite Hk, spend_ok by (unfold go_mapEntryCost in *; lia). cbn [bind]. rewrite Hs.
      eapply upto_bind; [apply IHv; cbn [pcost]; (assumption || lia)|]. cbn [pcost].
      eapply upto_bind; [apply IHe; (assumption || lia)|]. left. do 3 f_equal. lia.
  Qed.

  Lemma decode_ok_rel bs v rest : decode o bs = Ok (v, rest) ->
    DecV o None bs v rest /\ (Z.of_nat (dm_depth v) <= maxd)%Z /\ (0 <= budget0 o -> cost v <= budget0 o)%Z /\
    (d_dont_parse_beyond o = false -> rest = []).
  Proof. intros E. pose proof (decode_fine o bs) as H. now rewrite E in H. Qed.

  Lemma decode_rel_ok bs v rest : DecV o None bs v rest -> (Z.of_nat (dm_depth v) <= maxd)%Z -> (cost v <= budget0 o)%Z ->
    (d_dont_parse_beyond o = false -> rest = []) -> decode o bs = Ok (v, rest).
  Proof.
    intros Hd Hdp Hc Hr. unfold decode.
    destruct rel_dec as [Hv _]. destruct (Hv _ _ _ _ Hd (dec_fuel bs) 0%Z (budget0 o) None) as [->|E]; cbn [pcost]; try lia.
    - destruct (d_dont_parse_beyond o); [reflexivity|]. now rewrite Hr.
    - destruct (decode_total o bs). unfold decode. now rewrite E.
  Qed.
End RelDec.

(* values in the range the round trip is claimed for: CborEnc.int_ok's range for ints, distinct keys (rt_ok_keys_nodup
   below), CborComplete.lim_ok's sizes, and finite floats, valid CIDs *)
Fixpoint rt_ok (v : dm) : Prop :=
  match v with
  | DInt z => (- two63z <= z < two64z)%Z
  | DFloat f => f < two64 /\ f64_finite f = true
  | DString s | DBytes s => lenN s <= str_cap
  | DLink c => cid_valid c = true /\ lenN c + 1 <= str_cap
  | DList l => lenN l < two63 /\
               (fix all (l : list dm) := match l with [] => True | x :: r => rt_ok x /\ all r end) l
  | DMap es => lenN es < two63 /\ NoDup (map fst es) /\
               (fix all (es : list (bytes * dm)) :=
                  match es with [] => True | (k, x) :: r => lenN k <= str_cap /\ rt_ok x /\ all r end) es
  | _ => True
  end.

Lemma rt_ok_list l : rt_ok (DList l) <-> lenN l < two63 /\ Forall rt_ok l.
Proof. cbn [rt_ok]. now rewrite all_Forall. Qed.

Lemma rt_ok_map es : rt_ok (DMap es) <->
  lenN es < two63 /\ NoDup (map fst es) /\ Forall (fun kv => lenN (fst kv) <= str_cap /\ rt_ok (snd kv)) es.
Proof. cbn [rt_ok]. now rewrite (all_kv_Forall (fun k => lenN k <= str_cap)). Qed.

Section RoundTrip.
  Variable m : sortmode.
  Variable o : dopts.
  Hypothesis Hlinks : d_allow_links o = true.
  Local Notation strict := (negb (d_relaxed o)).

  Lemma perm_fold_max {A} (g : A -> nat) (l1 l2 : list A) : Permutation l1 l2 ->
    fold_right (fun x a => Nat.max (g x) a) 0%nat l1 = fold_right (fun x a => Nat.max (g x) a) 0%nat l2.
  Proof using o. clear Hlinks. apply fold_right_perm. intros; lia. Qed.

  Definition rt_stmt (v : dm) : Prop := rt_ok v -> forall t, DecV o None (encb m v ++ t) (sortv m v) t.

  Lemma rt_items l : Forall rt_stmt l -> Forall rt_ok l -> forall t,
    DecI o (concat (map (encb m) l) ++ t) (map (sortv m) l) t.
  Proof.
    induction 1 as [|x r Hx _ IH]; intros HO t; [constructor|].
    inversion HO; subst. cbn [map concat]. rewrite <- app_assoc.
    apply DiCons with (concat (map (encb m) r) ++ t); [now apply Hx|now apply IH].
  Qed.

  Lemma rt_string s t : lenN s <= str_cap -> DecV o None (enc_str s ++ t) (DString s) t.
  Proof.
    intros Hs. unfold enc_str. rewrite <- app_assoc.
    apply DvString; [apply rd_head_of_head; unfold two64, str_cap in *; lia|exact Hs|exact I].
  Qed.

  Lemma rt_entries es : Forall (fun kv => rt_stmt (snd kv)) es ->
    Forall (fun kv => lenN (fst kv) <= str_cap /\ rt_ok (snd kv)) es -> forall seen t,
    NoDup (rev seen ++ map fst es) ->
    DecE o seen (concat (map (fun kv => enc_str (fst kv) ++ encb m (snd kv)) es) ++ t)
         (map (fun kv => (fst kv, sortv m (snd kv))) es) t.
  Proof.
    induction 1 as [|[k x] r Hx _ IH]; intros HO seen t Hnd; [constructor|].
    inversion HO as [|? ? [HOk HOx] HOr]; subst. cbn [map fst snd] in *. destruct (seen_fresh _ _ _ Hnd) as [Hk Hnd'].
    cbn [concat]. rewrite <- !app_assoc.
    eapply DeCons; [now apply rt_string|exact Hk|now apply Hx|now apply IH].
  Qed.

  Theorem rt_all v : rt_stmt v.
  Proof.
    induction v as [| b | z | f | s | s | c | l IH | es IH] using dm_ind2; intros Hok t; cbn [sortv].
    - exact (DvNull o None 246 t eq_refl I).
    - destruct b; [exact (DvBool o None true t I)|exact (DvBool o None false t I)].
    - cbn [rt_ok encb] in *. unfold enc_int, two63z, two64z in *. destruct (Z.leb_spec 0 z).
      + rewrite <- (Z2N.id z) at 2 by assumption. apply DvUint; [apply rd_head_of_head; unfold two64; lia|exact I].
      + assert (E : (Z.to_N (-1 - z) + 1) mod two64 = Z.to_N (- z)) by (rewrite N.mod_small; unfold two64; lia).
        replace z with (- Z.of_N ((Z.to_N (-1 - z) + 1) mod two64))%Z at 2 by (rewrite E; lia).
        apply DvNint; [apply rd_head_of_head; unfold two64; lia|rewrite E; unfold two63; lia|exact I].
    - destruct Hok as [Hlt Hfin]. cbn [encb]. change (251 :: be 8 f ++ t) with (251 :: (be 8 f ++ t)).
      apply DvFloat; [reflexivity|unfold lenN; now rewrite be_length| |rewrite Hfin; apply andb_false_r|exact I].
      cbn [float_bits N.eqb Pos.eqb]. now rewrite (unbe_be 8) by (unfold two64 in Hlt; cbn; lia).
    - exact (rt_string s t Hok).
    - cbn [rt_ok encb] in *. rewrite <- app_assoc.
      apply DvBytes; [apply rd_head_of_head; unfold two64, str_cap in *; lia|exact Hok].
    - destruct Hok as [Hcid Hlen]. cbn [encb]. unfold enc_link. rewrite <- !app_assoc.
      eapply DvTag; [apply rd_head_of_head; unfold two64, go_linkTag; lia|unfold two63, go_linkTag; lia|].
      apply DvLink; [apply rd_head_of_head; unfold two64, str_cap in *; lia|exact Hlen|exact Hlinks|exact Hcid].
    - apply rt_ok_list in Hok as [Hlen Hall]. cbn [encb]. rewrite <- app_assoc, <- (lenN_map (sortv m) l) in *.
      eapply DvList; [apply rd_head_of_head; unfold two64, two63 in *; lia|exact Hlen|exact I|]. now apply rt_items.
    - apply rt_ok_map in Hok as (Hlen & Hnd & Hall).
      rewrite encb_map, <- app_assoc, sort_entries_map_snd.
      pose proof (sort_entries_perm m es) as HP.
      replace (lenN es) with (lenN (map (fun kv => (fst kv, sortv m (snd kv))) (sort_entries m es))) in *
        by (rewrite lenN_map; unfold lenN; now rewrite <- (Permutation_length HP)).
      eapply DvMap; [apply rd_head_of_head; unfold two64, two63 in *; lia|exact Hlen|exact I|].
      apply rt_entries.
      + eapply Permutation_Forall; [exact HP|exact IH].
      + eapply Permutation_Forall; [exact HP|exact Hall].
      + eapply Permutation_NoDup; [apply Permutation_map; exact HP|exact Hnd].
  Qed.
End RoundTrip.

(* C02: decoding the encoder's output gives back the value, maps in the emitted (sorted) order *)
Theorem decode_encode m o v :
  d_allow_links o = true -> rt_ok v ->
  (Z.of_nat (dm_depth v) <= max_depth o)%Z -> (cost v <= budget0 o)%Z ->
  decode o (encb m v) = Ok (sortv m v, []).
Proof.
  intros Hl Hok Hd Hc. apply decode_rel_ok; [| | |reflexivity].
  - rewrite <- (app_nil_r (encb m v)). apply rt_all; auto.
  - now rewrite depth_sortv.
  - now rewrite cost_sortv.
Qed.

Lemma pe_sortv m v : perm_eq v (sortv m v).
Proof.
  induction v as [| x | z | f | s | s | c | l IH | es IH] using dm_ind2; cbn [sortv]; try apply pe_refl.
  - apply pe_list. induction IH as [|x r Hx _ IHr]; cbn [map]; constructor; auto.
  - apply (pe_map es (map (fun kv => (fst kv, sortv m (snd kv))) es)); [|apply sort_entries_perm].
    induction IH as [|x r Hx _ IHr]; cbn [map]; constructor; auto.
Qed.

Lemma rt_ok_keys_nodup v : rt_ok v -> keys_nodup v.
Proof.
  apply (keys_nodup_intro rt_ok).
  - intros l H. now apply rt_ok_list in H.
  - intros m H. apply rt_ok_map in H as (_ & ND & H). split; [exact ND|]. eapply Forall_impl; [|exact H]. now intros kv [_ Hkv].
Qed.
