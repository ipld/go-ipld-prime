(* What Props/C19.v concludes from: purity as one proposition ([pure_prop]); the Marshal / Unmarshal round
   trip over a delivery relation ([marshal_roundtrip_rel]); and [asm_perm], BindAsm.asm_rel at the relation
   [perm_eq] of Proofs/CborEnc.v, with which the round trip holds for codecs that reorder map entries. *)
Require Import IP.Base.Bytes IP.DM.Value IP.Bind.GoVal IP.Bind.Bind IP.Bind.Spec.
Require Import IP.Proofs.BindFacts IP.Proofs.BindAsm IP.Proofs.BindRead IP.Proofs.BindPure IP.Proofs.BindRefute.
Require Import IP.Proofs.CborEnc.
From Coq Require Import Permutation.

Definition pure_prop (q : quirks) : Prop :=
  forall n32 cs r,
    run q n32 r cs = map (fun c => snd (step q n32 registry0 c)) cs
    /\ forall c, snd (step q n32 r c) <> OFail PDup.

Lemma pure_repaired_thm : forall q, q_reuse_registered q = true -> pure_prop q.
Proof.
  intros q Hq n32 cs r. split.
  - exact (run_pure q n32 Hq cs r).
  - intros c. exact (step_never_dup q n32 Hq c r).
Qed.

Example repaired_is_pure : pure_prop repaired.
Proof. apply pure_repaired_thm. reflexivity. Qed.

Section Roundtrip.
  Variable q : quirks.
  Variable n32 : N -> N.
  Variable R : dm -> dm -> Prop.
  Hypothesis asm_R : forall t, asm_spec q n32 R LRepr t.
  Variable enc : dm -> bytes.
  Variable dec : bytes -> bres dm.
  Variable encodable : dm -> Prop.
  Hypothesis codec_R : forall d, encodable d -> exists d', dec (enc d) = Ok d' /\ R d d'.

  Lemma marshal_roundtrip_rel : forall t s g,
    is_any t = false -> bindable t s = true -> gv_ok q n32 t s g = true ->
    encodable (denote LRepr t g) ->
    exists b g',
      marshal q enc t s g = Ok b /\ unmarshal q n32 dec t s b = Ok g' /\
      gv_ok q n32 t s g' = true /\
      R (denote LRepr t g) (denote LRepr t g') /\
      view q LRepr t s g' = Ok (denote LRepr t g').
  Proof.
    intros t s g Hany Hb Hg Henc.
    pose proof (bindable_noptr _ _ Hb) as Hnp.
    (* what a well-formed value denotes always fits, so no side condition on the value is left *)
    pose proof (denote_fits q LRepr n32 t s g Hb Hg) as Hfit. rewrite <- (deref1_noptr s Hnp) in Hfit.
    destruct (codec_R _ Henc) as [d' [Hdec Hr]].
    destruct (asm_R t s _ d' (bindable_loc_ok t s Hb) Hfit Hr) as [g' [Ha [Hok Hden]]].
    rewrite ok_loc_noptr in Hok by exact Hnp.
    exists (enc (denote LRepr t g)), g'.
    unfold marshal, unmarshal. rewrite (view_denote q LRepr n32 t Hany s g Hb Hg). cbn [bind].
    rewrite Hdec. cbn [bind].
    repeat split; try assumption.
    exact (view_denote q LRepr n32 t Hany s g' Hb Hok).
  Qed.
End Roundtrip.

Lemma pe_leaf : forall d d', perm_eq d d' -> is_container d = false -> d' = d.
Proof. intros d d' H Hc. inversion H; subst; simpl in Hc; try discriminate; reflexivity. Qed.

Lemma pe_list_inv : forall l d', perm_eq (DList l) d' -> exists l', d' = DList l' /\ Forall2 perm_eq l l'.
Proof.
  intros l d' H. inversion H; subst.
  - exists l. split; [reflexivity|]. apply F2_refl. apply pe_refl.
  - eauto.
Qed.

Lemma pe_map_inv : forall m d', perm_eq (DMap m) d' ->
  exists m2 m', d' = DMap m' /\ Forall2 (ent_rel perm_eq) m m2 /\ Permutation m2 m'.
Proof.
  intros m d' H. inversion H; subst.
  - exists m, m. split; [reflexivity|]. split; [|apply Permutation_refl].
    apply F2_refl. intros x. split; [reflexivity | apply pe_refl].
  - exists m2, m2'. auto.
Qed.

(* up to entry order only: Go structs come out identical (fields have their place), but Go maps keep the
   delivered order in Keys and Any keeps the delivered tree *)
Theorem asm_perm : forall q n32 lv t, asm_spec q n32 perm_eq lv t.
Proof.
  intros q n32.
  exact (asm_rel q n32 perm_eq (@Permutation _) pe_refl pe_leaf pe_list pe_list_inv pe_map pe_map_inv
           (@Permutation_refl _) (fun _ _ H => H) (fun G => Permutation_map G)).
Qed.
